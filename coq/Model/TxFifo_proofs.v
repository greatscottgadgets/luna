(* C18 -- the TransactionalizedFIFO model (Model/TxFifo.v).  txfifo_refines: the pointer/memory model refines the
   abstract commit/rollback queue, for all depths and all input histories; the abstraction function tf_abs reads the
   three regions between the four pointers off the memory.  The invariant tf_inv is read as a layout: r, cw and w lie
   a, a + b and a + b + c steps on from cr, and every port operation is arithmetic on a, b, c.  Of the abstract queue:
   aq_order (no entry is lost, duplicated or reordered) and aq_held_le (never more than `depth` entries).  tf_dec_enc,
   tf_wf_step and tf_mrun are for the lock-step tie. *)
From Coq Require Import NArith List Bool Arith Lia.
Import ListNotations.
From LunaLib Require Import Machine PackN ListMem SymWord.
From LunaModel Require Import TxFifo.
Open Scope nat_scope.

Section Ring.
  Variable depth : nat.
  Notation wrap := (wrap depth).
  Notation dist := (dist depth).
  Notation ring := (ring depth).
  Notation next := (tf_next depth).

  (* wrap, next and dist are each one comparison; the lemmas about them use nothing but these linear readings,
     which lia splits by itself *)
  Lemma wrap_spec : forall x, x <= depth /\ wrap x = x \/ depth < x /\ wrap x = x - S depth.
  Proof. intro x. unfold wrap. destruct (Nat.leb_spec x depth); lia. Qed.

  Lemma next_spec : forall a, a = depth /\ next a = 0 \/ a <> depth /\ next a = S a.
  Proof. intro a. unfold tf_next. destruct (Nat.eqb_spec a depth); lia. Qed.

  Lemma dist_spec : forall a b, a <= b /\ dist a b = b - a \/ b < a /\ dist a b = b + S depth - a.
  Proof. intros a b. unfold dist. destruct (Nat.leb_spec a b); lia. Qed.

  (* wrap (p + k) is the cell k steps on from p.  Steps add up as long as they do not go all the way round
     (walk_walk), and dist counts them (dist_walk, walk_dist). *)
  Lemma walk_le : forall p k, p <= depth -> k <= S depth -> wrap (p + k) <= depth.
  Proof. intros p k Hp Hk. pose proof (wrap_spec (p + k)). lia. Qed.

  Lemma walk_0 : forall p, p <= depth -> wrap (p + 0) = p.
  Proof. intros p Hp. pose proof (wrap_spec (p + 0)). lia. Qed.

  Lemma walk_walk : forall p j k, p <= depth -> j + k <= S depth -> wrap (wrap (p + j) + k) = wrap (p + (j + k)).
  Proof.
    intros p j k Hp H.
    pose proof (wrap_spec (p + j)). pose proof (wrap_spec (p + (j + k))). pose proof (wrap_spec (wrap (p + j) + k)). lia.
  Qed.

  Lemma walk_dist : forall a b, a <= depth -> b <= depth -> wrap (a + dist a b) = b.
  Proof. intros a b Ha Hb. pose proof (dist_spec a b). pose proof (wrap_spec (a + dist a b)). lia. Qed.

  Lemma dist_walk : forall p k, p <= depth -> k <= depth -> dist p (wrap (p + k)) = k.
  Proof. intros p k Hp Hk. pose proof (wrap_spec (p + k)). pose proof (dist_spec p (wrap (p + k))). lia. Qed.

  Lemma dist_between : forall p j k, p <= depth -> j + k <= depth -> dist (wrap (p + j)) (wrap (p + (j + k))) = k.
  Proof. intros p j k Hp H. rewrite <- walk_walk by lia. apply dist_walk; [apply walk_le|]; lia. Qed.

  Lemma next_walk : forall a, a <= depth -> next a = wrap (a + 1).
  Proof. intros a H. pose proof (next_spec a). pose proof (wrap_spec (a + 1)). lia. Qed.

  Lemma next_le : forall a, a <= depth -> next a <= depth.
  Proof. intros a H. rewrite next_walk by exact H. apply walk_le; lia. Qed.

  Lemma dist_refl : forall a, dist a a = 0.
  Proof. intro a. pose proof (dist_spec a a). lia. Qed.

  Lemma dist_zero : forall a b, a <= depth -> b <= depth -> dist a b = 0 -> a = b.
  Proof. intros a b Ha Hb H. pose proof (dist_spec a b). lia. Qed.

  Lemma eqb_dist : forall a b, a <= depth -> b <= depth -> (a =? b) = (dist a b =? 0).
  Proof.
    intros a b Ha Hb. destruct (Nat.eqb_spec a b) as [->|Hne]; [rewrite dist_refl; reflexivity|].
    symmetry. apply Nat.eqb_neq. intro E. exact (Hne (dist_zero a b Ha Hb E)).
  Qed.

  (* full: the cell after w is cr, i.e. all `depth` usable cells lie between cr and w *)
  Lemma next_eqb_dist : forall a b, a <= depth -> b <= depth -> (next b =? a) = (dist a b =? depth).
  Proof.
    intros a b Ha Hb. pose proof (next_spec b). pose proof (dist_spec a b).
    destruct (Nat.eqb_spec (next b) a), (Nat.eqb_spec (dist a b) depth); try reflexivity; lia.
  Qed.

  (* space_available: the cells from w on to cr, less the one that is never used *)
  Lemma space_dist : forall st, tf_cr st <= depth -> tf_w st <= depth ->
    tf_space depth st = depth - dist (tf_cr st) (tf_w st).
  Proof.
    intros st Hcr Hw. unfold tf_space, tf_full. rewrite next_eqb_dist by assumption.
    destruct (Nat.eqb_spec (dist (tf_cr st) (tf_w st)) depth) as [->|_]; [lia|].
    unfold dist. destruct (Nat.leb_spec (tf_cr st) (tf_w st)); [reflexivity | lia].
  Qed.

  Lemma ring_length : forall m a n, length (ring m a n) = n.
  Proof. intros. unfold ring. rewrite map_length, seq_length. reflexivity. Qed.

  Lemma ring_0 : forall m a, ring m a 0 = [].
  Proof. reflexivity. Qed.

  Lemma ring_S : forall m a n, ring m a (S n) = ring m a n ++ [nth (wrap (a + n)) m 0%N].
  Proof. intros. unfold ring. rewrite seq_S, map_app. reflexivity. Qed.

  Lemma ring_app : forall m a n1 n2, a <= depth -> n1 + n2 <= S depth ->
    ring m a (n1 + n2) = ring m a n1 ++ ring m (wrap (a + n1)) n2.
  Proof.
    intros m a n1 n2 Ha. induction n2 as [|n2 IH]; intro Hn.
    - rewrite Nat.add_0_r, app_nil_r. reflexivity.
    - rewrite Nat.add_succ_r, !ring_S, IH, <- app_assoc, walk_walk by lia. reflexivity.
  Qed.

  Lemma ring_1 : forall m a, a <= depth -> ring m a 1 = [nth a m 0%N].
  Proof. intros m a Ha. unfold ring. cbn [seq map]. rewrite walk_0 by exact Ha. reflexivity. Qed.

  (* a write to the cell n steps on from p leaves the cells before it as they were *)
  Lemma ring_upd_before : forall m p j k n v q, p <= depth -> j + k <= n -> n <= depth -> wrap (p + j) = q ->
    ring (upd (wrap (p + n)) v m) q k = ring m q k.
  Proof.
    intros m p j k n v q Hp H Hn <-. unfold ring. apply map_ext_in. intros i Hi. apply in_seq in Hi.
    apply nth_upd_other. rewrite walk_walk by lia. intro E. apply (f_equal (dist p)) in E.
    rewrite !dist_walk in E by lia. lia.
  Qed.

  (* The pointers r, cw and w lie a, a + b and a + b + c steps on from cr, less than once round: the three regions
     hold a, b and c cells.  A port operation changes these numbers (a read commit also the base cr), so that what
     it does to the pointers is linear arithmetic on a, b, c, and tf_inv / tf_abs, which are stated with dist, are
     met once (layout_dist). *)
  Definition layout (cr r cw w a b c : nat) : Prop :=
    cr <= depth /\ a + b + c <= depth /\
    r = wrap (cr + a) /\ cw = wrap (cr + (a + b)) /\ w = wrap (cr + (a + b + c)).

  Definition regions (m : list N) (cr a b c : nat) : aq :=
    {| aq_tent := ring m cr a; aq_avail := ring m (wrap (cr + a)) b; aq_pend := ring m (wrap (cr + (a + b))) c |}.

  Lemma layout_dist : forall cr r cw w a b c, layout cr r cw w a b c ->
    r <= depth /\ cw <= depth /\ w <= depth /\
    dist cr r = a /\ dist r cw = b /\ dist cw w = c /\ dist cr w = a + b + c.
  Proof.
    intros cr r cw w a b c (Hcr & Hn & -> & -> & ->).
    repeat split; try (apply walk_le; lia); [apply dist_walk | apply dist_between | apply dist_between | apply dist_walk]; lia.
  Qed.

  (* unless nothing is readable, the cell at r, which the read register mirrors, is not the one at w *)
  Lemma layout_head : forall cr r cw w a b c, layout cr r cw w a b c -> r <> cw -> r <> w.
  Proof.
    intros cr r cw w a b c L Hne E. destruct (layout_dist _ _ _ _ _ _ _ L) as (_ & _ & _ & Ea & _ & _ & Et).
    destruct L as (_ & _ & Hr & Hcw & _). apply Hne. rewrite Hr, Hcw. f_equal. rewrite <- E, Ea in Et. lia.
  Qed.
End Ring.

(* Refinement: the model's step is the read port followed by the write port, and each commutes
   with the abstraction function. *)
Section Refine.
  Variable depth : nat.
  Notation wrap := (wrap depth).
  Notation dist := (dist depth).
  Notation ring := (ring depth).
  Notation next := (tf_next depth).
  Notation layout := (layout depth).
  Notation regions := (regions depth).

  (* tf_inv says that the pointers have a layout, tf_abs reads its regions *)
  Lemma inv_layout : forall st, tf_inv depth st ->
    layout (tf_cr st) (tf_r st) (tf_cw st) (tf_w st)
           (dist (tf_cr st) (tf_r st)) (dist (tf_r st) (tf_cw st)) (dist (tf_cw st) (tf_w st)).
  Proof.
    intros st (Hcr & Hr & Hcw & Hw & _ & Hd & _). split; [exact Hcr|]. split; [exact Hd|].
    rewrite <- !walk_walk, !walk_dist by (try assumption; lia). repeat split.
  Qed.

  Lemma layout_inv : forall st a b c, layout (tf_cr st) (tf_r st) (tf_cw st) (tf_w st) a b c ->
    tf_abs depth st = regions (tf_mem st) (tf_cr st) a b c /\
    (length (tf_mem st) = S depth -> (tf_r st <> tf_cw st -> tf_rdata st = nth (tf_r st) (tf_mem st) 0%N) ->
     tf_inv depth st).
  Proof.
    intros st a b c L. destruct (layout_dist depth _ _ _ _ _ _ _ L) as (Hr & Hcw & Hw & Ea & Eb & Ec & _).
    destruct L as (Hcr & Hn & Er & Ecw & _). unfold tf_abs, tf_inv, regions.
    rewrite Ea, Eb, Ec, <- Er, <- Ecw. repeat split; assumption.
  Qed.

  (* One output at a time, each from its own lemma (eqb_dist, next_eqb_dist, space_dist): read off wrap_spec,
     next_spec and dist_spec in one go, the three outputs are a case analysis over five comparisons, whose lia
     certificates take coqchk seconds to check again. *)
  Lemma layout_status : forall st a b c, layout (tf_cr st) (tf_r st) (tf_cw st) (tf_w st) a b c ->
    tf_empty st = (b =? 0) /\ tf_full depth st = (a + b + c =? depth) /\ tf_space depth st = depth - (a + b + c).
  Proof.
    intros st a b c L. destruct (layout_dist depth _ _ _ _ _ _ _ L) as (Hr & Hcw & Hw & _ & <- & _ & <-).
    destruct L as (Hcr & _). split; [apply eqb_dist; assumption|]. split; [apply next_eqb_dist | apply space_dist]; assumption.
  Qed.

  (* what a read request takes: the cell at r, unless nothing is readable *)
  Lemma take_ring : forall en m r b, r <= depth -> b <= depth ->
    let t := if en && negb (b =? 0) then 1 else 0 in
    t <= b /\ (if en && negb (b =? 0) then next r else r) = wrap (r + t) /\
    aq_take en (ring m r b) = (ring m r t, ring m (wrap (r + t)) (b - t)).
  Proof.
    intros en m r b Hr Hb. cbv zeta.
    destruct b as [|b]; [rewrite andb_false_r; cbv iota; rewrite walk_0 by exact Hr; repeat split; apply le_n|].
    destruct en; cbn [andb Nat.eqb negb].
    - split; [lia|]. split; [apply next_walk, Hr|].
      change (S b) with (1 + b) at 1. rewrite ring_app, ring_1, Nat.sub_succ, Nat.sub_0_r by (try assumption; lia). reflexivity.
    - rewrite walk_0, Nat.sub_0_r by exact Hr. split; [lia|]. split; [reflexivity|]. destruct (ring m r (S b)); reflexivity.
  Qed.

  (* Read port: the read pointers of the next state, taken with the write pointers and the memory of this state. *)
  Lemma read_port_ok : forall st i a b c, layout (tf_cr st) (tf_r st) (tf_cw st) (tf_w st) a b c ->
    let st' := tf_next_state depth st i in
    exists a' b', a' + b' <= a + b /\ layout (tf_cr st') (tf_r st') (tf_cw st) (tf_w st) a' b' c /\
      regions (tf_mem st) (tf_cr st') a' b' c = aq_read_port i (regions (tf_mem st) (tf_cr st) a b c).
  Proof.
    intros st i a b c L. destruct (layout_dist depth _ _ _ _ _ _ _ L) as (Hr' & _).
    destruct (layout_status st a b c L) as (He & _). destruct L as (Hcr & Hn & Hr & Hcw & Hw).
    unfold tf_next_state, aq_read_port, regions, layout.
    cbn [tf_cr tf_r aq_tent aq_avail aq_pend]. rewrite He, <- Hr.
    destruct (take_ring (fi_read_en i) (tf_mem st) (tf_r st) b Hr') as (Ht & -> & ->); [lia|].
    set (t := if _ && _ then 1 else 0) in *.
    destruct (fi_read_discard i); cbn [negb]; [|rewrite andb_true_r; destruct (fi_read_commit i)].
    - (* discard: r := cr *)
      exists 0, (a + b). rewrite andb_false_r. cbn [Nat.add].
      rewrite walk_0, (ring_app depth _ _ a b), <- Hr by (try assumption; lia). repeat split; assumption || lia.
    - (* commit: cr := r, then r moves on *)
      exists t, (b - t). replace (t + (b - t)) with b by lia.
      rewrite Hr, !walk_walk, (Nat.add_assoc a b c), <- Hcw, <- Hw by lia. repeat split; try apply walk_le; lia.
    - exists (a + t), (b - t). rewrite Hr at 1 3. rewrite (ring_app depth _ _ a t), !walk_walk, <- Hr by (try assumption; lia).
      replace (a + t + (b - t)) with (a + b) by lia. repeat split; assumption || lia.
  Qed.

  (* the write to the cell at w by itself, before commit or discard move cw and w; u = number of cells written (0 or 1) *)
  Lemma store_ring : forall cr r cw w a b c m v (push : bool), layout cr r cw w a b c -> length m = S depth ->
    (push = true -> a + b + c < depth) ->
    let m' := if push then upd w v m else m in
    let u := if push then 1 else 0 in
    length m' = S depth /\ (r <> w -> nth r m 0%N = nth r m' 0%N) /\
    regions m' cr a b c = regions m cr a b c /\
    (if push then next w else w) = wrap (cr + (a + b + c + u)) /\ a + b + c + u <= depth /\
    ring m' w u = if push then [v] else [].
  Proof.
    intros cr r cw w a b c m v push L Hl Hp. destruct (layout_dist depth _ _ _ _ _ _ _ L) as (_ & _ & Hw' & _).
    destruct L as (Hcr & Hn & Hr & Hcw & Hw). destruct push; cbv zeta.
    - specialize (Hp eq_refl). rewrite next_walk, ring_1, nth_upd_same, upd_length, Hw, walk_walk by (rewrite ?Hl; lia).
      split; [exact Hl|]. split; [intro Hne; symmetry; apply nth_upd_other, not_eq_sym, Hne|].
      split; [|repeat split; lia].
      unfold regions. f_equal; [apply (ring_upd_before depth _ cr 0) | apply (ring_upd_before depth _ cr a)
        | apply (ring_upd_before depth _ cr (a + b))]; try lia. apply walk_0, Hcr.
    - rewrite Nat.add_0_r. repeat split; assumption.
  Qed.

  (* Write port: the write pointers and the memory of the next state, with any read pointers *)
  Lemma write_port_ok : forall st i cr r a b c, layout cr r (tf_cw st) (tf_w st) a b c ->
    length (tf_mem st) = S depth -> (tf_full depth st = false -> a + b + c < depth) ->
    let st' := tf_next_state depth st i in
    length (tf_mem st') = S depth /\
    (r <> tf_cw st' -> nth r (tf_mem st) 0%N = nth r (tf_mem st') 0%N) /\
    exists b' c', layout cr r (tf_cw st') (tf_w st') a b' c' /\
      regions (tf_mem st') cr a b' c' = aq_write_port (negb (tf_full depth st)) i (regions (tf_mem st) cr a b c).
  Proof.
    intros st i cr r a b c L Hl Hroom. pose proof (layout_head depth _ _ _ _ _ _ _ L) as Hhd.
    destruct (store_ring cr r _ _ a b c (tf_mem st) (fi_write_data i) (fi_write_en i && negb (tf_full depth st)) L Hl)
      as (Hl' & Hrd & <- & Hw1 & Hn1 & Hs).
    { intro E. apply andb_true_iff in E as [_ E]. apply Hroom, negb_true_iff, E. }
    destruct L as (Hcr & Hn & Hr & Hcw & Hw).
    unfold tf_next_state, aq_write_port, regions, layout.
    cbn [tf_cw tf_w tf_mem aq_tent aq_avail aq_pend]. rewrite <- Hs, Hw1. split; [exact Hl'|].
    set (u := if _ && _ then 1 else 0) in *. set (m' := if _ && _ then _ else _) in *.
    destruct (fi_write_discard i); cbn [negb]; [|rewrite andb_true_r; destruct (fi_write_commit i)].
    - (* discard: w := cw *)
      rewrite andb_false_r. split; [exact (fun Hne => Hrd (Hhd Hne))|]. exists b, 0.
      rewrite Nat.add_0_r, <- Hcw. repeat split; assumption || lia.
    - (* commit: cw := w, then w moves on *)
      split; [exact Hrd|]. exists (b + c), u.
      rewrite (ring_app depth _ _ b c), walk_walk, (Nat.add_assoc a b c), <- Hw by (try apply walk_le; lia).
      repeat split; assumption || lia.
    - split; [exact (fun Hne => Hrd (Hhd Hne))|]. exists b, (c + u).
      rewrite (ring_app depth _ _ c u), walk_walk, (Nat.add_assoc (a + b) c u), <- Hw by (try apply walk_le; lia).
      repeat split; assumption || lia.
  Qed.

  Lemma held_regions : forall m cr a b c, aq_held (regions m cr a b c) = a + b + c.
  Proof. intros. unfold aq_held, regions. cbn [aq_tent aq_avail aq_pend]. rewrite !ring_length. reflexivity. Qed.

  Theorem step_commutes : forall st i, tf_inv depth st ->
    tf_inv depth (tf_next_state depth st i) /\
    tf_abs depth (tf_next_state depth st i) = aq_next depth (tf_abs depth st) i.
  Proof.
    intros st i Hinv. pose proof (inv_layout st Hinv) as L.
    destruct (layout_status _ _ _ _ L) as (_ & Hf & _). destruct (layout_inv _ _ _ _ L) as [-> _].
    destruct (read_port_ok st i _ _ _ L) as (a' & b' & Hab & L1 & E1).
    destruct (write_port_ok st i _ _ _ _ _ L1) as (Hl & Hrd & b'' & c' & L2 & E2).
    - apply Hinv.
    - (* full is that of the start of the cycle; the read port has only released cells since *)
      rewrite Hf. intro F. apply Nat.eqb_neq in F. destruct L as (_ & Hd & _). lia.
    - destruct (layout_inv _ _ _ _ L2) as [-> Hinv']. split; [exact (Hinv' Hl Hrd)|].
      unfold aq_next. rewrite held_regions, <- Hf, <- E1. exact E2.
  Qed.

  Theorem observe_commutes : forall st, tf_inv depth st ->
    tf_observe (tf_outputs depth st) = aq_observe depth (tf_abs depth st).
  Proof.
    intros st Hinv. pose proof (inv_layout st Hinv) as L.
    destruct (layout_status _ _ _ _ L) as (He & Hf & Hs). destruct (layout_inv _ _ _ _ L) as [-> _].
    unfold tf_observe, aq_observe, tf_outputs. cbn [fo_read_data fo_empty fo_full fo_space].
    rewrite held_regions, He, Hf, Hs. unfold regions. cbn [aq_avail].
    destruct L as (_ & _ & <- & _). destruct (dist (tf_r st) (tf_cw st)) eqn:E; [reflexivity|].
    destruct Hinv as (_ & Hr & _ & _ & _ & _ & Hrd).
    rewrite Hrd by (intro Eq; rewrite Eq, dist_refl in E; discriminate E).
    unfold ring. cbn [seq map hd_error Nat.eqb]. rewrite walk_0 by exact Hr. reflexivity.
  Qed.

  Theorem txfifo_refines : forall ins st, tf_inv depth st ->
    map tf_observe (tf_run depth st ins) = aq_run depth (tf_abs depth st) ins.
  Proof.
    induction ins as [|i t IH]; intros st Hinv; [reflexivity|].
    cbn [tf_run aq_run map]. destruct (step_commutes st i Hinv) as [Hinv' Habs].
    rewrite (observe_commutes st Hinv). f_equal. rewrite IH by exact Hinv'. rewrite Habs. reflexivity.
  Qed.

  Lemma inv_init : tf_inv depth (tf_init depth).
  Proof.
    unfold tf_inv, tf_init. cbn [tf_cw tf_w tf_cr tf_r tf_mem tf_rdata].
    rewrite repeat_length, dist_refl. repeat split; lia.
  Qed.

  Lemma abs_init : tf_abs depth (tf_init depth) = aq_init.
  Proof. unfold tf_abs, tf_init. cbn [tf_cw tf_w tf_cr tf_r tf_mem]. rewrite dist_refl. reflexivity. Qed.

  Corollary txfifo_from_reset : forall ins,
    map tf_observe (tf_run depth (tf_init depth) ins) = aq_run depth aq_init ins.
  Proof. intros. rewrite txfifo_refines by apply inv_init. rewrite abs_init. reflexivity. Qed.
End Refine.

Section Queue.
  Variable depth : nat.

  Lemma aq_take_app : forall en l, fst (aq_take en l) ++ snd (aq_take en l) = l.
  Proof. intros en [|h t]; [|destruct en]; reflexivity. Qed.

  Lemma aq_read_port_order : forall i q,
    aq_finalised_now q i ++ aq_tent (aq_read_port i q) ++ aq_avail (aq_read_port i q) = aq_tent q ++ aq_avail q /\
    aq_pend (aq_read_port i q) = aq_pend q.
  Proof.
    intros i [tent avail pend]. unfold aq_read_port, aq_finalised_now. cbn [aq_tent aq_avail aq_pend].
    generalize (aq_take_app (fi_read_en i) avail). destruct (aq_take (fi_read_en i) avail) as [took rest].
    cbn [fst snd]. intros <-.
    destruct (fi_read_discard i), (fi_read_commit i); cbn [andb negb aq_tent aq_avail aq_pend app];
      rewrite <- ?app_assoc; split; reflexivity.
  Qed.

  Lemma aq_write_port_order : forall room i q,
    aq_tent (aq_write_port room i q) = aq_tent q /\
    aq_avail (aq_write_port room i q) = aq_avail q ++ aq_committed_now q i.
  Proof.
    intros room i q. unfold aq_write_port, aq_committed_now.
    destruct (fi_write_discard i), (fi_write_commit i); cbn [andb negb aq_tent aq_avail];
      rewrite ?app_nil_r; split; reflexivity.
  Qed.

  Lemma aq_order_step : forall q i,
    aq_finalised_now q i ++ aq_tent (aq_next depth q i) ++ aq_avail (aq_next depth q i) =
    aq_tent q ++ aq_avail q ++ aq_committed_now q i.
  Proof.
    intros q i. unfold aq_next.
    destruct (aq_read_port_order i q) as [E1 E2].
    destruct (aq_write_port_order (negb (aq_held q =? depth)) i (aq_read_port i q)) as [-> ->].
    unfold aq_committed_now. rewrite E2, (app_assoc (aq_tent q)), <- E1, <- !app_assoc. reflexivity.
  Qed.

  (* C18: no entry is lost, duplicated or reordered, starting from any queue state q *)
  Theorem aq_order : forall ins q,
    aq_finalised depth q ins ++ aq_tent (aq_run_state depth q ins) ++ aq_avail (aq_run_state depth q ins) =
    aq_tent q ++ aq_avail q ++ aq_committed depth q ins.
  Proof.
    induction ins as [|i t IH]; intro q; cbn [aq_finalised aq_committed aq_run_state].
    - rewrite app_nil_r. reflexivity.
    - rewrite <- app_assoc, IH, !app_assoc. f_equal. rewrite <- !app_assoc. apply aq_order_step.
  Qed.

  Lemma aq_read_port_held : forall i q, aq_held (aq_read_port i q) <= aq_held q.
  Proof.
    intros i q. destruct (aq_read_port_order i q) as [E1 E2]. apply (f_equal (@length N)) in E1.
    unfold aq_held. rewrite !app_length in E1. rewrite E2. lia.
  Qed.

  Lemma aq_write_port_held : forall room i q,
    aq_held (aq_write_port room i q) <= aq_held q + if room then 1 else 0.
  Proof.
    intros room i [tent avail pend]. unfold aq_write_port, aq_held. cbn [aq_tent aq_avail aq_pend].
    assert (length (if fi_write_en i && room then [fi_write_data i] else []) <= if room then 1 else 0)
      by (destruct (fi_write_en i), room; cbn; lia).
    destruct (fi_write_discard i), (fi_write_commit i); cbn [aq_tent aq_avail aq_pend length];
      rewrite ?app_length; lia.
  Qed.

  Lemma aq_held_step : forall q i, aq_held q <= depth -> aq_held (aq_next depth q i) <= depth.
  Proof.
    intros q i H. unfold aq_next. pose proof (aq_read_port_held i q).
    pose proof (aq_write_port_held (negb (aq_held q =? depth)) i (aq_read_port i q)).
    destruct (Nat.eqb_spec (aq_held q) depth); cbn [negb] in *; lia.
  Qed.

  Theorem aq_held_le : forall ins q, aq_held q <= depth -> aq_held (aq_run_state depth q ins) <= depth.
  Proof.
    induction ins as [|i t IH]; intros q H; cbn [aq_run_state]; [exact H|].
    apply IH, aq_held_step, H.
  Qed.
End Queue.

Lemma tf_dec_enc : forall depth width st, tf_wf depth width st -> tf_dec depth width (tf_enc depth width st) = st.
Proof.
  intros depth width [cw w cr r mem rd] (H1 & H2 & H3 & H4 & H5 & H6 & H7).
  cbn [tf_cw tf_w tf_cr tf_r tf_mem tf_rdata] in *. unfold tf_dec, tf_enc.
  cbn [tf_cw tf_w tf_cr tf_r tf_mem tf_rdata]. cbv zeta.
  rewrite !pk_div, !pk_mod by (try exact H5; lia).
  rewrite !Nat2N.id, <- H6, unpack_pack by exact H7. reflexivity.
Qed.

Lemma tf_wf_next : forall depth width st i, tf_wf depth width st -> (fi_write_data i < 2 ^ width)%N ->
  tf_wf depth width (tf_next_state depth st i).
Proof.
  intros depth width st i (H1 & H2 & H3 & H4 & H5 & H6 & H7) Hwd.
  pose proof (next_le depth _ H2). pose proof (next_le depth _ H4).
  unfold tf_next_state, tf_wf. cbn [tf_cw tf_w tf_cr tf_r tf_mem tf_rdata]. repeat split.
  - destruct (_ && _); assumption.
  - destruct (fi_write_discard i); [|destruct (_ && _)]; assumption.
  - destruct (_ && _); assumption.
  - destruct (fi_read_discard i); [|destruct (_ && _)]; assumption.
  - apply Forall_nth_lt; [apply pow2_pos | exact H7].
  - destruct (_ && _); rewrite ?upd_length; exact H6.
  - destruct (_ && _); [apply upd_Forall|]; assumption.
Qed.

Lemma tf_wf_step : forall depth width st i, tf_wf depth width st ->
  tf_wf depth width (fst (tf_mstep depth width st i)).
Proof. intros depth width st i H. apply tf_wf_next; [exact H | apply bits_lt]. Qed.

Lemma tf_wf_init : forall depth width, tf_wf depth width (tf_init depth).
Proof.
  intros. unfold tf_wf, tf_init. cbn [tf_cw tf_w tf_cr tf_r tf_mem tf_rdata].
  pose proof (pow2_pos width). rewrite repeat_length. repeat split; try lia.
  apply Forall_forall. intros x Hx. apply repeat_spec in Hx. subst. assumption.
Qed.

Lemma tf_mrun : forall depth width tr st,
  run (tf_mstep depth width) st tr = map (tf_pack_out width) (tf_run depth st (map (tf_decode width) tr)).
Proof.
  intros. exact (run_packed (fun st i => (tf_next_state depth st i, tf_outputs depth st)) (tf_decode width)
                   (tf_pack_out width) tr st).
Qed.
