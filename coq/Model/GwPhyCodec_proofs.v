(* C25 -- proofs about the pure line-code specification in GwPhyCodec.v: the byte/bit, stuffing, NRZI and
   framing layers each round-trip, the stuffer never emits seven ones, the unstuffer rejects exactly the
   streams that contain seven ones, and LUNA's "start counting at the payload" stuffer agrees with the
   USB one whenever the first byte does not begin with five ones. *)
From Coq Require Import NArith List Bool Lia Arith.
Import ListNotations.
From LunaLib Require Import Machine ListFacts.
From LunaModel Require Import GwPhyCodec.
Open Scope N_scope.

Lemma byte_of_bits_byte_bits : forall b, b < 256 ->
  byte_of_bits (N.testbit b 0) (N.testbit b 1) (N.testbit b 2) (N.testbit b 3)
               (N.testbit b 4) (N.testbit b 5) (N.testbit b 6) (N.testbit b 7) = b.
Proof.
  intros b Hb. apply N.eqb_eq. revert b Hb. apply (forall_bits_sound 8). vm_compute. reflexivity.
Qed.

Lemma bits_of_bytes_cons : forall b bs, bits_of_bytes (b :: bs) = byte_bits b ++ bits_of_bytes bs.
Proof. reflexivity. Qed.

Theorem bytes_of_bits_of_bytes : forall bs, Forall (fun b => b < 256) bs ->
  bytes_of_bits (bits_of_bytes bs) = Some bs.
Proof.
  induction 1 as [|b bs Hb _ IH].
  - reflexivity.
  - rewrite bits_of_bytes_cons. unfold byte_bits.
    cbn [app bytes_of_bits]. rewrite IH. cbn [option_map].
    rewrite (byte_of_bits_byte_bits b Hb). reflexivity.
Qed.

Theorem unstuff_stuff : forall l n, (n <= 5)%nat -> unstuff n (stuff n l) = Some l.
Proof.
  induction l as [|b t IH]; intros n Hn; [reflexivity|].
  assert (E6 : Nat.eqb n 6 = false) by (apply Nat.eqb_neq; lia).
  destruct b; cbn [stuff].
  - destruct (Nat.eqb_spec n 5) as [->|E].
    + cbn [unstuff Nat.eqb]. rewrite (IH 0%nat) by lia. reflexivity.
    + cbn [unstuff]. rewrite E6, (IH (S n)) by lia. reflexivity.
  - cbn [unstuff]. rewrite E6, (IH 0%nat) by lia. reflexivity.
Qed.

Theorem stuff_max_ones : forall l n, (n <= 5)%nat -> (max_ones n (stuff n l) <= 6)%nat.
Proof.
  induction l as [|b t IH]; intros n Hn; [cbn [stuff max_ones]; lia|].
  pose proof (IH 0%nat). destruct b; cbn [stuff].
  - destruct (Nat.eqb_spec n 5) as [->|E]; cbn [max_ones]; [lia | apply IH; lia].
  - cbn [max_ones]. lia.
Qed.

Lemma max_ones_ge : forall l n, (n <= max_ones n l)%nat.
Proof.
  induction l as [|b t IH]; intros n; cbn [max_ones]; [lia|].
  destruct b; [specialize (IH (S n))|]; lia.
Qed.

Lemma option_map_none : forall (A B : Type) (f : A -> B) o, option_map f o = None <-> o = None.
Proof. intros A B f [x|]; cbn; split; intro H; try discriminate; reflexivity. Qed.

Theorem unstuff_none_iff : forall l n, (n <= 6)%nat ->
  (unstuff n l = None <-> (7 <= max_ones n l)%nat).
Proof.
  induction l as [|b t IH]; intros n Hn.
  - cbn [unstuff max_ones]. split; [discriminate | lia].
  - cbn [unstuff]. destruct (Nat.eqb_spec n 6) as [->|E6].
    + destruct b; cbn [max_ones].
      * split; [intros _ | reflexivity]. pose proof (max_ones_ge t 7). lia.
      * rewrite (IH 0%nat) by lia. lia.
    + rewrite option_map_none. destruct b; cbn [max_ones]; [apply IH; lia | rewrite (IH 0%nat) by lia; lia].
Qed.

Lemma stuff_length_ge : forall l n, (length l <= length (stuff n l))%nat.
Proof.
  induction l as [|b t IH]; intros n; [cbn; lia|].
  pose proof (IH 0%nat). pose proof (IH (S n)).
  destruct b; cbn [stuff]; [destruct (Nat.eqb n 5)|]; cbn [length]; lia.
Qed.

Lemma nrzi_length : forall l p, length (nrzi p l) = length l.
Proof.
  induction l as [|b t IH]; intros p; cbn [nrzi length].
  - reflexivity.
  - rewrite IH. reflexivity.
Qed.

Lemma nrzi_app : forall a b p, nrzi p (a ++ b) = nrzi p a ++ nrzi (last (nrzi p a) p) b.
Proof.
  induction a as [|x a IH]; intros b p; [reflexivity|].
  cbn [app nrzi]. rewrite IH, last_cons. reflexivity.
Qed.

Lemma nrzi_next_jk : forall p (x : bool), p = SJ \/ p = SK ->
  (if x then p else flip p) = SJ \/ (if x then p else flip p) = SK.
Proof. intros p x [-> | ->]; destruct x; cbn; auto. Qed.

Lemma nrzi_jk : forall l p, p = SJ \/ p = SK -> Forall (fun s => s = SJ \/ s = SK) (nrzi p l).
Proof.
  induction l as [|x l IH]; intros p Hp; [constructor|].
  pose proof (nrzi_next_jk p x Hp). cbn [nrzi]. constructor; [|apply IH]; assumption.
Qed.

Lemma nrzi_dec_nrzi : forall l p, p = SJ \/ p = SK -> nrzi_dec p (nrzi p l) = l.
Proof.
  induction l as [|b t IH]; intros p Hp.
  - reflexivity.
  - cbn [nrzi nrzi_dec].
    destruct Hp; subst p; destruct b; cbn [flip sym_eqb]; rewrite IH; auto.
Qed.

Lemma jk_prefix_nrzi : forall l p r, p = SJ \/ p = SK ->
  jk_prefix (nrzi p l ++ S0 :: r) = (nrzi p l, S0 :: r).
Proof.
  induction l as [|b t IH]; intros p r Hp.
  - reflexivity.
  - cbn [nrzi app].
    destruct Hp; subst p; destruct b; cbn [flip jk_prefix]; rewrite IH; auto.
Qed.

Lemma unframe_shape : forall l,
  unframe (nrzi SJ (sync_bits ++ l) ++ eop) =
  match unstuff 1 l with
  | Some d => match bytes_of_bits d with Some bs => RxBytes bs | None => RxMalformed end
  | None => RxStuffError
  end.
Proof.
  intros l. unfold unframe, eop.
  rewrite jk_prefix_nrzi by auto.
  rewrite nrzi_dec_nrzi by auto.
  reflexivity.
Qed.

Theorem unframe_frame : forall bs, Forall (fun b => b < 256) bs -> unframe (frame bs) = RxBytes bs.
Proof.
  intros bs H. unfold frame, frame_bits.
  rewrite unframe_shape.
  rewrite unstuff_stuff by lia.
  rewrite bytes_of_bits_of_bytes by exact H.
  reflexivity.
Qed.

Theorem unframe_violation : forall l, (7 <= max_ones 1 l)%nat ->
  unframe (nrzi SJ (sync_bits ++ l) ++ eop) = RxStuffError.
Proof.
  intros l H. rewrite unframe_shape.
  apply unstuff_none_iff in H; [|lia].
  rewrite H. reflexivity.
Qed.

Lemma frame_length : forall bs,
  length (frame bs) = (8 + length (stuff 1 (bits_of_bytes bs)) + 3)%nat.
Proof.
  intros bs. unfold frame, frame_bits.
  rewrite app_length, nrzi_length, app_length. reflexivity.
Qed.

Lemma frame0_length : forall bs, length (frame0 bs) = (8 + length (stuff 0 (bits_of_bytes bs)) + 3)%nat.
Proof. intro bs. unfold frame0, frame_bits0. rewrite app_length, nrzi_length, app_length. reflexivity. Qed.

Lemma land_pow2 : forall b i, N.testbit b i = true -> N.land b (2 ^ i) = 2 ^ i.
Proof.
  intros b i H. apply N.bits_inj. intro m. rewrite N.land_spec, N.pow2_bits_eqb.
  destruct (N.eqb_spec i m) as [<-|]; [rewrite H; reflexivity | apply andb_false_r].
Qed.

Theorem stuff_first_ok : forall bs, first_ok bs ->
  stuff 0 (bits_of_bytes bs) = stuff 1 (bits_of_bytes bs).
Proof.
  intros [|b bs] H.
  - reflexivity.
  - cbn [first_ok] in H. rewrite bits_of_bytes_cons. unfold byte_bits. cbn [app].
    destruct (N.testbit b 0) eqn:H0; [|reflexivity].
    destruct (N.testbit b 1) eqn:H1; [|reflexivity].
    destruct (N.testbit b 2) eqn:H2; [|reflexivity].
    destruct (N.testbit b 3) eqn:H3; [|reflexivity].
    destruct (N.testbit b 4) eqn:H4; [|reflexivity].
    (* the byte begins with five ones *)
    destruct H. change 31 with (N.lor (2 ^ 0) (N.lor (2 ^ 1) (N.lor (2 ^ 2) (N.lor (2 ^ 3) (2 ^ 4))))).
    rewrite !N.land_lor_distr_r, !land_pow2 by assumption. reflexivity.
Qed.

Corollary frame0_frame : forall bs, first_ok bs -> frame0 bs = frame bs.
Proof.
  intros bs H. unfold frame0, frame, frame_bits0, frame_bits.
  rewrite (stuff_first_ok bs H). reflexivity.
Qed.

Example unframe_ex : unframe (frame [195; 0; 255; 255; 18]) = RxBytes [195; 0; 255; 255; 18].
Proof. vm_compute. reflexivity. Qed.

Example frame0_differs : frame0 [255] <> frame [255].
Proof. vm_compute. intro H. discriminate H. Qed.

(* 0xC3 = 1,1,0,0,0,0,1,1 LSB first; with SYNC's 1 the run is 3 long.  Then 0xFF: with the two trailing
   ones of 0xC3 the sixth one is the fourth bit of 0xFF, after which a 0 (a transition) is inserted. *)
Example frame_ex : frame [195; 255] =
  [SK; SJ; SK; SJ; SK; SJ; SK; SK;
   SK; SK; SJ; SK; SJ; SK; SK; SK;
   SK; SK; SK; SK; SJ; SJ; SJ; SJ; SJ;
   S0; S0; SJ].
Proof. vm_compute. reflexivity. Qed.
