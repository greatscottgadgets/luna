(* C46 -- proofs about the SuperSpeed stream IN endpoint model (Model/SsIn.v).
   ssin_accepted: for every mps with 4 | mps, 4 <= mps <= 1024 and EVERY input history, the referee of SsIn.v accepts
   the model's interface trace (or the environment broke its contract first).  The invariant Inv ties model state to
   referee state: what the referee holds pending is the content of the read buffer followed by that of the write
   buffer, and in each FSM state the referee's protocol position is the matching one.  A step is the environment's
   move (env_move) followed by the referee's judgement of the model's outputs (judged_ok), proved FSM state by state.
   referee_exactly_once: what acceptance means for the data -- a statement about the referee alone.
   ss_dec_enc, ss_wf_init, ss_wf_step: the N-coded model state decodes back and stays within its field widths.
   ssin_accepted_io: ssin_accepted on packed output words.  The lock-step tie of props/C46.py uses these four by name. *)
From Coq Require Import Arith NArith List Bool Lia.
Import ListNotations.
From LunaLib Require Import Netlist Machine SsWords ListFacts.
From LunaModel Require Import SsIn.
Open Scope N_scope.

(* splits the conjunctions that are written out (`repeat split` would unfold wbwf, complete and fits as well) *)
Ltac conjs := repeat match goal with |- _ /\ _ => split end.

(* in place of `injection`, which does not return on Some (set_ref rest ((r_exp r + 1) mod 2 ^ sb) ...) = Some r1 *)
Lemma some_inj : forall {A} (a b : A), Some a = Some b -> a = b.
Proof. intros A a b H. inversion H. reflexivity. Qed.

(* the words of a buffer with their byte counts: 4 each, except that the last one takes what is left *)
Fixpoint witems (ws : list N) (fill : N) : list item :=
  match ws with
  | [] => []
  | w :: t => W w (N.min 4 fill) :: witems t (fill - N.min 4 fill)
  end.

Definition bitems (b : buf) : list item :=
  witems (b_words b) (b_fill b) ++ (if b_ended b then [E] else []).

(* length ws = ceil (fill / 4) *)
Definition fits (ws : list N) (fill : N) : Prop :=
  4 * N.of_nat (length ws) < fill + 4 /\ fill <= 4 * N.of_nat (length ws).

Lemma fits_nil : forall fill, fits [] fill <-> fill = 0.
Proof. intros. unfold fits. simpl. lia. Qed.

Lemma fits_cons : forall w t fill, fits (w :: t) fill -> 0 < fill /\ fits t (fill - N.min 4 fill).
Proof.
  intros w t fill [H1 H2]. cbn [length] in *. rewrite Nat2N.inj_succ in *. unfold fits. lia.
Qed.

Lemma witems_length : forall ws fill, length (witems ws fill) = length ws.
Proof. induction ws; intros; simpl; [reflexivity | rewrite IHws; reflexivity]. Qed.

Lemma witems_snoc : forall ws fill w n,
  fill = 4 * N.of_nat (length ws) -> 1 <= n <= 4 ->
  witems (ws ++ [w]) (fill + n) = witems ws fill ++ [W w n].
Proof.
  induction ws as [|x t IH]; intros fill w n Hf Hn.
  - simpl in *. subst fill. replace (N.min 4 (0 + n)) with n by lia. reflexivity.
  - cbn [length] in Hf. rewrite Nat2N.inj_succ in Hf. cbn [app witems].
    replace (N.min 4 (fill + n)) with 4 by lia. replace (N.min 4 fill) with 4 by lia.
    f_equal. replace (fill + n - 4) with ((fill - 4) + n) by lia. apply IH; lia.
Qed.

Lemma pkt_bytes_witems : forall ws fill, fits ws fill -> pkt_bytes (witems ws fill) = fill.
Proof.
  induction ws as [|w t IH]; intros fill H.
  - apply fits_nil in H. subst. reflexivity.
  - apply fits_cons in H as [Hp Ht]. cbn [witems pkt_bytes]. rewrite IH by exact Ht. lia.
Qed.

Lemma pkt_bytes_app : forall a b, pkt_bytes (a ++ b) = pkt_bytes a + pkt_bytes b.
Proof. induction a as [|[w n|] t IH]; intros; simpl; [reflexivity | rewrite IH; lia | apply IH]. Qed.

Lemma take_pkt_witems : forall ws fill room l, fits ws fill -> fill <= room ->
  take_pkt room (witems ws fill ++ l) =
  match take_pkt (room - fill) l with
  | Some (p, r) => Some (witems ws fill ++ p, r)
  | None => None
  end.
Proof.
  induction ws as [|w t IH]; intros fill room l Hf Hr.
  - apply fits_nil in Hf. subst. simpl. rewrite N.sub_0_r. destruct (take_pkt room l) as [[p r]|]; reflexivity.
  - apply fits_cons in Hf as [Hp Ht]. cbn [witems app take_pkt].
    destruct (N.eqb_spec room 0); [lia|]. destruct (N.leb_spec (N.min 4 fill) room); [|lia].
    rewrite IH by (try exact Ht; lia).
    replace (room - N.min 4 fill - (fill - N.min 4 fill)) with (room - fill) by lia.
    destruct (take_pkt (room - fill) l) as [[p r]|]; reflexivity.
Qed.

Lemma take_pkt_E : forall room l, room <> 0 -> take_pkt room (E :: l) = Some ([], l).
Proof. intros room l H. apply N.eqb_neq in H. cbn. rewrite H. reflexivity. Qed.

Lemma take_pkt_0 : forall l, take_pkt 0 l = Some ([], l).
Proof. destruct l; reflexivity. Qed.

Lemma take_pkt_nil : forall room, room <> 0 -> take_pkt room [] = None.
Proof. intros room H. apply N.eqb_neq in H. cbn. rewrite H. reflexivity. Qed.

Lemma nth_witems : forall k ws fill, (k < length ws)%nat ->
  nth k (witems ws fill) E = W (nth k ws 0) (N.min 4 (fill - 4 * N.of_nat k)).
Proof.
  induction k as [|k IH]; intros [|w t] fill Hk; try (cbn in Hk; lia).
  - cbn. rewrite N.sub_0_r. reflexivity.
  - cbn [witems nth length] in *. rewrite IH by lia. f_equal. lia.
Qed.

Lemma vmask_range : forall n, 1 <= n <= 4 -> 1 <= vmask n < 16.
Proof. intros n H. unfold vmask. rewrite <- N.pred_sub, <- N.ones_equiv. exact (ones_range n 4 H). Qed.

Lemma item_bytes_range : forall ws fill k, fits ws fill -> (k < length ws)%nat ->
  4 * N.of_nat k < fill /\ 1 <= N.min 4 (fill - 4 * N.of_nat k) <= 4.
Proof. intros ws fill k [H1 H2] Hk. lia. Qed.

(* the valid mask LUNA computes for word k is that of the item's byte count *)
Lemma ov_eq : forall fill k, 4 * k < fill ->
  (if fill <=? (k + 1) * 4 then vmask (if fill mod 4 =? 0 then 4 else fill mod 4) else 15) =
  vmask (N.min 4 (fill - 4 * k)).
Proof.
  intros fill k H. destruct (N.leb_spec fill ((k + 1) * 4)) as [Hl|Hl].
  - f_equal. pose proof (N.div_mod fill 4 ltac:(discriminate)) as D. pose proof (N.mod_lt fill 4 ltac:(discriminate)) as L.
    revert D L. generalize (fill / 4) (fill mod 4). intros q r D L. destruct (N.eqb_spec r 0); lia.
  - replace (N.min 4 (fill - 4 * k)) with 4 by lia. reflexivity.
Qed.

Lemma last_word_len : forall ws fill k, fits ws fill -> (k < length ws)%nat ->
  (fill <=? (N.of_nat k + 1) * 4) = (S k =? length ws)%nat.
Proof.
  intros ws fill k [H1 H2] Hk.
  destruct (Nat.eqb_spec (S k) (length ws)); [apply N.leb_le | apply N.leb_gt]; lia.
Qed.

Lemma stream_word : forall i, stream_ok i = true -> i_valid i <> 0 ->
  N.testbit (i_valid i) 0 = true /\ 1 <= nbytes (i_valid i) <= 4 /\ (nbytes (i_valid i) = 4 \/ i_last i = true).
Proof.
  intros i H Hnz. unfold stream_ok in H. cbv zeta in H.
  rewrite orb_true_iff, andb_true_iff, !orb_true_iff, !N.eqb_eq in H.
  destruct H as [[H|H]|[[[H|H]|H] Hl]]; [contradiction| | | |]; rewrite H; cbn; repeat split; try lia; auto.
Qed.

Lemma wb_ready_true : forall mps b, wb_ready mps b = true -> b_fill b + 4 <= mps /\ b_ended b = false.
Proof.
  intros mps b H. unfold wb_ready in H. apply andb_true_iff in H as [H1 H2].
  split; [apply N.leb_le, H1 | apply negb_true_iff, H2].
Qed.

Lemma skipn_S_is_nil : forall {A B : Type} (l : list A) k (x y : B), (k < length l)%nat ->
  match skipn (S k) l with [] => x | _ :: _ => y end = if (S k =? length l)%nat then x else y.
Proof.
  intros A B l k x y Hk. pose proof (skipn_length (S k) l) as Hl.
  destruct (skipn (S k) l), (Nat.eqb_spec (S k) (length l)); cbn [length] in Hl; (reflexivity || lia).
Qed.

Section Inv.
  Variables (mps ep sb : N).
  Hypothesis Hmps_ge4 : 4 <= mps.
  Hypothesis Hmps4 : mps mod 4 = 0.
  Hypothesis Hmps1k : mps <= 1024.

  Lemma mps_words : mps = 4 * (mps / 4).
  Proof. rewrite (N.div_mod mps 4) at 1 by discriminate. rewrite Hmps4. apply N.add_0_r. Qed.

  (* the buffer being filled: whole words until the transfer ends *)
  Definition wbwf (b : buf) : Prop :=
    fits (b_words b) (b_fill b) /\ b_fill b <= mps /\
    (b_ended b = false -> b_fill b = 4 * N.of_nat (length (b_words b))) /\ (b_ended b = true -> 0 < b_fill b).
  Definition complete (b : buf) : Prop :=
    fits (b_words b) (b_fill b) /\ 0 < b_fill b <= mps /\ (b_fill b = mps \/ b_ended b = true).
  (* the read buffer that stands for a pending zero-length packet *)
  Definition zlp_buf : buf := {| b_words := []; b_fill := 0; b_ended := true |}.

  Definition rb_items (s : ss_state) : list item := witems (b_words (s_rb s)) (b_fill (s_rb s)).

  (* the tx register holds word k of the read buffer (in SEND_PACKET s_pos = S k, the next word to fetch; WAIT_FOR_ACK
     clears s_pos) *)
  Definition reg_holds (s : ss_state) (k : nat) : Prop :=
    s_op s = nth k (b_words (s_rb s)) 0 /\
    s_ov s = vmask (N.min 4 (b_fill (s_rb s) - 4 * N.of_nat k)) /\
    s_of s = (k =? 0)%nat /\
    s_ol s = (S k =? length (b_words (s_rb s)))%nat.

  (* the referee either follows the packet, word k on offer, or is about to see its first word: the cycle of the
     request leaves r_req = Some 1, the cycle that loads word 0 into the register Some 2, and in the next tx.valid
     is up -- the `k <? 2` of ck_deadline *)
  Definition fly_rel (s : ss_state) (r : ref_state) (k : nat) : Prop :=
    (r_fly r = Some ((k =? 0)%nat, skipn k (rb_items s)) /\ r_req r = None /\ r_out r = true) \/
    (k = O /\ r_fly r = None /\ r_req r = Some 2).

  (* No clause speaks of r_gen: env_phase gives i_hsready i = negb (r_gen r) anew in every cycle, and host_turn (below, with
     env_move) gives r_gen r = false where the host addresses the endpoint.  WAIT_FOR_DATA keeps b_fill (s_rb s) = 0 because the
     swap in ss_next gives the new write buffer the old read buffer's fill count. *)
  Definition Inv (s : ss_state) (r : ref_state) : Prop :=
    s_seq s = r_exp r /\ wbwf (s_wb s) /\
    match s_fsm s with
    | WAIT_FOR_DATA =>
        r_pend r = bitems (s_wb s) /\ wb_ready mps (s_wb s) = true /\ b_fill (s_rb s) = 0 /\
        r_out r = false /\ r_req r = None /\ r_fly r = None /\ r_nrdy r = s_erdy s /\ s_ov s = 0 /\ s_pos s = 0
    | REQUEST_IN_TOKEN =>
        r_pend r = bitems (s_rb s) ++ bitems (s_wb s) /\ complete (s_rb s) /\
        r_out r = false /\ r_req r = None /\ r_fly r = None /\ r_nrdy r = true /\ s_erdy s = true /\ s_ov s = 0 /\ s_pos s = 0
    | WAIT_TO_SEND =>
        r_pend r = bitems (s_rb s) ++ bitems (s_wb s) /\ (complete (s_rb s) \/ s_rb s = zlp_buf) /\
        r_out r = false /\ r_req r = None /\ r_fly r = None /\ r_nrdy r = false /\ s_erdy s = false /\ s_ov s = 0 /\ s_pos s = 0
    | SEND_PACKET =>
        r_pend r = bitems (s_rb s) ++ bitems (s_wb s) /\ complete (s_rb s) /\
        r_nrdy r = false /\ s_erdy s = false /\ s_lpz s = false /\
        ((s_pos s = 0 /\ s_ov s = 0 /\ r_fly r = None /\ r_req r = Some 1) \/
         (exists k, s_pos s = N.of_nat (S k) /\ (S k < length (b_words (s_rb s)))%nat /\
                    reg_holds s k /\ fly_rel s r k))
    | WAIT_FOR_ACK =>
        r_nrdy r = false /\ s_erdy s = false /\
        if s_lpz s then
          (* the zero-length packet is out: sending it cleared b_ended (set_ended _ false in ss_next), s_lpz stands for the E *)
          r_pend r = E :: bitems (s_wb s) /\ s_rb s = buf_empty /\
          s_ov s = 0 /\ r_fly r = None /\ r_req r = None /\ r_out r = true
        else
          r_pend r = bitems (s_rb s) ++ bitems (s_wb s) /\ complete (s_rb s) /\
          ((s_ov s = 0 /\ r_fly r = None /\ r_req r = None /\ r_out r = true) \/
           (exists k, S k = length (b_words (s_rb s)) /\ reg_holds s k /\ fly_rel s r k))
    end.

  Lemma empty_wbwf : wbwf buf_empty.
  Proof.
    (* this `clear` and those below: `lia` would take the hypotheses, and the lemma would carry them after `End` *)
    clear Hmps_ge4 Hmps4 Hmps1k. unfold wbwf, fits. cbn. repeat split; try lia; try discriminate; reflexivity.
  Qed.

  Lemma Inv_init : Inv ss_init ref_init.
  Proof.
    split; [reflexivity|]. split; [exact empty_wbwf|]. cbn. conjs; try reflexivity.
    unfold wb_ready. cbn. rewrite andb_true_r. apply N.leb_le, Hmps_ge4.
  Qed.

  Lemma take_complete : forall b l, complete b ->
    take_pkt mps (bitems b ++ l) =
    Some (witems (b_words b) (b_fill b), (if (b_fill b =? mps) && b_ended b then [E] else []) ++ l).
  Proof.
    clear Hmps_ge4 Hmps4 Hmps1k. intros b l [Hf [Hr Hc]]. unfold bitems. rewrite <- app_assoc.
    rewrite take_pkt_witems by (try exact Hf; lia).
    destruct (b_fill b =? mps) eqn:Em.
    - apply N.eqb_eq in Em. rewrite Em, N.sub_diag, take_pkt_0, app_nil_r. reflexivity.
    - apply N.eqb_neq in Em. destruct Hc as [Hc|Hc]; [contradiction|]. rewrite Hc. cbn [app andb].
      rewrite take_pkt_E by lia. rewrite app_nil_r. reflexivity.
  Qed.

  Lemma take_open : forall b, wbwf b -> wb_ready mps b = true -> take_pkt mps (bitems b) = None.
  Proof.
    clear Hmps_ge4 Hmps4 Hmps1k. intros b [Hf [Hle [Hm He]]] Hr. apply wb_ready_true in Hr as [Hr1 Hr2]. unfold bitems. rewrite Hr2.
    rewrite take_pkt_witems by (try exact Hf; lia). cbn [app]. rewrite take_pkt_nil by lia. reflexivity.
  Qed.

  Lemma take_zlp : forall l, take_pkt mps (E :: l) = Some ([], l).
  Proof. clear Hmps4 Hmps1k. intros. apply take_pkt_E. lia. Qed.

  Lemma closed_complete : forall b, wbwf b -> wb_ready mps b = false -> complete b.
  Proof.
    clear Hmps1k. intros b [Hf [Hle [Hm He]]] Hr. unfold wb_ready in Hr. unfold complete.
    destruct (b_ended b) eqn:Ee.
    - specialize (He eq_refl). split; [exact Hf|]. split; [lia|]. right. reflexivity.
    - specialize (Hm eq_refl). rewrite andb_true_r in Hr. apply N.leb_gt in Hr.
      split; [exact Hf|]. split; [|left]; pose proof mps_words; lia.
  Qed.

  Lemma write_step : forall s i, wbwf (s_wb s) -> stream_ok i = true ->
    wbwf (wb_after mps s i) /\
    bitems (wb_after mps s i) = bitems (s_wb s) ++ accepted_items i (ss_outputs mps ep sb s i) /\
    wb_ready mps (wb_after mps s i) = wb_ready mps (s_wb s) && negb (completing mps s i).
  Proof.
    clear Hmps_ge4 Hmps1k. intros s i Hw Hs. unfold wb_after, accepted_items, wr_en, completing. cbn [ss_outputs o_ready].
    destruct (negb (i_valid i =? 0) && wb_ready mps (s_wb s)) eqn:Ew.
    2:{ split; [exact Hw|]. split; [symmetry; apply app_nil_r|]. destruct (wb_ready mps (s_wb s)); [|reflexivity].
        rewrite andb_true_r in Ew. apply negb_false_iff, N.eqb_eq in Ew. rewrite Ew. reflexivity. }
    apply andb_true_iff in Ew as [Hv Hr]. apply negb_true_iff, N.eqb_neq in Hv.
    destruct (stream_word i Hs Hv) as (Hb & Hn & Hl). rewrite Hb, Hr. clear Hs Hv Hb.
    destruct Hw as (Hf & Hle & Hm & He). destruct (wb_ready_true _ _ Hr) as [Hr1 Hr2].
    specialize (Hm Hr2).
    assert (Hall : firstn (N.to_nat (b_fill (s_wb s) / 4)) (b_words (s_wb s)) = b_words (s_wb s))
      by (rewrite Hm, N.mul_comm, N.div_mul, Nat2N.id by discriminate; apply firstn_all).
    rewrite Hall.
    unfold wbwf, fits, bitems, wb_ready. cbn [b_words b_fill b_ended]. rewrite Hr2. cbn [orb app].
    rewrite (witems_snoc _ _ _ _ Hm Hn), app_length, Nat.add_1_r, Nat2N.inj_succ, app_nil_r, <- app_assoc.
    split; [|split; [reflexivity|]].
    - destruct Hl as [Hl|Hl]; [|rewrite Hl]; repeat split; intros; try discriminate; lia.
    - destruct (i_last i); [rewrite orb_true_r; apply andb_false_r|]. destruct Hl as [Hl|Hl]; [|discriminate].
      rewrite Hl, orb_false_r, andb_true_r. pose proof mps_words.
      destruct (N.leb_spec (b_fill (s_wb s) + 4 + 4) mps), (N.leb_spec mps (b_fill (s_wb s) + 4)); (reflexivity || lia).
  Qed.

  Definition retry_c (r : ref_state) (i : N) : bool := i_retry i || negb (i_nseq i =? (r_exp r + 1) mod 2 ^ sb).

  (* the host may address the endpoint *)
  Definition host_turn (r : ref_state) : Prop :=
    r_req r = None /\ r_fly r = None /\ r_nrdy r = false /\ r_gen r = false.

  Inductive env_move (r : ref_state) (i : N) : ref_state -> Prop :=
  | env_other : to_us ep i = false -> env_move r i r
  | env_retry : to_us ep i = true -> host_turn r -> r_out r = true -> retry_c r i = true ->
      env_move r i (set_ref (r_pend r) (r_exp r) true (Some 0) None false false)
  | env_ack : forall p rest, to_us ep i = true -> host_turn r -> r_out r = true -> retry_c r i = false ->
      take_pkt mps (r_pend r) = Some (p, rest) ->
      env_move r i (set_ref rest ((r_exp r + 1) mod 2 ^ sb) false (if i_nump i =? 0 then None else Some 0)
                            None false false)
  | env_request : to_us ep i = true -> host_turn r -> r_out r = false -> (i_nump i =? 0) = false ->
      env_move r i (set_ref (r_pend r) (r_exp r) false (Some 0) None false false).

  Lemma env_phase_cases : forall r i r1, env_phase mps ep sb r i = Some r1 ->
    stream_ok i = true /\ i_hsready i = negb (r_gen r) /\ env_move r i r1.
  Proof.
    intros r i r1 H. unfold env_phase in H.
    destruct (stream_ok i); [|discriminate].
    destruct (Bool.eqb (i_hsready i) (negb (r_gen r))) eqn:Eg; [|discriminate]. apply Bool.eqb_prop in Eg.
    destruct (i_hsdone i && negb (r_gen r)); [discriminate|]. cbn [negb] in H.
    split; [reflexivity|]. split; [exact Eg|].
    destruct (r_to_us ep i) eqn:Eu; [|apply some_inj in H as <-; apply env_other; exact Eu].
    destruct (r_req r) eqn:Er; [discriminate|]. destruct (r_fly r) eqn:Ef; [discriminate|].
    destruct (r_nrdy r) eqn:En; [discriminate|]. destruct (r_gen r) eqn:Egen; [discriminate|]. cbn [orb] in H.
    assert (Ht : host_turn r) by (repeat split; assumption).
    destruct (r_out r) eqn:Eo.
    - fold (retry_c r i) in H. destruct (retry_c r i) eqn:Ec.
      + apply some_inj in H as <-. apply env_retry; assumption.
      + destruct (take_pkt mps (r_pend r)) as [[p rest]|] eqn:Et; [|discriminate].
        apply some_inj in H as <-. apply (env_ack r i p rest); assumption.
    - destruct (i_nump i =? 0) eqn:En0; [discriminate|]. apply some_inj in H as <-. apply env_request; assumption.
  Qed.

  Definition gen_next (r : ref_state) (i : N) (o : ss_out) : bool :=
    if erdy_acc i o || nrdy_acc i o then true else r_gen r && negb (i_hsdone i).

  Lemma judge_quiet : forall r i o, r_fly r = None -> o_valid o = 0 ->
    judge mps ep r i o =
    (set_ref (r_pend r ++ accepted_items i o) (r_exp r) (r_out r || o_zlp o)
             (if o_zlp o || nrdy_acc i o then None else match r_req r with Some k => Some (k + 1) | None => None end)
             None ((r_nrdy r || nrdy_acc i o) && negb (erdy_acc i o)) (gen_next r i o),
     ck_zlp mps ep r o && ck_nrdy mps ep r i o && ck_erdy mps ep r i o && ck_erdy_live mps r i o &&
     negb (o_zlp o && nrdy_acc i o) &&
     match r_req r with Some k => o_zlp o || nrdy_acc i o || (k <? 2) | None => true end).
  Proof.
    intros r i o Hf Hv. unfold judge, ck_start, ck_word, ck_one, ck_deadline, answered, starts, fly_now, gen_next.
    rewrite Hf, Hv. change (0 =? 0) with true. cbn [negb]. rewrite !orb_false_r, !andb_false_r. cbn [negb andb].
    rewrite !andb_true_r. reflexivity.
  Qed.

  Definition judged_ok (s : ss_state) (r1 : ref_state) (i : N) : Prop :=
    let (r', ok) := judge mps ep r1 i (ss_outputs mps ep sb s i) in ok = true /\ Inv (ss_next mps ep sb s i) r'.

  Definition step_at (f : ss_fsm) : Prop := forall s r i r1, s_fsm s = f -> Inv s r ->
    stream_ok i = true -> i_hsready i = negb (r_gen r) -> env_move r i r1 -> judged_ok s r1 i.

  Lemma completed_complete : forall s i, wbwf (s_wb s) -> stream_ok i = true ->
    negb (wb_ready mps (s_wb s)) || completing mps s i = true -> complete (wb_after mps s i).
  Proof.
    intros s i Hw Hs Hc. destruct (write_step s i Hw Hs) as (Hw' & _ & H).
    apply closed_complete; [exact Hw'|]. rewrite H. apply negb_true_iff. rewrite negb_andb, negb_involutive. exact Hc.
  Qed.

  Ltac cbn_st := cbn [upd set_ref s_fsm s_seq s_wb s_rb s_erdy s_ov s_pos s_lpz s_of s_ol s_op
                      r_exp r_pend r_out r_req r_fly r_nrdy r_gen].

  (* a cycle with tx.valid = 0 and no packet in flight.  judge_quiet's side conditions are left to `assumption`: the caller
     has `s_ov s = 0`, and `r_fly r = None` where the referee state judged is r itself, among its hypotheses *)
  Ltac quiet_judgement :=
    unfold judged_ok; rewrite judge_quiet by (reflexivity || assumption);
    unfold ck_zlp, ck_nrdy, ck_erdy, ck_erdy_live, gen_next, nrdy_acc, erdy_acc, nxt, hdr_ok;
    cbn [ss_outputs o_zlp o_nrdy o_erdy o_seq o_valid o_hoep o_ep o_dir
         set_ref r_exp r_pend r_out r_req r_fly r_nrdy r_gen];
    unfold zlp_now, nrdy_now, acked_now.

  Lemma step_wfd : step_at WAIT_FOR_DATA.
  Proof.
    intros s r i r1 Hfsm (Hseq & Hwb & HI) Hs Hhr Hc. rewrite Hfsm in HI.
    destruct HI as (Hp & Hrdy & Hrf & Hout & Hreq & Hfly & Hnrdy & Hov & Hpos).
    destruct (write_step s i Hwb Hs) as (Hwb' & Hit & Hrd'). rewrite Hrdy in Hrd'.
    assert (Hnext : forall gen, Inv (ss_next mps ep sb s i)
              (set_ref (bitems (wb_after mps s i)) (r_exp r) false None None (s_erdy s || in_token ep i) gen)).
    { intro gen. unfold ss_next. rewrite Hfsm. cbv zeta. unfold Inv.
      destruct (completing mps s i) eqn:Ec.
      - assert (Hcomp : complete (wb_after mps s i))
          by (apply completed_complete; try assumption; rewrite Ec; apply orb_true_r).
        rewrite Hrf.
        destruct (s_erdy s || in_token ep i); cbn_st; conjs; auto using empty_wbwf; exact (eq_sym (app_nil_r _)).
      - cbn_st. rewrite Hrd'. conjs; auto. }
    assert (Hopen : take_pkt mps (r_pend r) = None) by (rewrite Hp; apply take_open; assumption).
    destruct Hc as [Hu | ? ? Ho | ? ? ? ? Ho | Hu (_ & _ & Hn0 & Hg0) _ Hnp]; try congruence;
      quiet_judgement; unfold in_token, is_in in *; rewrite Hfsm, Hopen; rewrite Hu in *.
    - rewrite Hreq, Hout, Hnrdy, Hp, <- Hit. cbn [andb orb negb is_some]. rewrite andb_false_r, !andb_true_r.
      split; [reflexivity | apply Hnext].
    - rewrite Hnp, Hhr, Hg0, Hp, <- Hit, N.eqb_refl in *. cbn [andb orb negb is_some].
      split; [reflexivity|]. cbn [andb negb] in Hnext. rewrite orb_true_r in Hnext. apply Hnext.
  Qed.

  Lemma step_req : step_at REQUEST_IN_TOKEN.
  Proof.
    intros s r i r1 Hfsm (Hseq & Hwb & HI) Hs Hhr Hc. rewrite Hfsm in HI.
    destruct HI as (Hp & Hcomp & Hout & Hreq & Hfly & Hnrdy & Herdy & Hov & Hpos).
    destruct (write_step s i Hwb Hs) as (Hwb' & Hit & _).
    (* the host has been told NRDY: it does not address the endpoint *)
    destruct Hc as [Hu | ? ? Ho | ? ? ? ? Ho | ? (_ & _ & Hn0 & _)]; try congruence.
    quiet_judgement. rewrite Hfsm, Hreq, Hout, Hnrdy, Hp, (take_complete _ _ Hcomp), N.eqb_refl, <- app_assoc, <- Hit.
    unfold ss_next. rewrite Hfsm.
    destruct (i_hsready i); (split; [reflexivity|]); unfold Inv; cbn_st; conjs; auto.
  Qed.

  Lemma complete_fill_nz : forall b, complete b -> (b_fill b =? 0) = false.
  Proof. clear Hmps_ge4 Hmps4 Hmps1k. intros b [_ [H _]]. apply N.eqb_neq. lia. Qed.

  Lemma step_wts : step_at WAIT_TO_SEND.
  Proof.
    intros s r i r1 Hfsm (Hseq & Hwb & HI) Hs Hhr Hc. rewrite Hfsm in HI.
    destruct HI as (Hp & Hrb & Hout & Hreq & Hfly & Hnrdy & Herdy & Hov & Hpos).
    destruct (write_step s i Hwb Hs) as (Hwb' & Hit & _).
    destruct Hc as [Hu | ? ? Ho | ? ? ? ? Ho | Hu _ _ Hnp]; try congruence;
      quiet_judgement; unfold ss_next, in_token, is_in; rewrite Hfsm, Hu, Hp.
    - rewrite Hreq, Hout, Hnrdy. cbn [andb orb negb is_some].
      split; [reflexivity|]. unfold Inv. cbn_st. rewrite <- app_assoc, <- Hit. conjs; auto.
    - rewrite Hnp, Hseq, Hov. destruct Hrb as [Hcomp|Hz].
      + rewrite (complete_fill_nz _ Hcomp). cbn [andb orb negb is_some N.ltb N.compare].
        split; [reflexivity|]. unfold Inv. cbn_st. rewrite <- app_assoc, <- Hit. conjs; auto.
      + rewrite Hz. change (bitems zlp_buf) with [E]. change (set_ended zlp_buf false) with buf_empty.
        cbn [b_fill zlp_buf app]. rewrite take_zlp, !N.eqb_refl. cbn [andb orb negb is_some N.eqb].
        split; [reflexivity|]. unfold Inv. cbn_st. rewrite <- Hit. conjs; auto.
  Qed.

  Lemma send_fetch : forall s i j, s_fsm s = SEND_PACKET -> tx_free s i = true -> complete (s_rb s) ->
    s_pos s = N.of_nat j -> (j < length (b_words (s_rb s)))%nat ->
    ss_next mps ep sb s i =
    upd s (if (S j =? length (b_words (s_rb s)))%nat then WAIT_FOR_ACK else SEND_PACKET) (s_seq s) (s_rb s)
        (wb_after mps s i) (N.of_nat (S j)) (s_lpz s) (s_erdy s)
        (vmask (N.min 4 (b_fill (s_rb s) - 4 * N.of_nat j))) (j =? 0)%nat (S j =? length (b_words (s_rb s)))%nat
        (nth j (b_words (s_rb s)) 0).
  Proof.
    clear Hmps_ge4 Hmps4. intros s i j Hfsm Hfree (Hfits & Hfill & _) Hpos Hj. unfold ss_next. rewrite Hfsm, Hfree. unfold last_word.
    rewrite Hpos, (ov_eq _ (N.of_nat j)) by (apply (item_bytes_range _ _ _ Hfits Hj)).
    rewrite (last_word_len _ _ _ Hfits Hj), Nat2N.id, N.add_1_r, <- Nat2N.inj_succ.
    rewrite N.mod_small by (destruct Hfits; lia). destruct j; reflexivity.
  Qed.

  Lemma reg_holds_busy : forall s k, complete (s_rb s) -> (k < length (b_words (s_rb s)))%nat -> reg_holds s k ->
    (s_ov s =? 0) = false.
  Proof.
    clear Hmps_ge4 Hmps4 Hmps1k.
    intros s k (Hfits & _) Hk (_ & -> & _). apply N.eqb_neq.
    pose proof (vmask_range _ (proj2 (item_bytes_range _ _ _ Hfits Hk))). lia.
  Qed.

  Lemma judge_flying : forall r i o f x n rest,
    o_zlp o = false -> o_nrdy o = false -> o_erdy o = false -> r_nrdy r = false ->
    fly_now mps r o = Some (f, W x n :: rest) ->
    ck_start mps ep r o = true -> (starts r o = false -> r_req r = None) ->
    o_valid o = vmask n -> o_payload o = x -> o_first o = f ->
    o_last o = (match rest with [] => true | _ => false end) ->
    judge mps ep r i o =
    (set_ref (r_pend r ++ accepted_items i o) (r_exp r) (r_out r || starts r o) None
             (if i_txready i then match rest with [] => None | _ => Some (false, rest) end
              else Some (f, W x n :: rest))
             false (r_gen r && negb (i_hsdone i)), true).
  Proof.
    intros r i o f x n rest Hz Hn He Hnr Hfly Hck Hnst Hv Hpl Hfi Hla.
    unfold judge, ck_word, ck_zlp, ck_nrdy, ck_erdy, ck_erdy_live, ck_one, ck_deadline, answered, nrdy_acc, erdy_acc.
    rewrite Hfly, Hz, Hn, He, Hnr, Hv, Hpl, Hfi, Hla, Hck, !N.eqb_refl, !eqb_reflx.
    cbn [andb orb negb]. rewrite orb_false_r.
    destruct (starts r o); [destruct (r_req r) | rewrite (Hnst eq_refl)]; reflexivity.
  Qed.

  Lemma judge_word : forall s r i k l, complete (s_rb s) -> r_pend r = bitems (s_rb s) ++ l ->
    s_seq s = r_exp r -> r_nrdy r = false ->
    let o := ss_outputs mps ep sb s i in
    o_zlp o = false -> o_nrdy o = false -> o_erdy o = false -> o_seq o = s_seq s ->
    (k < length (b_words (s_rb s)))%nat -> reg_holds s k -> fly_rel s r k ->
    judge mps ep r i o =
    (set_ref (r_pend r ++ accepted_items i o) (r_exp r) true None
             (if i_txready i
              then if (S k =? length (b_words (s_rb s)))%nat then None else Some (false, skipn (S k) (rb_items s))
              else Some ((k =? 0)%nat, skipn k (rb_items s)))
             false (r_gen r && negb (i_hsdone i)), true).
  Proof.
    intros s r i k l Hcomp Hp Hseq Hnrdy o Ez En Ee Esq Hk Hreg Hrel.
    pose proof Hcomp as (Hfits & Hfill & _). pose proof Hreg as (Hop & Hov & Hof & Hol).
    assert (Hvz : (o_valid o =? 0) = false) by exact (reg_holds_busy s k Hcomp Hk Hreg).
    assert (Hfn : fly_now mps r o = Some ((k =? 0)%nat, skipn k (rb_items s)) /\ ck_start mps ep r o = true /\
                  (starts r o = false -> r_req r = None) /\ r_out r || starts r o = true).
    { destruct Hrel as [(Hfly & Hreq & Hout)|(-> & Hfly & Hreq)]; unfold ck_start, fly_now, starts; rewrite Hfly.
      - rewrite Hout. conjs; auto.
      - unfold nxt, hdr_ok.
        rewrite Hvz, Hp, (take_complete _ _ Hcomp), Hreq, (pkt_bytes_witems _ _ Hfits), Esq, Hseq, (complete_fill_nz _ Hcomp).
        unfold o, ss_outputs. cbn [negb is_some andb o_length o_ep o_dir]. rewrite !N.eqb_refl.
        conjs; auto using orb_true_r; discriminate. }
    destruct Hfn as (Hfn & Hck & Hnst & Hout). unfold rb_items in *.
    (* the items from the k-th on: the one on offer, and whether any follows *)
    assert (Hkw : (k < length (witems (b_words (s_rb s)) (b_fill (s_rb s))))%nat) by (rewrite witems_length; exact Hk).
    pose proof (skipn_cons_nth _ k E Hkw) as Hsk. rewrite (nth_witems _ _ _ Hk) in Hsk.
    pose proof (fun B x y => skipn_S_is_nil (B := B) _ k x y Hkw) as Hnil. rewrite witems_length in Hnil.
    rewrite Hsk in Hfn.
    rewrite (judge_flying r i o _ _ _ _ Ez En Ee Hnrdy Hfn Hck Hnst Hov Hop Hof)
      by (unfold o, ss_outputs; cbn [o_last]; rewrite Hol, Hnil; destruct (S k =? _)%nat; reflexivity).
    rewrite Hout, Hnil, <- Hsk. reflexivity.
  Qed.

  Lemma step_send : step_at SEND_PACKET.
  Proof.
    intros s r i r1 Hfsm (Hseq & Hwb & HI) Hs Hhr Hc. rewrite Hfsm in HI.
    destruct HI as (Hp & Hcomp & Hnrdy & Herdy & Hlpz & Hsub).
    destruct (write_step s i Hwb Hs) as (Hwb' & Hit & _).
    (* a request is unanswered or a packet in flight: the host does not address the endpoint *)
    assert (Hbusy : ~ host_turn r).
    { intros (Hq & Hf & _).
      destruct Hsub as [(_ & _ & _ & Hq')|(k & _ & _ & _ & [(Hf' & _)|(_ & _ & Hq')])]; congruence. }
    destruct Hc as [Hu | | |]; try contradiction.
    destruct Hsub as [(Hpos & Hov & Hfly & Hreq)|(k & Hpos & Hk & Hreg & Hrel)].
    - quiet_judgement. rewrite Hfsm, Hreq, Hnrdy. cbn [andb orb negb is_some]. split; [reflexivity|].
      assert (H0 : (0 < length (b_words (s_rb s)))%nat) by (destruct Hcomp as ([_ H] & H0 & _); lia).
      rewrite (send_fetch s i 0) by (assumption || (unfold tx_free; rewrite Hov; reflexivity)).
      unfold Inv, reg_holds, fly_rel. cbn_st.
      destruct (1 =? length (b_words (s_rb s)))%nat eqn:El; cbn_st;
        rewrite Hlpz, Hp, <- app_assoc, <- Hit; conjs; auto; right; exists 0%nat; conjs; auto.
      + apply Nat.eqb_eq, El.
      + apply Nat.le_neq. split; [exact H0 | apply Nat.eqb_neq, El].
    - assert (Hk' : (k < length (b_words (s_rb s)))%nat) by apply Nat.lt_succ_l, Hk.
      unfold judged_ok. rewrite (judge_word s r i k _ Hcomp Hp Hseq Hnrdy)
        by (assumption || (cbn; unfold zlp_now, nrdy_now, acked_now; rewrite Hfsm; reflexivity)).
      split; [reflexivity|]. rewrite (proj2 (Nat.eqb_neq _ _) (Nat.lt_neq _ _ Hk)).
      destruct (i_txready i) eqn:Etx.
      + rewrite (send_fetch s i (S k)) by (assumption || (unfold tx_free; rewrite Etx; apply orb_true_r)).
        unfold Inv, reg_holds, fly_rel, rb_items. cbn_st.
        destruct (S (S k) =? length (b_words (s_rb s)))%nat eqn:El; cbn_st;
          rewrite Hlpz, Hp, <- app_assoc, <- Hit; conjs; auto; right; exists (S k); conjs; auto.
        * apply Nat.eqb_eq, El.
        * apply Nat.le_neq. split; [exact Hk | apply Nat.eqb_neq, El].
      + unfold ss_next. rewrite Hfsm. unfold tx_free. rewrite (reg_holds_busy s k), Etx by assumption. cbn [orb].
        unfold Inv, reg_holds, fly_rel, rb_items in *. cbn_st. rewrite Hp, <- app_assoc, <- Hit.
        conjs; auto. right. exists k. conjs; auto; apply Hreg.
  Qed.

  Lemma wfa_idle : forall s r i, s_fsm s = WAIT_FOR_ACK -> Inv s r -> stream_ok i = true ->
    to_us ep i = false -> judged_ok s r i.
  Proof.
    intros s r i Hfsm (Hseq & Hwb & HI) Hs Hu. rewrite Hfsm in HI. destruct HI as (Hnrdy & Herdy & HI).
    destruct (write_step s i Hwb Hs) as (Hwb' & Hit & _).
    destruct (s_lpz s) eqn:Elpz;
      [destruct HI as (Hp & Hrb & Hov & Hfly & Hreq & Hout)
      |destruct HI as (Hp & Hcomp & [(Hov & Hfly & Hreq & Hout)|(k & Hk & Hreg & Hrel)])].
    1,2: quiet_judgement; unfold ss_next, tx_free; rewrite Hfsm, Hu, Hreq, Hnrdy, Hout, Hov, Hp, Elpz;
      (split; [reflexivity|]); unfold Inv; cbn_st; rewrite <- ?app_assoc; cbn [app]; rewrite <- Hit; conjs; auto.
    - assert (Hk' : (k < length (b_words (s_rb s)))%nat) by (rewrite <- Hk; apply Nat.lt_succ_diag_r).
      unfold judged_ok. rewrite (judge_word s r i k _ Hcomp Hp Hseq Hnrdy)
        by (assumption || (cbn; unfold zlp_now, nrdy_now, acked_now; rewrite Hfsm, ?Hu; reflexivity)).
      split; [reflexivity|]. unfold ss_next, tx_free. rewrite Hfsm, Hu, (reg_holds_busy s k), Hk, Nat.eqb_refl by assumption.
      unfold Inv, reg_holds, fly_rel, rb_items in *.
      destruct (i_txready i); cbn_st; rewrite Elpz, Hp, <- app_assoc, <- Hit; conjs; auto.
      right. exists k. conjs; auto; apply Hreg.
  Qed.

  Lemma wfa_settled : forall s r, s_fsm s = WAIT_FOR_ACK -> Inv s r -> host_turn r ->
    s_seq s = r_exp r /\ wbwf (s_wb s) /\ s_erdy s = false /\ s_ov s = 0 /\ r_out r = true /\
    if s_lpz s then r_pend r = E :: bitems (s_wb s) /\ s_rb s = buf_empty
    else r_pend r = bitems (s_rb s) ++ bitems (s_wb s) /\ complete (s_rb s).
  Proof.
    intros s r Hfsm (Hseq & Hwb & HI) (Hq & Hf & _). rewrite Hfsm in HI. destruct HI as (_ & Herdy & HI).
    destruct (s_lpz s).
    - destruct HI as (Hp & Hrb & Hov & _ & _ & Hout). conjs; auto.
    - destruct HI as (Hp & Hcomp & [(Hov & _ & _ & Hout)|(k & _ & _ & [(Hf' & _)|(_ & _ & Hq')])]);
        [conjs; auto | congruence..].
  Qed.

  Lemma is_retry_eq : forall s r i, s_seq s = r_exp r -> is_retry sb s i = retry_c r i.
  Proof. intros s r i H. unfold is_retry, retry_c, advancing, next_seq. rewrite H. reflexivity. Qed.

  Lemma wfa_retry : forall s r i, s_fsm s = WAIT_FOR_ACK -> Inv s r -> stream_ok i = true ->
    to_us ep i = true -> host_turn r -> retry_c r i = true ->
    judged_ok s (set_ref (r_pend r) (r_exp r) true (Some 0) None false false) i.
  Proof.
    intros s r i Hfsm HI Hs Hu Ht Hretry.
    destruct (wfa_settled s r Hfsm HI Ht) as (Hseq & Hwb & Herdy & Hov & Hout & Hrb).
    destruct (write_step s i Hwb Hs) as (Hwb' & Hit & _). rewrite <- (is_retry_eq s r i Hseq) in Hretry.
    quiet_judgement. unfold ss_next, tx_free. rewrite Hfsm, Hu, Hretry, Hov, Hseq. cbn [N.eqb orb andb negb].
    destruct (s_lpz s).
    - destruct Hrb as (Hp & Hrb). rewrite Hp, take_zlp, !N.eqb_refl. cbn [app andb orb negb is_some].
      split; [reflexivity|]. unfold Inv. cbn_st. rewrite <- Hit. conjs; auto.
    - destruct Hrb as (Hp & Hcomp). cbn [andb orb negb is_some N.ltb N.compare].
      split; [reflexivity|]. unfold Inv. cbn_st. rewrite Hp, <- app_assoc, <- Hit. conjs; auto.
  Qed.

  Lemma ack_next : forall s r i,
    s_fsm s = WAIT_FOR_ACK -> s_seq s = r_exp r -> wbwf (s_wb s) -> s_erdy s = false -> s_ov s = 0 ->
    stream_ok i = true -> to_us ep i = true -> is_retry sb s i = false -> follow_zlp mps s = false ->
    i_hsready i = true ->
    judged_ok s (set_ref (bitems (s_wb s)) ((r_exp r + 1) mod 2 ^ sb) false
                         (if i_nump i =? 0 then None else Some 0) None false false) i.
  Proof.
    intros s r i Hfsm Hseq Hwb Herdy Hov Hs Hu Hretry Hfz Hhr.
    destruct (write_step s i Hwb Hs) as (Hwb' & Hit & Hrd').
    quiet_judgement. unfold ss_next, tx_free, next_seq, is_in.
    rewrite Hfsm, Hu, Hretry, Hfz, Hov, Hseq, Herdy, Hhr. cbn [N.eqb orb andb negb].
    destruct (negb (wb_ready mps (s_wb s)) || completing mps s i) eqn:Etog.
    - pose proof (completed_complete s i Hwb Hs Etog) as Hcomp.
      destruct (i_nump i =? 0); cbn [negb andb orb is_some N.ltb N.compare]; (split; [reflexivity|]);
        unfold Inv; cbn_st; rewrite <- Hit; conjs; auto using empty_wbwf; exact (eq_sym (app_nil_r _)).
    - apply orb_false_iff in Etog as [Er Ecomp]. apply negb_false_iff in Er.
      rewrite (take_open _ Hwb Er), N.eqb_refl. rewrite Er, Ecomp in Hrd'.
      destruct (i_nump i =? 0); cbn [negb andb orb is_some]; (split; [reflexivity|]);
        unfold Inv; cbn_st; rewrite <- Hit; conjs; auto.
  Qed.

  Lemma wfa_ack : forall s r i p rest, s_fsm s = WAIT_FOR_ACK -> Inv s r -> stream_ok i = true ->
    i_hsready i = true -> to_us ep i = true -> host_turn r -> retry_c r i = false ->
    take_pkt mps (r_pend r) = Some (p, rest) ->
    judged_ok s (set_ref rest ((r_exp r + 1) mod 2 ^ sb) false (if i_nump i =? 0 then None else Some 0)
                         None false false) i.
  Proof.
    intros s r i p rest Hfsm HI Hs Hhr Hu Ht Hretry Htake.
    destruct (wfa_settled s r Hfsm HI Ht) as (Hseq & Hwb & Herdy & Hov & Hout & Hrb).
    rewrite <- (is_retry_eq s r i Hseq) in Hretry.
    destruct (s_lpz s).
    - destruct Hrb as (Hp & Hrb). rewrite Hp, take_zlp in Htake.
      assert (rest = bitems (s_wb s)) by congruence. subst rest.
      apply ack_next; try assumption. unfold follow_zlp. rewrite Hrb.
      apply andb_false_intro1, N.eqb_neq. clear - Hmps_ge4. cbn. lia.
    - destruct Hrb as (Hp & Hcomp). rewrite Hp, (take_complete _ _ Hcomp) in Htake.
      fold (follow_zlp mps s) in Htake. destruct (follow_zlp mps s) eqn:Hfz; cbn [app] in Htake.
      2:{ assert (rest = bitems (s_wb s)) by congruence. subst rest. apply ack_next; assumption. }
      (* a full packet that ended the transfer: a zero-length packet follows *)
      assert (rest = E :: bitems (s_wb s)) by congruence. subst rest.
      destruct (write_step s i Hwb Hs) as (Hwb' & Hit & _).
      assert (Hack : acked (s_rb s) = zlp_buf).
      { unfold follow_zlp in Hfz. apply andb_true_iff in Hfz as [_ He]. unfold acked. rewrite He. reflexivity. }
      quiet_judgement. unfold ss_next, tx_free, next_seq, is_in.
      rewrite Hfsm, Hu, Hretry, Hfz, Hov, Hseq, take_zlp. cbn [N.eqb orb andb negb].
      destruct (i_nump i =? 0); cbn [negb andb orb is_some]; rewrite ?N.eqb_refl; (split; [reflexivity|]);
        unfold Inv; cbn_st; cbn [app]; rewrite <- Hit, Hack; conjs; auto.
  Qed.

  Lemma step_wfa : step_at WAIT_FOR_ACK.
  Proof.
    intros s r i r1 Hfsm HI Hs Hhr [Hu | Hu Ht Ho Hr | p rest Hu Ht Ho Hr Hk | Hu Ht Ho Hnp].
    - apply wfa_idle; assumption.
    - apply wfa_retry; assumption.
    - apply (wfa_ack s r i p rest); try assumption. destruct Ht as (_ & _ & _ & Hg). rewrite Hg in Hhr. exact Hhr.
    - destruct (wfa_settled s r Hfsm HI Ht) as (_ & _ & _ & _ & Hout & _). congruence.
  Qed.

  Lemma step_ok : forall s r i r1, Inv s r -> env_phase mps ep sb r i = Some r1 -> judged_ok s r1 i.
  Proof.
    intros s r i r1 HI He. apply env_phase_cases in He as (Hs & Hhr & Hc).
    destruct (s_fsm s) eqn:Hfsm;
      [apply (step_wfd s r) | apply (step_req s r) | apply (step_wts s r) | apply (step_send s r) | apply (step_wfa s r)];
      assumption.
  Qed.

  Lemma accepts_inv : forall tr s r, Inv s r ->
    accepts (ss_next mps ep sb) (ss_outputs mps ep sb) (ref_step mps ep sb) s r tr = true.
  Proof.
    induction tr as [|i t IH]; intros s r H; [reflexivity|].
    cbn [accepts]. unfold ref_step. destruct (env_phase mps ep sb r i) as [r1|] eqn:He; [|reflexivity].
    pose proof (step_ok s r i r1 H He) as Hj. unfold judged_ok in Hj.
    destruct (judge mps ep r1 i (ss_outputs mps ep sb s i)) as [r' ok]. destruct Hj as [-> Hi]. apply IH, Hi.
  Qed.

  Theorem ssin_accepted : forall tr,
    accepts (ss_next mps ep sb) (ss_outputs mps ep sb) (ref_step mps ep sb) ss_init ref_init tr = true.
  Proof. intro tr. apply accepts_inv. apply Inv_init. Qed.
End Inv.

Lemma items_bytes_app : forall a b, items_bytes (a ++ b) = items_bytes a ++ items_bytes b.
Proof. induction a as [|[w n|] t IH]; intros; cbn [app items_bytes]; [reflexivity | rewrite IH, app_assoc; reflexivity | apply IH]. Qed.

Lemma take_pkt_bytes : forall l room p rest, take_pkt room l = Some (p, rest) ->
  items_bytes l = items_bytes p ++ items_bytes rest /\ pkt_bytes p <= room.
Proof.
  induction l as [|[w n|] t IH]; intros room p rest H; cbn [take_pkt] in H; destruct (room =? 0);
    try discriminate; try (apply some_inj in H; injection H as <- <-; split; [reflexivity | apply N.le_0_l]).
  destruct (n <=? room) eqn:En; [|discriminate]. apply N.leb_le in En.
  destruct (take_pkt (room - n) t) as [[p' r']|] eqn:Et; [|discriminate].
  apply some_inj in H. injection H as <- <-. destruct (IH _ _ _ Et) as [Hb Hl].
  cbn [items_bytes pkt_bytes]. rewrite Hb, app_assoc. split; [reflexivity | lia].
Qed.

Section Meaning.
  Variables (mps ep sb : N).

  Lemma env_phase_pend : forall r i r1, env_phase mps ep sb r i = Some r1 ->
    let ps := match acked_pkt mps ep sb r i with Some p => [p] | None => [] end in
    items_bytes (r_pend r) = items_bytes (concat ps) ++ items_bytes (r_pend r1) /\
    Forall (fun p => pkt_bytes p <= mps) ps.
  Proof.
    intros r i r1 H. unfold acked_pkt. rewrite H.
    destruct (env_phase_cases mps ep sb r i r1 H) as (_ & _ & Hc).
    destruct Hc as [Hu | Hu _ Ho Hr | p rest Hu _ Ho Hr Ht | Hu _ Ho _]; rewrite (Hu : r_to_us ep i = _); cbn [andb].
    - split; [reflexivity | constructor].
    - rewrite Ho. unfold retry_c in Hr. rewrite Hr. split; [reflexivity | constructor].
    - rewrite Ho. unfold retry_c in Hr. rewrite Hr, Ht. cbn [andb negb concat]. rewrite app_nil_r.
      destruct (take_pkt_bytes _ _ _ _ Ht) as [Hb Hl]. split; [exact Hb | repeat constructor; exact Hl].
    - rewrite Ho. split; [reflexivity | constructor].
  Qed.

  (* the bytes accepted from the stream = those of the acknowledged packets, in order, then those still pending *)
  Theorem referee_exactly_once : forall ios r r', ref_run_io mps ep sb r ios = Some r' ->
    items_bytes (r_pend r) ++ items_bytes (stream_log ios) =
    items_bytes (concat (acked_log mps ep sb r ios)) ++ items_bytes (r_pend r') /\
    Forall (fun p => pkt_bytes p <= mps) (acked_log mps ep sb r ios).
  Proof.
    induction ios as [|[i o] t IH]; intros r r' H.
    - cbn in H. apply some_inj in H. subst. cbn. rewrite app_nil_r. split; [reflexivity | constructor].
    - cbn [ref_run_io] in H. cbn [acked_log]. unfold ref_step in *.
      destruct (env_phase mps ep sb r i) as [r1|] eqn:Ee; [|discriminate].
      destruct (judge mps ep r1 i (unpack_out o)) as [r2 ok] eqn:Ej. destruct ok; [|discriminate].
      destruct (IH _ _ H) as [IH1 IH2]. destruct (env_phase_pend r i r1 Ee) as [Hp Hle].
      assert (Hr2 : r_pend r2 = r_pend r1 ++ accepted_items i (unpack_out o)).
      { unfold judge in Ej. inversion Ej. reflexivity. }
      rewrite Hr2, items_bytes_app in IH1.
      unfold stream_log in *. cbn [flat_map fst snd]. rewrite items_bytes_app.
      split; [|apply Forall_app; split; assumption].
      rewrite concat_app, items_bytes_app, Hp, <- !app_assoc. f_equal. rewrite <- IH1, app_assoc. reflexivity.
  Qed.
End Meaning.

Lemma lo_pkb : forall w x rest, x < 2 ^ w -> lo w (pkb w x rest) = x.
Proof. intros w x rest. exact (lor_low x rest w). Qed.

Lemma hi_pkb : forall w x rest, x < 2 ^ w -> hi w (pkb w x rest) = rest.
Proof. intros w x rest. exact (lor_high x rest w). Qed.

Lemma odd_pkb : forall (b : bool) rest, N.odd (pkb 1 (b2n b) rest) = b.
Proof.
  intros b rest. rewrite <- N.bit0_odd. unfold pkb. rewrite N.lor_spec, N.shiftl_spec_low by lia.
  rewrite orb_false_r. destruct b; reflexivity.
Qed.

Lemma b2n_inj : forall a b, b2n a = b2n b -> a = b.
Proof. exact SsWords.b2n_inj. Qed.

Lemma unpackr_packr : forall w l rest, Forall (fun x => x < 2 ^ w) l ->
  unpackr w (length l) (packr w l rest) = (l, rest).
Proof.
  induction l as [|x t IH]; intros rest H; [reflexivity|].
  inversion H as [|? ? Hx Ht]; subst. cbn [length packr unpackr].
  rewrite hi_pkb, lo_pkb by exact Hx. rewrite IH by exact Ht. reflexivity.
Qed.

Lemma dec_enc_list : forall w l rest, N.of_nat (length l) < 2 ^ 16 -> Forall (fun x => x < 2 ^ w) l ->
  dec_list w (enc_list w l rest) = (l, rest).
Proof.
  intros w l rest Hl Hf. unfold dec_list, enc_list. rewrite lo_pkb, hi_pkb by exact Hl.
  rewrite Nat2N.id. apply unpackr_packr. exact Hf.
Qed.

(* 512 has room to spare: a step keeps any bound from 256 words (1024 bytes, wb_after_wf) that is below 2 ^ 16 (the length
   field of enc_list) *)
Definition buf_wf (b : buf) : Prop :=
  b_fill b < 2048 /\ N.of_nat (length (b_words b)) <= 512 /\ Forall (fun x => x < 2 ^ 32) (b_words b).

Definition ss_wf (s : ss_state) : Prop :=
  s_seq s < 32 /\ s_pos s < 2048 /\ s_ov s < 16 /\ s_op s < 2 ^ 32 /\ buf_wf (s_rb s) /\ buf_wf (s_wb s).

Lemma fsm_of_code : forall f, fsm_of (fsm_code f) = f.
Proof. destruct f; reflexivity. Qed.

Lemma fsm_code_lt : forall f, fsm_code f < 2 ^ 3.
Proof. destruct f; reflexivity. Qed.

Lemma ss_dec_enc : forall s, ss_wf s -> ss_dec (ss_enc s) = s.
Proof.
  intros [f sq [rw rf re] [ww wf we] pos lpz erdy ov ofi ol op]
         (Hsq & Hpos & Hov & Hop & (Hrf & Hrl & Hrw) & Hwf & Hwl & Hww).
  cbn [s_seq s_pos s_ov s_op s_rb s_wb b_fill b_words] in *.
  assert (Hl : forall n, n <= 512 -> n < 2 ^ 16) by (intros n H; apply (N.le_lt_trans _ _ _ H); reflexivity).
  unfold ss_dec, ss_enc. cbn [s_fsm s_seq s_pos s_lpz s_erdy s_ov s_of s_ol s_op s_rb s_wb b_words b_fill b_ended].
  repeat rewrite ?odd_pkb, ?lo_pkb, ?hi_pkb by (assumption || apply fsm_code_lt || apply b2n_lt2).
  rewrite !dec_enc_list by auto. rewrite fsm_of_code. reflexivity.
Qed.

Lemma nil_buf_wf : forall f e, f < 2048 -> buf_wf {| b_words := []; b_fill := f; b_ended := e |}.
Proof. intros f e H. repeat split; [exact H | discriminate | constructor]. Qed.

Lemma buf_empty_wf : buf_wf buf_empty.
Proof. exact (nil_buf_wf 0 false eq_refl). Qed.

Lemma ss_wf_init : ss_wf ss_init.
Proof. unfold ss_wf, ss_init, buf_wf, buf_empty. cbn. repeat split; try lia; constructor. Qed.

Lemma nbytes_le : forall v, nbytes v <= 4.
Proof.
  intro v. unfold nbytes. destruct v as [|p]; [lia|].
  destruct p as [[[[|[]|]|[]|]|[]|]|[]|]; lia.
Qed.

Definition out_wf (o : ss_out) : Prop :=
  o_valid o < 16 /\ o_payload o < 2 ^ 32 /\ o_length o < 2 ^ 11 /\ o_seq o < 2 ^ 5 /\ o_ep o < 16 /\ o_hoep o < 128.

Lemma unpack_pack_out : forall o, out_wf o -> unpack_out (pack_out o) = o.
Proof.
  intros [rdy v fi la pl z len sq e d nr er he] [Hv [Hpl [Hlen [Hsq [He Hhe]]]]].
  cbn [o_valid o_payload o_length o_seq o_ep o_hoep] in *.
  set (L := [(1, b2n rdy); (4, v); (1, b2n fi); (1, b2n la); (32, pl); (1, b2n z); (11, len); (5, sq); (4, e);
             (1, b2n d); (1, b2n nr); (1, b2n er); (7, he)]).
  assert (HL : fields_ok L) by (repeat constructor; cbn [fst snd]; try apply b2n_lt2; assumption).
  assert (E : pack_out (Build_ss_out rdy v fi la pl z len sq e d nr er he) = fields_word L)
    by (unfold pack_out, L; cbn [fields_word o_ready o_valid o_first o_last o_payload o_zlp o_length o_seq o_ep
                                 o_dir o_nrdy o_erdy o_hoep]; lia).
  rewrite E. unfold unpack_out.
  rewrite (testbit_fields_word L 0 rdy HL eq_refl : N.testbit _ 0 = _),
          (bits_fields_word L 1 HL : bits _ 1 4 = _),
          (testbit_fields_word L 2 fi HL eq_refl : N.testbit _ 5 = _),
          (testbit_fields_word L 3 la HL eq_refl : N.testbit _ 6 = _),
          (bits_fields_word L 4 HL : bits _ 7 32 = _),
          (testbit_fields_word L 5 z HL eq_refl : N.testbit _ 39 = _),
          (bits_fields_word L 6 HL : bits _ 40 11 = _),
          (bits_fields_word L 7 HL : bits _ 51 5 = _),
          (bits_fields_word L 8 HL : bits _ 56 4 = _),
          (testbit_fields_word L 9 d HL eq_refl : N.testbit _ 60 = _),
          (testbit_fields_word L 10 nr HL eq_refl : N.testbit _ 61 = _),
          (testbit_fields_word L 11 er HL eq_refl : N.testbit _ 62 = _),
          (bits_fields_word L 12 HL : bits _ 63 7 = _).
  reflexivity.
Qed.

Section Wf.
  Variables (mps ep sb : N).
  Hypothesis Hmps1k : mps <= 1024.
  Hypothesis Hsb : sb <= 5.

  Lemma wb_after_wf : forall s i, buf_wf (s_wb s) -> buf_wf (wb_after mps s i).
  Proof.
    clear Hsb. intros s i Hb. unfold wb_after, wr_en. destruct (negb (i_valid i =? 0) && wb_ready mps (s_wb s)) eqn:E; [|exact Hb].
    destruct Hb as (Hf & Hl & Hw).
    apply andb_true_iff in E as [_ E]. apply wb_ready_true in E as [E _].
    pose proof (nbytes_le (i_valid i)). unfold buf_wf. cbn [b_fill b_words].
    split; [lia|]. split.
    - rewrite app_length. pose proof (firstn_le_length (N.to_nat (b_fill (s_wb s) / 4)) (b_words (s_wb s))).
      assert (b_fill (s_wb s) / 4 < 256) by (apply N.div_lt_upper_bound; lia). cbn [length]. lia.
    - apply Forall_app. split; [apply Forall_firstn, Hw|]. constructor; [apply bits_lt | constructor].
  Qed.

  Lemma next_seq_lt : forall s, next_seq sb s < 32.
  Proof.
    intro s. unfold next_seq. apply (N.lt_le_trans _ (2 ^ sb)); [apply N.mod_lt, pow2_nz|].
    apply (pow2_le_mono sb 5 Hsb).
  Qed.

  Lemma upd_wf : forall st f sq rb wb pos lpz erdy ov ofi ol op,
    sq < 32 -> pos < 2048 -> ov < 16 -> op < 2 ^ 32 -> buf_wf rb -> buf_wf wb ->
    ss_wf (upd st f sq rb wb pos lpz erdy ov ofi ol op).
  Proof. intros. unfold ss_wf. cbn [upd s_seq s_pos s_ov s_op s_rb s_wb]. conjs; assumption. Qed.

  Lemma ss_wf_step : forall s i, ss_wf s -> ss_wf (fst (ss_step mps ep sb s i)).
  Proof.
    intros s i (Hsq & Hpos & Hov & Hop & Hrb & Hwb). cbn [ss_step fst].
    (* every argument of every `upd` in ss_next is one of a few terms: their bounds first, then the cases *)
    pose proof (wb_after_wf s i Hwb) as Hwb'. pose proof (next_seq_lt s) as Hns. pose proof buf_empty_wf as Hbe.
    assert (Hse : buf_wf (set_ended (s_rb s) false)) by exact Hrb.
    destruct Hrb as (Hrf & Hrl & Hrw).
    pose proof (nil_buf_wf 0 (b_ended (s_rb s)) eq_refl : buf_wf (acked (s_rb s))) as Hack.
    assert (Hm : forall x, x mod 2048 < 2048) by (intro; apply N.mod_lt; discriminate).
    assert (Hvm : (if last_word s then vmask (if b_fill (s_rb s) mod 4 =? 0 then 4 else b_fill (s_rb s) mod 4)
                   else 15) < 16).
    { destruct (last_word s); [|reflexivity]. apply vmask_range.
      generalize (N.mod_lt (b_fill (s_rb s)) 4 ltac:(discriminate)). generalize (b_fill (s_rb s) mod 4).
      intros r Hr. destruct (N.eqb_spec r 0); lia. }
    assert (Hfree : (if tx_free s i then 0 else s_ov s) < 16) by (destruct (tx_free s i); [reflexivity | exact Hov]).
    assert (Hnth : forall k, nth k (b_words (s_rb s)) 0 < 2 ^ 32).
    { intro k. destruct (nth_in_or_default k (b_words (s_rb s)) 0) as [H| ->]; [|reflexivity].
      exact (proj1 (Forall_forall _ _) Hrw _ H). }
    assert (wf_if : forall (c : bool) a b, ss_wf a -> ss_wf b -> ss_wf (if c then a else b)) by (intros []; auto).
    unfold ss_next. cbv zeta.
    destruct (s_fsm s); repeat apply wf_if; apply upd_wf; auto using nil_buf_wf; reflexivity.
  Qed.

  Lemma outputs_wf : forall s i, ss_wf s -> out_wf (ss_outputs mps ep sb s i).
  Proof.
    clear Hmps1k. intros s i [Hsq [Hpos [Hov [Hop [[Hrf _] _]]]]]. unfold out_wf, ss_outputs.
    cbn [o_valid o_payload o_length o_seq o_ep o_hoep].
    pose proof (next_seq_lt s). pose proof (N.mod_lt ep 16). pose proof (N.mod_lt ep 128).
    repeat split; try assumption; try lia.
    destruct (acked_now ep sb s i && follow_zlp mps s && is_in i); cbn; lia.
  Qed.

  Lemma accepts_io_model : forall tr s r, ss_wf s ->
    ref_accepts_io mps ep sb r (combine tr (run (ss_step mps ep sb) s tr)) =
    accepts (ss_next mps ep sb) (ss_outputs mps ep sb) (ref_step mps ep sb) s r tr.
  Proof.
    induction tr as [|i t IH]; intros s r Hwf; [reflexivity|].
    cbn [run ss_step combine ref_accepts_io accepts].
    rewrite (unpack_pack_out _ (outputs_wf s i Hwf)).
    destruct (ref_step mps ep sb r i (ss_outputs mps ep sb s i)) as [[r' ok]|]; [|reflexivity].
    f_equal. apply IH. apply (ss_wf_step s i Hwf).
  Qed.
End Wf.

(* whatever produces the same output words as the model is accepted by the referee *)
Theorem ssin_accepted_io : forall mps ep sb, 4 <= mps -> mps mod 4 = 0 -> mps <= 1024 -> sb <= 5 ->
  forall tr outs, outs = run (ss_step mps ep sb) ss_init tr ->
  ref_accepts_io mps ep sb ref_init (combine tr outs) = true.
Proof.
  intros mps ep sb Hge4 H4 H1k Hsb tr outs ->.
  rewrite (accepts_io_model mps ep sb H1k Hsb tr ss_init ref_init ss_wf_init).
  apply ssin_accepted; assumption.
Qed.
