(* C49 -- proofs about the UART transmitter models (Model/Uart.v): each code-shaped model simulates its
   specification machine; what the specifications put on the wire, stated on traces; state packing. *)
From Coq Require Import NArith PeanoNat List Bool Lia.
Import ListNotations.
From LunaLib Require Import Bits Machine BitFacts.
From LunaModel Require Import Uart.
Open Scope N_scope.

Lemma in_payload_lt8 : forall i, in_payload 8 i < 256.
Proof. intros. apply (bits_lt i 1 8). Qed.

Lemma N2bits_top : forall n p, p < 2 ^ N.of_nat n -> N2bits (S n) (p + 2 ^ N.of_nat n) = N2bits n p ++ [true].
Proof.
  induction n as [|n IH]; intros p H.
  - apply N.lt_1_r in H. subst p. reflexivity.
  - rewrite Nat2N.inj_succ, N.pow_succ_r' in *.
    change (N2bits (S (S n)) ?x) with (N.odd x :: N2bits (S n) (N.div2 x)).
    change (N2bits (S n) p) with (N.odd p :: N2bits n (N.div2 p)).
    rewrite N.odd_add_mul_2, !N.div2_div, (N.mul_comm 2), N.div_add by discriminate.
    cbn [app]. f_equal. apply IH. apply N.div_lt_upper_bound; [discriminate | exact H].
Qed.

Lemma framed_bits : forall p, p < 256 -> N2bits 10 (framed p) = frame_bits p.
Proof.
  intros p Hp. unfold framed, frame_bits. replace (2 * p + 512) with (0 + 2 * (p + 256)) by lia.
  change (N2bits 10 ?x) with (N.odd x :: N2bits 9 (N.div2 x)).
  rewrite N.odd_add_mul_2, N.div2_div, (digit_div 2) by reflexivity. f_equal. exact (N2bits_top 8 p Hp).
Qed.

Lemma framed_lt : forall p, p < 256 -> framed p < 1024.
Proof. intros. unfold framed. lia. Qed.

Lemma to_nat_pred : forall n, n <> 0 -> N.to_nat n = S (N.to_nat (n - 1)).
Proof. intros. lia. Qed.

Lemma pos_ltb : forall n, n <> 0 -> (0 <? n) = true.
Proof. intros. apply N.ltb_lt, N.neq_0_lt_0. assumption. Qed.

Section UartProofs.
  Variable div : N.
  Hypothesis Hdiv : 1 <= div.

  Notation hold := (fun x : bool => repeat x (N.to_nat div)).

  (* line samples left when the current bit (head of l) has b+1 cycles to go *)
  Definition samples (b : N) (l : list bool) : list bool :=
    repeat (hd true l) (S (N.to_nat b)) ++ flat_map hold (tl l).

  (* the specification's state is a function of the code's: the line samples still to come *)
  Definition queued (st : u_state) : us_state :=
    match ufsm st with
    | U_IDLE => []
    | U_TRANSMIT => samples (baud st) (N2bits (S (N.to_nat (nbits st))) (shift st))
    end.

  Lemma samples_full : forall l, l <> [] -> samples (div - 1) l = flat_map hold l.
  Proof.
    intros [|x l] H; [congruence|]. unfold samples. rewrite <- to_nat_pred by lia. reflexivity.
  Qed.

  Lemma flat_map_hold_length : forall l, length (flat_map hold l) = (length l * N.to_nat div)%nat.
  Proof.
    induction l as [|x l IH]; [reflexivity|]. cbn [flat_map length]. rewrite app_length, repeat_length, IH. reflexivity.
  Qed.

  Lemma queued_ready : forall st, u_ready st = us_ready (queued st).
  Proof.
    intros [f b k s]. unfold queued, u_ready, us_ready. cbn [ufsm baud nbits shift].
    destruct f; [reflexivity|].
    unfold samples. rewrite app_length, repeat_length, flat_map_hold_length. cbn [N2bits tl]. rewrite N2bits_length.
    destruct (N.eqb_spec b 0) as [->|Eb]; [destruct (N.eqb_spec k 0) as [->|Ek]|]; [reflexivity | |];
      symmetry; apply Nat.leb_gt; [rewrite (to_nat_pred k Ek)|]; lia.
  Qed.

  Lemma queued_tx : forall st, u_tx st = us_tx (queued st).
  Proof. intros [[] b k s]; reflexivity. Qed.

  Lemma queued_out : forall st, u_out st = us_out (queued st).
  Proof. intros st. unfold u_out, us_out. rewrite queued_ready, queued_tx. destruct st as [[] b k s]; reflexivity. Qed.

  Lemma queued_load : forall p, p < 256 ->
    queued {| ufsm := U_TRANSMIT; baud := div - 1; nbits := 9; shift := framed p |} = frame_samples div p.
  Proof.
    intros p Hp. unfold queued. cbn [ufsm baud nbits shift].
    change (S (N.to_nat 9)) with 10%nat. rewrite framed_bits by exact Hp.
    apply samples_full. discriminate.
  Qed.

  (* the byte only matters when it is offered *)
  Lemma queued_next : forall st v b1 b2, (v = true -> b1 = b2 /\ b1 < 256) ->
    us_next div (queued st) v b2 = queued (u_next div st v b1).
  Proof.
    intros st v b1 b2 Hb. unfold us_next. rewrite <- queued_ready.
    assert (Load : v = true ->
      frame_samples div b2 = queued {| ufsm := U_TRANSMIT; baud := div - 1; nbits := 9; shift := framed b1 |}).
    { intros Hv. destruct (Hb Hv) as [<- Hlt]. symmetry. apply queued_load, Hlt. }
    destruct st as [f b k s]. unfold u_next, queued, u_ready in *. cbn [ufsm baud nbits shift] in *.
    destruct f; cbn [andb].
    - destruct v; [apply Load|]; reflexivity.
    - destruct (N.eqb_spec b 0) as [->|Eb]; cbn [andb].
      + destruct (N.eqb_spec k 0) as [->|Ek]; cbn [andb].
        * destruct v; [apply Load|]; reflexivity.
        * (* next bit *)
          rewrite (pos_ltb k Ek). cbn [ufsm baud nbits shift].
          rewrite (to_nat_pred k Ek), samples_full by discriminate. reflexivity.
      + (* same bit, one cycle less *)
        cbn [ufsm baud nbits shift]. unfold samples. rewrite (to_nat_pred b Eb). reflexivity.
  Qed.

  Theorem uart_refines : forall tr st, run (u_step div) st tr = run (us_step div) (queued st) tr.
  Proof.
    intros tr st. apply (sim_run_all (u_step div) (us_step div) (fun st q => q = queued st)); [|reflexivity].
    intros a _ i ->. split; [|apply queued_out].
    apply queued_next. intros _. split; [reflexivity | apply in_payload_lt8].
  Qed.

  Corollary uart_from_reset : forall tr,
    run (u_step div) u_init tr = run (us_step div) us_init tr.
  Proof. intros. apply uart_refines. Qed.

  Definition busy_out (b : bool) : N := uart_pack b false false true.

  Lemma us_run_drain : forall ins q, (length ins < length q)%nat ->
    run (us_step div) q ins = map busy_out (firstn (length ins) q) /\
    run_state (us_step div) q ins = skipn (length ins) q.
  Proof.
    (* `clear Hdiv`, here and in frames_length: `lia` takes Hdiv into its term whether it needs it or not, and
       after `End` the lemma would ask for it *)
    clear Hdiv. induction ins as [|i t IH]; intros q Hl; [split; reflexivity|].
    destruct q as [|x [|y q']]; try (exfalso; cbn [length] in Hl; lia).
    destruct (IH (y :: q')) as [IH1 IH2]; [cbn [length] in *; lia|].
    cbn [run run_state us_step fst length firstn skipn map].
    change (us_next div (x :: y :: q') (in_valid i) (in_payload 8 i)) with (y :: q').
    rewrite IH1, IH2. split; reflexivity.
  Qed.

  Lemma frame_samples_length : forall p, length (frame_samples div p) = (10 * N.to_nat div)%nat.
  Proof.
    intros. unfold frame_samples, frame_bits. rewrite flat_map_hold_length.
    cbn [length]. rewrite app_length, N2bits_length. reflexivity.
  Qed.

  Lemma skipn_frame_last : forall p,
    skipn (10 * N.to_nat div - 1) (frame_samples div p) = [true].
  Proof.
    intros p. unfold frame_samples, frame_bits.
    change (false :: N2bits 8 p ++ [true]) with ((false :: N2bits 8 p) ++ [true]).
    set (A := false :: N2bits 8 p).
    assert (LA : length (flat_map hold A) = (9 * N.to_nat div)%nat).
    { rewrite flat_map_hold_length. unfold A. cbn [length]. rewrite N2bits_length. reflexivity. }
    rewrite flat_map_app, skipn_app, LA, skipn_all2 by lia. cbn [flat_map app]. rewrite app_nil_r.
    replace (10 * N.to_nat div - 1 - 9 * N.to_nat div)%nat with (N.to_nat (div - 1)) by lia.
    rewrite (to_nat_pred div) by lia. clear. induction (N.to_nat (div - 1)) as [|d IH]; [reflexivity | exact IH].
  Qed.

  (* C49: a byte offered in a ready cycle is accepted; the next 10*div cycles carry exactly its frame and accept nothing *)
  Theorem us_frame_exact : forall q i ins, us_ready q = true -> in_valid i = true ->
    (length ins < 10 * N.to_nat div)%nat ->
    run (us_step div) q (i :: ins) =
      us_out q :: map busy_out (firstn (length ins) (frame_samples div (in_payload 8 i))).
  Proof using Hdiv.   (* not needed (with div = 0 no ins is short enough); C49_frame_exact is stated with it *)
    intros q i ins Hr Hv Hl. cbn [run us_step]. f_equal.
    unfold us_next. rewrite Hr, Hv. apply us_run_drain. rewrite frame_samples_length. exact Hl.
  Qed.

  (* ... and in the frame's last cycle (the last cycle of the stop bit) the transmitter is ready again *)
  Theorem us_frame_end : forall q i ins, us_ready q = true -> in_valid i = true ->
    length ins = (10 * N.to_nat div - 1)%nat ->
    run_state (us_step div) q (i :: ins) = [true].
  Proof.
    intros q i ins Hr Hv Hl. cbn [run_state us_step fst]. unfold us_next. rewrite Hr, Hv.
    destruct (us_run_drain ins (frame_samples div (in_payload 8 i))) as [_ E].
    - rewrite frame_samples_length. lia.
    - cbn [andb]. rewrite E, Hl. apply skipn_frame_last.
  Qed.

  Theorem us_not_ready_ignores : forall q v p, us_ready q = false -> us_next div q v p = tl q.
  Proof. intros q v p H. unfold us_next. rewrite H. reflexivity. Qed.

  Theorem us_idle_high : forall n,
    run (us_step div) us_init (repeat 0 n) = repeat (uart_pack true true true false) n.
  Proof. induction n as [|n IH]; [reflexivity|]. cbn [repeat run us_step]. f_equal. exact IH. Qed.
End UartProofs.

Section MultiProofs.
  Variable bw : nat.
  Variable div : N.
  Hypothesis Hbw : (1 <= bw)%nat.
  Hypothesis Hdiv : 1 <= div.

  (* the specification's state is a function of the code's *)
  Definition mqueued (st : m_state) : ms_state :=
    {| pend := match mfsm st with
               | U_IDLE => []
               | U_TRANSMIT => bytes_le (S (N.to_nat (nbytes st))) (dshift st)
               end;
       line := queued div (uart st) |}.

  Lemma mqueued_out : forall st, m_out st = ms_out (mqueued st).
  Proof.
    intros [f d k u]. unfold m_out, ms_out, m_ready, ms_ready, m_idle, ms_idle, mqueued.
    cbn [mfsm dshift nbytes uart pend line].
    rewrite (queued_tx div), (queued_ready div Hdiv). destruct f; [reflexivity|].
    destruct (N.eqb_spec k 0) as [->|Ek].
    - cbn. rewrite andb_true_r. reflexivity.
    - rewrite (pos_ltb k Ek), (to_nat_pred k Ek), andb_false_r. reflexivity.
  Qed.

  Lemma mqueued_next : forall st v w, ms_next bw div (mqueued st) v w = mqueued (m_next bw div st v w).
  Proof.
    intros [f d k u] v w.
    assert (Ebw : S (N.to_nat (N.of_nat bw - 1)) = bw) by lia.
    unfold mqueued, m_next, ms_next, m_ready, ms_ready, m_idle, ms_idle.
    cbn [mfsm dshift nbytes uart pend line].
    destruct f; cbn [negb].
    - (* IDLE: the byte transmitter is offered nothing *)
      rewrite (queued_next div Hdiv u false (d mod 256) (hd 0 [])) by discriminate.
      destruct v; cbn [mfsm dshift nbytes uart pend line andb]; rewrite ?Ebw; [reflexivity|].
      destruct (us_ready (queued div u)); reflexivity.
    - (* TRANSMIT: it is offered the low byte of dshift, the head of the queue *)
      change (bytes_le (S (N.to_nat k)) d) with (d mod 256 :: bytes_le (N.to_nat k) (d / 256)). cbn [hd tl negb].
      rewrite (queued_next div Hdiv u true (d mod 256) (d mod 256))
        by (intros _; split; [reflexivity | apply N.mod_lt; discriminate]).
      rewrite <- (queued_ready div Hdiv).
      destruct (u_ready u); [destruct (N.eqb_spec k 0) as [->|Ek]|].
      + (* last byte taken: next word or rest *)
        cbn [N.ltb N.compare andb].
        destruct v; cbn [mfsm dshift nbytes uart pend line]; rewrite ?Ebw; reflexivity.
      + (* byte taken, more to come *)
        rewrite (pos_ltb k Ek). cbn [mfsm dshift nbytes uart pend line].
        rewrite (to_nat_pred k Ek). reflexivity.
      + (* byte transmitter busy *)
        cbn [mfsm dshift nbytes uart pend line].
        destruct (N.to_nat k); reflexivity.
  Qed.

  Theorem multi_refines : forall tr st, run (m_step bw div) st tr = run (ms_step bw div) (mqueued st) tr.
  Proof.
    intros tr st. apply (sim_run_all (m_step bw div) (ms_step bw div) (fun st sp => sp = mqueued st)); [|reflexivity].
    intros a _ i ->. split; [apply mqueued_next | apply mqueued_out].
  Qed.

  Corollary multi_from_reset : forall tr,
    run (m_step bw div) m_init tr = run (ms_step bw div) ms_init tr.
  Proof. intros. apply multi_refines. Qed.
End MultiProofs.

Definition tx_of (o : N) : bool := N.odd o.

Lemma tx_of_multi_pack : forall a b c, tx_of (multi_pack a b c) = a.
Proof. intros [] [] []; reflexivity. Qed.

Lemma bytes_le_length : forall k x, length (bytes_le k x) = k.
Proof. induction k as [|k IH]; intros x; [reflexivity|]. cbn [bytes_le length]. rewrite IH. reflexivity. Qed.

Section MultiWire.
  Variable bw : nat.
  Variable div : N.
  Hypothesis Hdiv : 1 <= div.

  Definition quiet (i : N) : Prop := in_valid i = false.

  Lemma frames_length : forall bs,
    length (flat_map (frame_samples div) bs) = (10 * N.to_nat div * length bs)%nat.
  Proof.
    clear Hdiv. induction bs as [|b bs IH]; cbn [flat_map length]; [lia|]. rewrite app_length, frame_samples_length, IH. lia.
  Qed.

  Lemma frame_samples_nonempty : forall p, frame_samples div p <> [].
  Proof.
    intros p E. pose proof (frame_samples_length div p) as L. rewrite E in L. cbn [length] in L. lia.
  Qed.

  Lemma ms_wire : forall ins bs q, Forall quiet ins ->
    (length ins <= length (us_tx q :: tl q ++ flat_map (frame_samples div) bs))%nat ->
    map tx_of (run (ms_step bw div) {| pend := bs; line := q |} ins) =
      firstn (length ins) (us_tx q :: tl q ++ flat_map (frame_samples div) bs).
  Proof.
    induction ins as [|i t IH]; intros bs q HF Hl; [reflexivity|].
    inversion HF as [|? ? Hi Ht]; subst.
    cbn [run map ms_step length firstn] in *. unfold ms_out at 1. rewrite tx_of_multi_pack. f_equal.
    rewrite Hi. unfold ms_next. rewrite andb_false_r. cbn [pend line].
    destruct q as [|x [|y q]]; [destruct bs as [|b bs].. |]; cbn [ms_idle pend negb hd tl app flat_map] in *.
    (* last sample or rest, and nothing pending: the bound allows no further cycle *)
    1, 3: destruct t; [reflexivity | exfalso; cbn [length] in Hl; lia].
    (* last sample or rest: the next byte is taken, its frame follows *)
    1, 2: change (us_next div _ true b) with (frame_samples div b);
      pose proof (frame_samples_nonempty b) as Hb; destruct (frame_samples div b) as [|s f]; [congruence|];
      apply (IH bs (s :: f)); [exact Ht | cbn [length app tl] in *; lia].
    (* otherwise the line moves on by one sample *)
    apply (IH bs (y :: q)); [exact Ht | cbn [length app tl] in *; lia].
  Qed.

  (* C49: a word accepted from rest: two idle-high cycles (acceptance, hand-over), then the frames of its bytes, low first *)
  Theorem ms_word_little_endian : forall i ins, (1 <= bw)%nat -> in_valid i = true -> Forall quiet ins ->
    length ins = (1 + 10 * N.to_nat div * bw)%nat ->
    map tx_of (run (ms_step bw div) ms_init (i :: ins)) =
      true :: true :: flat_map (frame_samples div) (bytes_le bw (in_payload (8 * N.of_nat bw) i)).
  Proof.
    intros i ins _ Hv HF Hl.   (* 1 <= bw is not needed; C49_multi_little_endian is stated with it *)
    cbn [run map ms_step]. rewrite Hv. unfold ms_out at 1. rewrite tx_of_multi_pack. f_equal.
    set (w := in_payload (8 * N.of_nat bw) i).
    change (ms_next bw div ms_init true w) with {| pend := bytes_le bw w; line := [] |}.
    assert (L : length ins = length (true :: flat_map (frame_samples div) (bytes_le bw w)))
      by (cbn [length]; rewrite frames_length, bytes_le_length; exact Hl).
    rewrite ms_wire, L by (exact HF || rewrite L; apply le_n). apply firstn_all.
  Qed.
End MultiWire.

(* u_enc and m_enc: a flag, two bounded fields, and an unbounded rest on top *)
Lemma flag_fields_rest : forall B1 B2 f k s r m, f < 2 -> k < B1 -> s < B2 ->
  m = f + 2 * k + 2 * B1 * s + 2 * B1 * B2 * r ->
  m mod 2 = f /\ (m / 2) mod B1 = k /\ (m / (2 * B1)) mod B2 = s /\ m / (2 * B1 * B2) = r.
Proof.
  intros B1 B2 f k s r m Hf Hk Hs E.
  replace m with (f + 2 * (k + B1 * (s + B2 * r))) by (rewrite E; ring).
  rewrite <- !N.div_div by lia. rewrite !(digit_div 2) by exact Hf. rewrite digit_div by exact Hk.
  repeat split; try (apply digit_mod; assumption). apply digit_div, Hs.
Qed.

Lemma u_dec_enc : forall st, u_wf st -> u_dec (u_enc st) = st.
Proof.
  intros [f b k s] [Hk Hs]. unfold u_dec, u_enc. cbn [ufsm baud nbits shift] in *.
  rewrite (N.mod_small k), (N.mod_small s) by assumption.
  set (c := match f with U_IDLE => 0 | U_TRANSMIT => 1 end). set (m := c + 2 * k + 32 * s + 32768 * b).
  assert (E : m mod 2 = c /\ (m / 2) mod 16 = k /\ (m / 32) mod 1024 = s /\ m / 32768 = b).
  { apply (flag_fields_rest 16 1024 c k s b); [destruct f; reflexivity | exact Hk | exact Hs | reflexivity]. }
  destruct E as (-> & -> & -> & ->). destruct f; reflexivity.
Qed.

Lemma u_wf_next : forall div st v p, p < 256 -> u_wf st -> u_wf (u_next div st v p).
Proof.
  intros div [f b k s] v p Hp [Hk Hs]. unfold u_wf, u_next in *. cbn [ufsm baud nbits shift] in *.
  pose proof (framed_lt p Hp) as Hf.
  assert (Hd : N.div2 s < 1024) by (rewrite N.div2_div; apply N.div_lt_upper_bound; lia).
  destruct f; [destruct v | destruct (b =? 0); [destruct (0 <? k); [|destruct v]|]];
    cbn [ufsm baud nbits shift]; lia.
Qed.

Lemma u_wf_step : forall div st i, u_wf st -> u_wf (fst (u_step div st i)).
Proof. intros. cbn [u_step fst]. apply u_wf_next; [apply in_payload_lt8 | assumption]. Qed.

Lemma u_wf_init : u_wf u_init.
Proof. split; reflexivity. Qed.

Lemma u_baud_next : forall div B st v p, div <= B -> baud st < B -> baud (u_next div st v p) < B.
Proof.
  intros div B [f b k s] v p Hd Hb. unfold u_next. cbn [ufsm baud nbits shift] in *.
  destruct f; [destruct v | destruct (b =? 0); [destruct (0 <? k); [|destruct v]|]]; cbn [baud]; lia.
Qed.

Lemma m_dec_enc : forall st, m_wf st -> m_dec (m_enc st) = st.
Proof.
  intros [f d k u] [Hk [Hb Hu]]. unfold m_dec, m_enc. cbn [mfsm dshift nbytes uart] in *.
  assert (He : u_enc u < 2147483648).
  { destruct u as [uf ub uk us]. destruct Hu as [Huk Hus]. unfold u_enc. cbn [ufsm baud nbits shift] in *.
    rewrite (N.mod_small uk), (N.mod_small us) by assumption. destruct uf; lia. }
  set (c := match f with U_IDLE => 0 | U_TRANSMIT => 1 end).
  set (m := c + 2 * k + 512 * u_enc u + 1099511627776 * d).
  assert (E : m mod 2 = c /\ (m / 2) mod 256 = k /\ (m / 512) mod 2147483648 = u_enc u /\ m / 1099511627776 = d).
  { apply (flag_fields_rest 256 2147483648 c k (u_enc u) d); [destruct f; reflexivity | exact Hk | exact He | reflexivity]. }
  destruct E as (-> & -> & -> & ->). rewrite (u_dec_enc u Hu). destruct f; reflexivity.
Qed.

Lemma m_wf_step : forall bw div, (N.of_nat bw <=? 256) = true -> (div <=? 65536) = true ->
  forall st i, m_wf st -> m_wf (fst (m_step bw div st i)).
Proof.
  intros bw div Hbw Hdiv [f d k u] i [Hk [Hb Hu]]. apply N.leb_le in Hbw, Hdiv.
  cbn [m_step fst]. unfold m_wf, m_next in *. cbn [mfsm dshift nbytes uart] in *.
  assert (Hu' : forall v, baud (u_next div u v (d mod 256)) < 65536 /\ u_wf (u_next div u v (d mod 256))).
  { intro v. split; [apply u_baud_next | apply u_wf_next; [apply N.mod_lt; discriminate|]]; assumption. }
  destruct f; [destruct (in_valid i) | destruct (u_ready u); [destruct (0 <? k); [|destruct (in_valid i)]|]];
    cbn [mfsm dshift nbytes uart]; (split; [lia | apply Hu']).
Qed.

Lemma m_wf_init : m_wf m_init.
Proof. repeat split; reflexivity. Qed.
