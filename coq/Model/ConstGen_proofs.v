(* C27 -- proofs about the constant stream generator model/specification of Model/ConstGen.v.  cg_refines /
   cg_from_reset: the model has the specification's outputs under its environment assumption (relation `rel`: while
   streaming, the specification still has to send the answer from the model's position onward; at_beat says so for
   this file and for Serializer_proofs.v).  answer_spec, answer_bytewide: what that answer is, as a slice of the
   constant data. *)
From Coq Require Import NArith List Bool Lia ZifyBool ZifyN.
Import ListNotations.
From LunaLib Require Import Machine ListFacts BitFacts.
From LunaModel Require Import ConstGen.
Open Scope N_scope.

Lemma cfg_facts : forall c, cfg_okb c = true ->
  1 <= nwords c /\ nwords c <= 2 ^ c_posw c /\ 1 <= c_bpw c /\ 1 <= c_lwb c /\ c_lwb c <= c_bpw c /\
  (c_vw c = 1 \/ c_vw c = c_bpw c) /\ c_dlen c = (nwords c - 1) * c_bpw c + c_lwb c /\
  c_dlen c <= 2 ^ c_spw c /\ (c_hasml c = true -> c_bpw c < 2 ^ c_mlw c).
Proof.
  intros c Hc. unfold cfg_okb in Hc. fold (nwords c) in Hc. repeat rewrite andb_true_iff in Hc.
  destruct Hc as [[[[[[[[L1 L2] B] W1] W2] V] D1] D2] M].
  repeat split; try (apply N.leb_le; assumption).
  - apply orb_true_iff in V as [E|E]; [left | right]; apply N.eqb_eq, E.
  - apply N.eqb_eq, D1.
  - intros E. rewrite E in M. apply N.ltb_lt, M.
Qed.

Lemma nwords_le_dlen : forall c, cfg_okb c = true -> nwords c <= c_dlen c.
Proof.
  intros c Hc. destruct (cfg_facts c Hc) as (_ & _ & Hb & Hl & _ & _ & Hd & _).
  pose proof (N.mul_le_mono_l 1 (c_bpw c) (nwords c - 1) Hb). lia.
Qed.

Lemma beats_cons : forall bpw lwb ml w rest sent first,
  beats bpw lwb ml (w :: rest) sent first =
  let data_ends := match rest with [] => true | _ => false end in
  let final := data_ends || (ml <=? sent + bpw) in
  {| b_payload := w; b_first := first; b_last := final;
     b_bytes := if final then N.min (if data_ends then lwb else bpw) (ml - sent) else bpw |}
  :: (if final then [] else beats bpw lwb ml rest (sent + bpw) false).
Proof. reflexivity. Qed.

Lemma beats_at : forall bpw lwb ml ws pos sent first, pos < N.of_nat (length ws) ->
  beats bpw lwb ml (skipn (N.to_nat pos) ws) sent first =
  let data_ends := pos =? N.of_nat (length ws) - 1 in
  let final := data_ends || (ml <=? sent + bpw) in
  {| b_payload := nth (N.to_nat pos) ws 0; b_first := first; b_last := final;
     b_bytes := if final then N.min (if data_ends then lwb else bpw) (ml - sent) else bpw |}
  :: (if final then [] else beats bpw lwb ml (skipn (N.to_nat (pos + 1)) ws) (sent + bpw) false).
Proof.
  intros bpw lwb ml ws pos sent first H.
  rewrite (skipn_cons_nth ws (N.to_nat pos) 0) by lia. rewrite beats_cons.
  replace (S (N.to_nat pos)) with (N.to_nat (pos + 1)) by lia.
  assert (E : match skipn (N.to_nat (pos + 1)) ws with [] => true | _ => false end
              = (pos =? N.of_nat (length ws) - 1)).
  { pose proof (skipn_length (N.to_nat (pos + 1)) ws) as HL.
    destruct (skipn (N.to_nat (pos + 1)) ws); cbn [length] in HL; lia. }
  rewrite E. reflexivity.
Qed.

(* The specification is at word pos of the data ws, with sent bytes of the budget ml used, in an answer that began at
   word sp: bs is what it still has to send. *)
Definition at_beat (bpw lwb ml : N) (ws : list N) (sp pos sent : N) (bs : list beat) : Prop :=
  pos < N.of_nat (length ws) /\ sp <= pos /\ sent < ml /\
  bs = beats bpw lwb ml (skipn (N.to_nat pos) ws) sent (pos =? sp).

Lemma at_beat_step : forall bpw lwb ml ws sp pos sent bs, at_beat bpw lwb ml ws sp pos sent bs ->
  let data_ends := pos =? N.of_nat (length ws) - 1 in
  let final := data_ends || (ml <=? sent + bpw) in
  exists rest,
    bs = {| b_payload := nth (N.to_nat pos) ws 0; b_first := pos =? sp; b_last := final;
            b_bytes := if final then N.min (if data_ends then lwb else bpw) (ml - sent) else bpw |} :: rest /\
    if final then rest = [] else rest <> [] /\ at_beat bpw lwb ml ws sp (pos + 1) (sent + bpw) rest.
Proof.
  intros bpw lwb ml ws sp pos sent bs (Hpos & Hsp & Hlt & ->). rewrite beats_at by exact Hpos. cbv zeta.
  eexists. split; [reflexivity|].
  destruct ((pos =? N.of_nat (length ws) - 1) || (ml <=? sent + bpw)) eqn:EF; [reflexivity|].
  assert (Hpos1 : pos + 1 < N.of_nat (length ws)) by lia.
  split; [rewrite beats_at by exact Hpos1; discriminate|].
  replace false with (pos + 1 =? sp) by lia. repeat split; lia.
Qed.

Lemma land_ones_ones : forall a b, N.land (N.ones a) (N.ones b) = N.ones (N.min a b).
Proof.
  intros a b. rewrite N.land_ones. destruct (N.le_ge_cases a b) as [H|H].
  - rewrite N.min_l, N.mod_small by auto using ones_lt. reflexivity.
  - rewrite N.min_r, N.ones_mod_pow2 by assumption. reflexivity.
Qed.

Lemma v_max_spec : forall c st, g_sent st < g_ml st -> g_ml st <= g_sent st + c_bpw c -> c_vw c = c_bpw c ->
  v_max c st = N.ones (g_ml st - g_sent st).
Proof.
  intros c st Hlt Hle Hvw. unfold v_max. set (left := g_ml st - g_sent st).
  assert (Hleft : 1 <= left <= c_bpw c) by lia.
  rewrite (trunc_small (N.size (c_bpw c))) by (pose proof (N.size_gt (c_bpw c)); lia).
  replace ((1 <=? left) && (left <=? c_bpw c)) with true by lia.
  rewrite Hvw. apply trunc_small, ones_lt. lia.
Qed.

(* the variant with max_length, as used throughout LUNA *)
Section Refine.
  Variable c : cg_cfg.
  Hypothesis Hc : cfg_okb c = true.
  Hypothesis Hml : c_hasml c = true.

  (* while streaming: the model is at word g_pos of the data with g_sent bytes of the budget used, and
     the specification still has to send the answer from there onward *)
  Definition streaming (st : cg_state) (bs : list beat) (ml sp : N) : Prop :=
    g_ml st = ml /\ ml < 2 ^ c_mlw c /\ g_rd st = rom c (g_pos st) /\
    at_beat (c_bpw c) (c_lwb c) ml (c_words c) sp (g_pos st) (g_sent st) bs.

  Definition rel (st : cg_state) (s : sp_state) : Prop :=
    match g_fsm st, s with
    | IDLE, SpIdle ml => g_ml st = ml
    | STREAMING, SpSend bs ml sp => streaming st bs ml sp
    | DONE, SpDone ml => g_ml st = ml
    | _, _ => False
    end.

  Lemma e_max_spec : forall st, e_max c st = (g_ml st <=? g_sent st + c_bpw c).
  Proof. intros st. unfold e_max, mlv, bps. rewrite Hml. reflexivity. Qed.

  Lemma g_valid_spec : forall st, g_sent st < g_ml st ->
    g_valid c st =
    vmask c (if on_last c st then N.min (if e_data c st then c_lwb c else c_bpw c) (g_ml st - g_sent st)
             else c_bpw c).
  Proof.
    intros st Hlt. destruct (cfg_facts c Hc) as (_ & _ & Hb & Hl1 & Hl2 & Hv & _).
    unfold g_valid, vmask. destruct (c_vw c =? 1) eqn:EV; [reflexivity|].
    assert (Hvw : c_vw c = c_bpw c) by lia.
    unfold on_last, v_data. rewrite Hml, e_max_spec.
    destruct (N.leb_spec (g_ml st) (g_sent st + c_bpw c)) as [Hle|Hgt].
    - rewrite (v_max_spec c st Hlt Hle Hvw).
      destruct (e_data c st); cbn [orb andb]; [apply land_ones_ones | f_equal; lia].
    - destruct (e_data c st); cbn [orb andb]; [f_equal; lia | rewrite Hvw; reflexivity].
  Qed.

  Lemma sp_eff_in_range : forall i, i_sp c i < nwords c -> sp_eff c i = i_sp c i.
  Proof.
    intros i H. destruct (cfg_facts c Hc) as (_ & HL & _). pose proof (nwords_le_dlen c Hc).
    unfold sp_eff. destruct (N.leb_spec (c_dlen c) (i_sp c i)); [lia | apply trunc_small; lia].
  Qed.

  Lemma rel_step_idle : forall st ml i, g_fsm st = IDLE -> sp_env c (SpIdle ml) i = true ->
    rel (cg_next c st i) (sp_next c (SpIdle ml) i).
  Proof.
    intros st ml i EF HE. unfold cg_next, sp_next, rel. rewrite EF. cbn [sp_env] in HE.
    destruct (i_start i && (0 <? i_ml c i)) eqn:ES; cbn [g_fsm g_ml]; rewrite Hml; [|reflexivity].
    unfold streaming, at_beat. cbn [g_pos g_sent g_ml g_rd]. rewrite sp_eff_in_range, N.eqb_refl by lia.
    fold (nwords c). repeat split; try lia. unfold i_ml. rewrite Hml. apply bits_lt.
  Qed.

  Lemma streaming_head : forall st bs ml sp, streaming st bs ml sp ->
    exists rest,
      bs = {| b_payload := g_rd st; b_first := g_pos st =? sp; b_last := on_last c st;
              b_bytes := if on_last c st then N.min (if e_data c st then c_lwb c else c_bpw c) (ml - g_sent st)
                         else c_bpw c |} :: rest /\
      if on_last c st then rest = []
      else rest <> [] /\ at_beat (c_bpw c) (c_lwb c) ml (c_words c) sp (g_pos st + 1) (g_sent st + c_bpw c) rest.
  Proof.
    intros st bs ml sp (Hm & _ & Hrd & Hat). unfold on_last, e_data. rewrite e_max_spec, Hrd, Hm.
    exact (at_beat_step _ _ _ _ _ _ _ _ Hat).
  Qed.

  Lemma streaming_out : forall st bs ml sp i, g_fsm st = STREAMING -> streaming st bs ml sp -> i_sp c i = sp ->
    cg_out c st i = sp_out c (SpSend bs ml sp).
  Proof.
    intros st bs ml sp i EF HS Hsp. destruct (streaming_head _ _ _ _ HS) as (rest & -> & _).
    destruct HS as (Hm & _ & _ & _ & _ & Hlt & _).
    unfold cg_out, sp_out. rewrite EF. cbn [b_payload b_first b_last b_bytes].
    rewrite g_valid_spec by (rewrite Hm; exact Hlt). unfold on_first. rewrite Hsp, Hm. reflexivity.
  Qed.

  Lemma streaming_next : forall st bs ml sp i, g_fsm st = STREAMING -> streaming st bs ml sp ->
    rel (cg_next c st i) (sp_next c (SpSend bs ml sp) i).
  Proof.
    intros st bs ml sp i EF HS. destruct (streaming_head _ _ _ _ HS) as (rest & Hbs & Hrest).
    destruct HS as (Hm & Hmlb & _ & Hhere).
    unfold cg_next. rewrite EF, Hbs. cbn [sp_next]. rewrite <- Hbs. destruct (i_ready c i).
    2: { exact (conj Hm (conj Hmlb (conj eq_refl Hhere))). }
    destruct (on_last c st); [rewrite Hrest; exact Hm|].
    (* not the final word *)
    destruct Hrest as [Hne Hat]. destruct rest as [|b' rest']; [congruence|].
    pose proof Hat as (Hpos1 & _ & Hs1 & _). destruct (cfg_facts c Hc) as (_ & HL & _). fold (nwords c) in Hpos1.
    unfold rel, streaming. cbn [g_fsm g_pos g_sent g_ml g_rd]. rewrite Hml, !trunc_small by lia.
    exact (conj Hm (conj Hmlb (conj eq_refl Hat))).
  Qed.

  Lemma rel_step : forall st s i, rel st s -> sp_env c s i = true ->
    rel (cg_next c st i) (sp_next c s i) /\ cg_out c st i = sp_out c s.
  Proof.
    intros st s i HR HE. unfold rel in HR.
    destruct (g_fsm st) eqn:EF, s as [ml | bs ml sp | ml]; try contradiction.
    - split; [apply rel_step_idle; assumption|]. unfold cg_out. rewrite EF, HR. reflexivity.
    - apply N.eqb_eq in HE. split; [apply streaming_next | apply streaming_out]; assumption.
    - unfold cg_out, cg_next, rel. rewrite EF. split; [exact HR | rewrite HR; reflexivity].
  Qed.

  Theorem cg_refines : forall tr st s, rel st s ->
    env_ok sp_state (sp_step c) (sp_env c) s tr = true ->
    run (cg_step c) st tr = run (sp_step c) s tr.
  Proof. apply sim_run. exact rel_step. Qed.

  Corollary cg_from_reset : forall tr,
    env_ok sp_state (sp_step c) (sp_env c) (sp_init) tr = true ->
    run (cg_step c) (cg_init c) tr = run (sp_step c) (sp_init) tr.
  Proof. intros tr HE. apply cg_refines; [reflexivity | exact HE]. Qed.
End Refine.

Definition total_bytes (bs : list beat) : N := fold_right (fun b acc => b_bytes b + acc) 0 bs.

Lemma total_bytes_cons : forall b bs, total_bytes (b :: bs) = b_bytes b + total_bytes bs.
Proof. reflexivity. Qed.

Section Answer.
  Variables bpw lwb ml : N.

  (* bytes present in a non-empty suffix ws of the data: full words, except lwb bytes in the last one *)
  Definition avail (ws : list N) : N := (N.of_nat (length ws) - 1) * bpw + lwb.

  Lemma avail_cons : forall w ws, ws <> [] -> avail (w :: ws) = bpw + avail ws.
  Proof.
    intros w [|w2 ws] H; [congruence|]. unfold avail. cbn [length].
    replace (N.of_nat (S (S (length ws))) - 1) with (1 + (N.of_nat (S (length ws)) - 1)) by lia. lia.
  Qed.

  Lemma beats_payloads : forall ws sent first,
    map b_payload (beats bpw lwb ml ws sent first) = firstn (length (beats bpw lwb ml ws sent first)) ws.
  Proof.
    induction ws as [|w rest IH]; intros sent first; [reflexivity|].
    rewrite beats_cons. cbv zeta.
    destruct ((match rest with [] => true | _ :: _ => false end) || (ml <=? sent + bpw)).
    - reflexivity.
    - cbn [map length firstn b_payload]. rewrite IH. reflexivity.
  Qed.

  Lemma beats_total : forall ws sent first, ws <> [] ->
    total_bytes (beats bpw lwb ml ws sent first) = N.min (ml - sent) (avail ws).
  Proof.
    induction ws as [|w rest IH]; intros sent first Hne; [congruence|].
    rewrite beats_cons. cbv zeta. destruct rest as [|w2 rest'].
    - unfold avail. cbn. lia.
    - cbn [orb]. rewrite avail_cons by discriminate.
      destruct (N.leb_spec ml (sent + bpw)) as [H|H]; rewrite total_bytes_cons; cbn [b_bytes].
      + change (total_bytes []) with 0. lia.
      + rewrite IH by discriminate. lia.
  Qed.

  (* declared only here: `lia` in the proofs above would otherwise make them take these as arguments *)
  Hypothesis Hb : 1 <= bpw.
  Hypothesis Hl : 1 <= lwb /\ lwb <= bpw.

  Lemma beats_shape : forall ws sent first, ws <> [] -> sent < ml ->
    exists init fin, beats bpw lwb ml ws sent first = init ++ [fin] /\
      Forall (fun b => b_last b = false /\ b_bytes b = bpw) init /\
      b_last fin = true /\ 1 <= b_bytes fin /\ b_bytes fin <= bpw.
  Proof.
    induction ws as [|w rest IH]; intros sent first Hne Hlt; [congruence|].
    rewrite beats_cons. cbv zeta.
    destruct ((match rest with [] => true | _ :: _ => false end) || (ml <=? sent + bpw)) eqn:EF.
    - eexists [], _. split; [reflexivity|]. split; [constructor|]. cbn [b_last b_bytes].
      split; [reflexivity|]. destruct rest; lia.
    - apply orb_false_iff in EF as [E1 E2]. destruct rest as [|w2 rest']; [discriminate|].
      destruct (IH (sent + bpw) false) as (init & fin & E & HF & H1 & H2 & H3); [discriminate | lia |].
      eexists (_ :: init), fin. split; [rewrite E; reflexivity|].
      split; [constructor; [split; reflexivity | exact HF] | repeat split; assumption].
  Qed.

  Lemma beats_first_false : forall ws sent, Forall (fun b => b_first b = false) (beats bpw lwb ml ws sent false).
  Proof.
    induction ws as [|w rest IH]; intros sent; [constructor|].
    rewrite beats_cons. cbv zeta. constructor; [reflexivity|].
    destruct ((match rest with [] => true | _ :: _ => false end) || (ml <=? sent + bpw)); [constructor | apply IH].
  Qed.

  Lemma beats_first : forall ws sent first, ws <> [] ->
    exists b tl, beats bpw lwb ml ws sent first = b :: tl /\ b_first b = first /\ Forall (fun b => b_first b = false) tl.
  Proof.
    intros [|w rest] sent first Hne; [congruence|]. rewrite beats_cons. cbv zeta.
    eexists _, _. split; [reflexivity|]. split; [reflexivity|].
    destruct ((match rest with [] => true | _ :: _ => false end) || (ml <=? sent + bpw)); [constructor | apply beats_first_false].
  Qed.
End Answer.

Lemma avail_from : forall c, cfg_okb c = true -> forall sp, sp < nwords c ->
  avail (c_bpw c) (c_lwb c) (skipn (N.to_nat sp) (c_words c)) = c_dlen c - sp * c_bpw c.
Proof.
  intros c Hc sp Hsp. destruct (cfg_facts c Hc) as (_ & _ & _ & _ & _ & _ & Hd & _).
  unfold avail. rewrite skipn_length, Hd. unfold nwords in *.
  replace (N.of_nat (length (c_words c)) - 1) with (N.of_nat (length (c_words c) - N.to_nat sp) - 1 + sp) by lia.
  rewrite N.mul_add_distr_r, N.add_shuffle0, N.add_sub. reflexivity.
Qed.

Theorem answer_spec : forall c, cfg_okb c = true -> forall sp ml, sp < nwords c -> 0 < ml ->
  let a := answer c sp ml in
  map b_payload a = firstn (length a) (skipn (N.to_nat sp) (c_words c)) /\
  total_bytes a = N.min ml (c_dlen c - sp * c_bpw c) /\
  (exists init fin, a = init ++ [fin] /\
     Forall (fun b => b_last b = false /\ b_bytes b = c_bpw c) init /\
     b_last fin = true /\ 1 <= b_bytes fin /\ b_bytes fin <= c_bpw c) /\
  (exists b tl, a = b :: tl /\ b_first b = true /\ Forall (fun b => b_first b = false) tl).
Proof.
  intros c Hc sp ml Hsp Hml a. subst a. unfold answer.
  destruct (cfg_facts c Hc) as (_ & _ & Hb & Hl1 & Hl2 & _).
  assert (Hne : skipn (N.to_nat sp) (c_words c) <> []).
  { intro E. apply (f_equal (@length N)) in E. rewrite skipn_length in E. unfold nwords in Hsp. cbn in E. lia. }
  split; [apply beats_payloads|]. split; [|split].
  - rewrite beats_total, N.sub_0_r, avail_from by (assumption || lia). reflexivity.
  - apply beats_shape; assumption || lia.
  - apply beats_first. exact Hne.
Qed.

Lemma zero_limit_ignored : forall c ml0 i, i_ml c i = 0 ->
  sp_next c (SpIdle ml0) i = SpIdle 0 /\ sp_out c (SpIdle ml0) = pack_quiet c false ml0.
Proof.
  intros c ml0 i H. unfold sp_next. rewrite H. rewrite andb_false_r. split; reflexivity.
Qed.

Lemma total_bytes_app : forall a b, total_bytes (a ++ b) = total_bytes a + total_bytes b.
Proof. induction a as [|x a IH]; intros b; [reflexivity|]. cbn [app]. rewrite !total_bytes_cons, IH. lia. Qed.

Lemma total_bytes_ones : forall l, Forall (fun b => b_bytes b = 1) l -> total_bytes l = N.of_nat (length l).
Proof.
  induction 1 as [|x l Hx _ IH]; [reflexivity|]. rewrite total_bytes_cons, IH, Hx. cbn [length]. lia.
Qed.

(* byte-wide generators: USB2 descriptors *)
Theorem answer_bytewide : forall c, cfg_okb c = true -> c_bpw c = 1 -> forall sp ml, sp < nwords c -> 0 < ml ->
  map b_payload (answer c sp ml) =
  firstn (N.to_nat (N.min ml (nwords c - sp))) (skipn (N.to_nat sp) (c_words c)).
Proof.
  intros c Hc Hb1 sp ml Hsp Hml.
  destruct (answer_spec c Hc sp ml Hsp Hml) as (P1 & P2 & (init & fin & E & HF & _ & F1 & F2) & _).
  destruct (cfg_facts c Hc) as (_ & _ & _ & Hl1 & Hl2 & _ & Hd & _).
  rewrite P1. f_equal.
  assert (Hall : Forall (fun b => b_bytes b = 1) (answer c sp ml)).
  { rewrite E. apply Forall_app. split.
    - eapply Forall_impl; [|exact HF]. intros b [_ Hbb]. rewrite Hbb. exact Hb1.
    - constructor; [lia | constructor]. }
  pose proof (total_bytes_ones _ Hall) as T. rewrite P2, Hd, Hb1, !N.mul_1_r in T. lia.
Qed.

Lemma chunks_one : forall data, chunks (length data) 1 data = map (fun b => [b]) data.
Proof. induction data as [|b t IH]; [reflexivity|]. cbn [length chunks firstn skipn map]. rewrite IH. reflexivity. Qed.

Lemma cfg_of_bytes_bytewide_words : forall data mlw, c_words (cfg_of_bytes data 1 false mlw) = data.
Proof.
  intros. unfold cfg_of_bytes. cbn [c_words]. rewrite chunks_one, map_map.
  rewrite <- (map_id data) at 2. apply map_ext. intros b. cbn [word_le]. lia.
Qed.

Lemma cg_dec_enc : forall c st, cg_wf c st -> cg_dec c (cg_enc c st) = st.
Proof.
  intros c [f p s m r] (Hp & Hs & Hm). unfold cg_dec, cg_enc, pair. cbn [g_fsm g_pos g_sent g_ml g_rd] in *.
  set (fn := match f with IDLE => 0 | STREAMING => 1 | DONE => 2 end).
  assert (Hf : fn < 2 ^ 2) by (subst fn; destruct f; reflexivity).
  rewrite (unpair_lo 2 fn _ Hf), (unpair_hi 2 fn _ Hf).
  rewrite (unpair_lo _ p _ Hp), (unpair_hi _ p _ Hp).
  rewrite (unpair_lo _ s _ Hs), (unpair_hi _ s _ Hs).
  rewrite (unpair_lo _ m _ Hm), (unpair_hi _ m _ Hm).
  subst fn. destruct f; reflexivity.
Qed.

Lemma cg_wf_step : forall c, cfg_okb c = true -> forall st i, cg_wf c st -> cg_wf c (fst (cg_step c st i)).
Proof.
  intros c Hc st i (Hp & Hs & Hm). destruct (cfg_facts c Hc) as (HL1 & HL2 & _).
  pose proof (pow2_pos (c_mlw c)) as H0.
  unfold cg_step, cg_next, cg_wf. cbn [fst].
  destruct (g_fsm st); cbn [g_pos g_sent g_ml].
  - split; [|split].
    + unfold sp_eff. destruct (c_dlen c <=? i_sp c i); [lia | apply trunc_lt].
    + exact H0.
    + unfold i_ml. destruct (c_hasml c); [apply bits_lt | exact H0].
  - destruct (i_ready c i); [destruct (on_last c st)|]; cbn [g_pos g_sent g_ml]; try (split; [|split]; assumption).
    split; [apply trunc_lt | split; [|exact Hm]].
    destruct (c_hasml c); [apply trunc_lt | exact H0].
  - split; [|split]; assumption.
Qed.

Lemma cg_wf_init : forall c, cg_wf c (cg_init c).
Proof. intros c. repeat split; apply pow2_pos. Qed.
