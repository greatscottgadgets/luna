(* C09 -- hand model of luna/gateware/usb/usb2/descriptor.py: GetDescriptorHandlerDistributed (the block-RAM-free
   GET_DESCRIPTOR handler): one USBDescriptorStreamGenerator (= ConstantStreamGenerator, byte-wide, 16-bit
   max_length; model: Model/ConstGen.v, proved in C27) per descriptor, all fed the same start position and length
   limit, the one selected by `value` connected to the tx stream and started through a registered start strobe.

   This is the PROPERTY-SATISFYING behaviour: a request whose start position lies at or beyond the end of the
   descriptor (the previous packet ended the descriptor on a packet boundary), or for which nothing of wLength
   remains, is answered with a one-cycle zero-length-packet pulse (valid & last & ~first) and the generator is not
   started.  /repo before 9ef863f instead started the generator at a clamped / truncated position
   (findings/C09-dist-zlp.json, .diff): it re-sent descriptor data when the length is a power of two, and otherwise held
   a ZLP-shaped beat until `ready`, which USBDataPacketGenerator never gives -- the device then repeated ZLPs.

   Ports as in Model/DescSpec.v. *)
From Coq Require Import NArith List Bool.
Import ListNotations.
From LunaLib Require Import Netlist Bits Machine.
From LunaModel Require Import ConstGen DescSpec DescRom.
Open Scope N_scope.

(* one generator: the wValue that selects it and its constant bytes *)
Definition dgen := (N * desc)%type.
Definition gen_cfg (d : desc) : cg_cfg := cfg_of_bytes d 1 false (Some 16).

(* generators the model is defined for: bytes, at least one of them (a ConstantStreamGenerator of no data does not
   elaborate), fewer than 2048 (start_position has 11 bits) *)
Definition gen_okb (g : dgen) : bool :=
  forallb (fun b => b <? 256) (snd g) && (1 <=? nlen (snd g)) && (nlen (snd g) <? 2048).
Definition gens_okb (gs : list dgen) : bool := forallb gen_okb gs.

(* packed input word of a ConstantStreamGenerator (see ConstGen.v): start | start_position | max_length | ready *)
Definition cg_in (c : cg_cfg) (start : bool) (sp ml : N) (ready : bool) : N :=
  b2n start + N.shiftl (trunc (c_spw c) sp) 1 + N.shiftl (trunc (c_mlw c) ml) (1 + c_spw c)
  + N.shiftl (b2n ready) (1 + c_spw c + c_mlw c).

Record ds_state := { d_zlp : bool;                         (* send_zlp *)
                     d_gens : list (bool * cg_state) }.    (* per generator: registered start strobe, generator state *)

Section Dist.
  Variable gens : list dgen.
  Variable mps : N.

  (* length = (words_remaining <= max packet) ? words_remaining : max packet, words_remaining signed(17) -- combinational *)
  Definition ds_len (i : N) : N :=
    if i_wlen i <? i_sp i then trunc 16 (i_wlen i + 65536 - i_sp i)
    else if i_wlen i - i_sp i <=? mps then i_wlen i - i_sp i else trunc 16 mps.

  Definition past_end (d : desc) (i : N) : bool := (nlen d <=? i_sp i) || (ds_len i =? 0).

  (* one generator's cycle: its input word, its step, its start register *)
  Definition gen_step (g : dgen) (s : bool * cg_state) (i : N) : (bool * cg_state) * N :=
    let c := gen_cfg (snd g) in
    let sel := fst g =? i_value i in
    let gi := cg_in c (fst s) (i_sp i) (ds_len i) (sel && i_ready i) in
    let (st', o) := cg_step c (snd s) gi in
    ((if sel then i_start i && negb (past_end (snd g) i) else fst s, st'), o).

  Fixpoint gens_next (gs : list dgen) (ss : list (bool * cg_state)) (i : N) : list (bool * cg_state) :=
    match gs, ss with
    | g :: gs', s :: ss' => fst (gen_step g s i) :: gens_next gs' ss' i
    | _, _ => []
    end.

  (* output word of the generator the Switch connects to tx (the first whose key matches), if any *)
  Fixpoint sel_out (gs : list dgen) (ss : list (bool * cg_state)) (i : N) : option N :=
    match gs, ss with
    | g :: gs', s :: ss' => if fst g =? i_value i then Some (snd (gen_step g s i)) else sel_out gs' ss' i
    | _, _ => None
    end.

  Fixpoint sel_desc (gs : list dgen) (value : N) : option desc :=
    match gs with
    | [] => None
    | g :: gs' => if fst g =? value then Some (snd g) else sel_desc gs' value
    end.

  Definition ds_out (st : ds_state) (i : N) : N :=
    match sel_out gens (d_gens st) i with
    | Some o => N.lor (trunc 11 o) (if d_zlp st then 5 else 0)            (* valid|first|last|payload of the generator *)
    | None => (if d_zlp st then 5 else 0) + (if i_start i then 2048 else 0) (* Default: stall = start *)
    end.

  Definition ds_next (st : ds_state) (i : N) : ds_state :=
    {| d_zlp := match sel_desc gens (i_value i) with
                | Some d => i_start i && past_end d i
                | None => false
                end;
       d_gens := gens_next gens (d_gens st) i |}.

  Definition ds_step (st : ds_state) (i : N) : ds_state * N := (ds_next st i, ds_out st i).
  Definition ds_init : ds_state :=
    {| d_zlp := false; d_gens := map (fun g => (false, cg_init (gen_cfg (snd g)))) gens |}.

  (* ---- the environment assumption of the lock-step obligation, stated on the model state (it is implied by the
     specification-level assumption s_env: second conjunct of DescDist_proofs.dist_refines): while a generator is started or
     streaming, its descriptor stays selected, start stays low and start_position / the length limit are held; a zero-length
     packet is not overlapped with a new request; a request is legal (start_position < wLength, <= len(descriptor)). ---- *)
  Definition gen_env (g : dgen) (s : bool * cg_state) (i : N) : bool :=
    match g_fsm (snd s) with
    | STREAMING => (fst g =? i_value i) && negb (i_start i) && (i_sp i + g_sent (snd s) =? g_pos (snd s))
                   && (ds_len i =? g_ml (snd s))
    | _ => if fst s then (fst g =? i_value i) && negb (i_start i) else true
    end.
  Fixpoint gens_env (gs : list dgen) (ss : list (bool * cg_state)) (i : N) : bool :=
    match gs, ss with
    | g :: gs', s :: ss' => gen_env g s i && gens_env gs' ss' i
    | _, _ => true
    end.
  Definition ds_env (st : ds_state) (i : N) : bool :=
    gens_env gens (d_gens st) i
    && (if d_zlp st then negb (i_start i) else true)
    && (if i_start i
        then (i_sp i <? i_wlen i) && match sel_desc gens (i_value i) with Some d => i_sp i <=? nlen d | None => true end
        else true).

  (* ---- packing of the model state for lock-step obligations: one 64-bit field per generator ---- *)
  Definition gen_enc (g : dgen) (s : bool * cg_state) : N := b2n (fst s) + 2 * cg_enc (gen_cfg (snd g)) (snd s).
  Definition gen_dec (g : dgen) (m : N) : bool * cg_state := (N.odd m, cg_dec (gen_cfg (snd g)) (N.div2 m)).
  Fixpoint gens_enc (gs : list dgen) (ss : list (bool * cg_state)) : N :=
    match gs, ss with
    | g :: gs', s :: ss' => gen_enc g s + N.shiftl (gens_enc gs' ss') 64
    | _, _ => 0
    end.
  Fixpoint gens_dec (gs : list dgen) (m : N) : list (bool * cg_state) :=
    match gs with
    | [] => []
    | g :: gs' => gen_dec g (trunc 64 m) :: gens_dec gs' (N.shiftr m 64)
    end.
  Definition ds_enc (st : ds_state) : N := b2n (d_zlp st) + 2 * gens_enc gens (d_gens st).
  Definition ds_dec (m : N) : ds_state := {| d_zlp := N.odd m; d_gens := gens_dec gens (N.div2 m) |}.

  Definition gen_wf (g : dgen) (s : bool * cg_state) : Prop :=
    cg_wf (gen_cfg (snd g)) (snd s) /\ g_rd (snd s) < 256 /\ gen_okb g = true.
  Definition ds_wf (st : ds_state) : Prop := Forall2 gen_wf gens (d_gens st).
End Dist.

(* ---- how the constructor derives the generators from the collection (one per descriptor) ---- *)
Definition dist_gens (c : dcoll) : list dgen :=
  flat_map (fun p => map (fun e => (fst e + 256 * fst p, snd e)) (snd p)) c.

(* implementation-defined latency of the distributed handler *)
Definition ds_lat (c : dcoll) (q : dreq) : N :=
  match find_desc c (v_type (q_value q)) (v_index (q_value q)) with
  | None => 0
  | Some d => if nlen d <=? q_sp q then 1 else 2
  end.
