(* C54 -- proofs about the PHY reset controller model (Model/PhyReset.v): the three-state FSM with its
   wrapping counter simulates the one-counter specification; packing for the lock-step obligation. *)
From Coq Require Import NArith Lia.
From LunaLib Require Import Machine BitFacts.
From LunaModel Require Import PhyReset.
Open Scope N_scope.

Section Proofs.
  Variables r s w : N.
  Variable power_on : bool.

  Definition rel (st : pr_state) (p : option N) : Prop :=
    match fsm st, p with
    | IDLE, None => cnt st = 0
    | RESETTING, Some k => cnt st = k /\ k < r
    | DEFERRING, Some k => k = r + cnt st /\ cnt st < s
    | _, _ => False
    end.

  Lemma rel_out : forall st p, rel st p -> pr_out st = sp_out r p.
  Proof.
    intros [f c] p H. unfold rel, pr_out, sp_out in *. cbn [fsm cnt] in *.
    destruct f, p as [k|]; try contradiction; try reflexivity; destruct H as [-> H].
    - destruct (N.ltb_spec k r); [reflexivity | lia].
    - destruct (N.ltb_spec (r + c) r); [lia | reflexivity].
  Qed.

  Hypothesis Hr : 1 <= r.

  Lemma rel_init : rel (pr_init power_on) (sp_init power_on).
  Proof. unfold rel, pr_init, sp_init. destruct power_on; cbn; lia. Qed.

  Hypothesis Hs : 1 <= s.
  Hypothesis Hw : r <= 2 ^ w /\ s <= 2 ^ w.

  (* the counter does not wrap before it is compared: it stays below r resp. s, which fit in w bits *)
  Lemma rel_next : forall st p t, rel st p -> rel (pr_next r s w st t) (sp_next r s p t).
  Proof.
    intros [f c] p t H. unfold rel, pr_next, sp_next in *. cbn [fsm cnt] in *.
    destruct f, p as [k|]; try contradiction.
    - destruct t; cbn; lia.
    - destruct H as [-> H].
      destruct (N.eqb_spec (k + 1) r), (N.eqb_spec (k + 1) (r + s)); cbn [fsm cnt]; try lia.
      rewrite N.mod_small by lia. lia.
    - destruct H as [-> H].
      destruct (N.eqb_spec (c + 1) s), (N.eqb_spec (r + c + 1) (r + s)); cbn [fsm cnt]; try lia.
      rewrite N.mod_small by lia. lia.
  Qed.

  Theorem phyreset_refines : forall tr st p, rel st p ->
    run (pr_step r s w) st tr = run (sp_step r s) p tr.
  Proof. apply sim_run_all. intros st p i H. split; [apply rel_next | apply rel_out]; exact H. Qed.

  Corollary phyreset_from_reset : forall tr,
    run (pr_step r s w) (pr_init power_on) tr = run (sp_step r s) (sp_init power_on) tr.
  Proof. intros. apply phyreset_refines, rel_init. Qed.
End Proofs.

(* every state is the decoding of its code, so the lock-step obligation (props/C54.py, `pr_wf 0`) gets the trivial
   well-formedness predicate; it ignores w *)
Definition pr_wf (w : N) (st : pr_state) : Prop := True.
Lemma pr_dec_enc : forall st, pr_dec (pr_enc st) = st.
Proof.
  intros [f c]. unfold pr_dec, pr_enc. cbn [fsm cnt].
  rewrite (digit_mod 4), (digit_div 4) by (destruct f; reflexivity). destruct f; reflexivity.
Qed.
