(* C48, descriptor handler -- proofs about Model/SsDesc.v: the words handed over on tx during a GET_DESCRIPTOR
   request, followed by those still queued when the trace ends, are exactly the beats of C27's `answer`
   (ConstGen.v), with tx_length = min(wLength, len) (hd_request_stream, olen_min); nothing is sent for wLength = 0
   (hd_zero_length), unknown keys stall (hd_unknown).  answer_bytes_prefix: the valid bytes of the answer of a
   generator built from a byte string are the first min(wLength, len) bytes of that string.  Last, hd_dec_enc,
   hd_wf_step, hd_wf_init: the packing and well-formedness facts the lock-step tie of props/C48.py takes by name. *)
From Coq Require Import NArith List Bool Lia Arith.
Import ListNotations.
From LunaLib Require Import Netlist Machine BitFacts ListFacts.
From LunaModel Require Import ConstGen ConstGen_proofs SsDesc.
Open Scope N_scope.

Definition beat_ok (b : beat) : Prop := 1 <= b_bytes b /\ b_bytes b <= 4 /\ b_payload b < 2 ^ 32.

Lemma hd_cfg_ok_facts : forall c, hd_cfg_ok c = true ->
  cfg_okb c = true /\ c_hasml c = true /\ c_bpw c = 4 /\ c_vw c = 4 /\ c_mlw c = 16 /\ c_dw c = 32 /\
  Forall (fun w => w < 2 ^ 32) (c_words c).
Proof.
  intros c H. unfold hd_cfg_ok in H. apply andb_prop in H as [H Hw]. do 5 (apply andb_prop in H as [H ?]).
  repeat split; try (apply N.eqb_eq); try assumption.
  apply Forall_forall. intros w Hin. apply N.ltb_lt. exact (proj1 (forallb_forall _ _) Hw w Hin).
Qed.

Lemma answer_ok : forall c, hd_cfg_ok c = true -> forall ml, 0 < ml -> Forall beat_ok (answer c 0 ml) /\ answer c 0 ml <> [].
Proof.
  intros c Hc ml Hml. destruct (hd_cfg_ok_facts c Hc) as (Hk & _ & Hb & _ & _ & _ & Hw).
  destruct (cfg_facts c Hk) as (HL1 & _).
  destruct (answer_spec c Hk 0 ml ltac:(lia) Hml) as (Hp & _ & (init & fin & E & Hi & _ & H1 & H2) & _).
  split.
  - assert (Hpay : Forall (fun x => x < 2 ^ 32) (map b_payload (answer c 0 ml))).
    { rewrite Hp. apply Forall_firstn, Forall_skipn, Hw. }
    rewrite Forall_map in Hpay.
    assert (Hby : Forall (fun b => 1 <= b_bytes b /\ b_bytes b <= 4) (answer c 0 ml)).
    { rewrite E. apply Forall_app. split.
      - eapply Forall_impl; [|exact Hi]. intros b [_ Hb4]. rewrite Hb4, Hb. lia.
      - constructor; [|constructor]. rewrite Hb in H2. lia. }
    rewrite Forall_forall in *. intros b Hin. destruct (Hby b Hin). repeat split; auto.
  - rewrite E. destruct init; discriminate.
Qed.

Lemma hd_in_fields : forall v len (s r : bool), v < 2 ^ 16 -> len < 2 ^ 16 ->
  let i := hd_in v len s r in hd_value i = v /\ hd_length i = len /\ hd_start i = s /\ hd_ready i = r.
Proof.
  intros v len s r Hv Hl i.
  set (L := [(16, v); (16, len); (1, b2n s); (1, b2n r)]).
  assert (HL : fields_ok L) by (repeat constructor; cbn [fst snd]; try apply b2n_lt2; assumption).
  assert (E : i = fields_word L).
  { subst i L. unfold hd_in. rewrite !N.shiftl_mul_pow2. cbn [fields_word]. lia. }
  unfold hd_value, hd_length, hd_start, hd_ready. rewrite E.
  rewrite (bits_fields_word L 0 HL : bits _ 0 16 = v), (bits_fields_word L 1 HL : bits _ 16 16 = len),
    (bits_fields_word L 2 HL : bits _ 32 1 = b2n s), (bits_fields_word L 3 HL : bits _ 33 1 = b2n r), !odd_b2n.
  auto.
Qed.

(* with `value` fixed, the handler's behaviour is that of the selected generator and the register *)
Fixpoint sel_gen (ds : list (N * cg_cfg)) (gs : list q_st) (v : N) : option (cg_cfg * q_st) :=
  match ds, gs with
  | (k, c) :: ds', g :: gs' => if v =? k then Some (c, g) else sel_gen ds' gs' v
  | _, _ => None
  end.

Lemma hd_gens_sel : forall ds gs v len start le,
  snd (hd_gens ds gs v len start le) =
  match sel_gen ds gs v with Some (c, g) => Some (q_wire c g, q_olen c g) | None => None end /\
  sel_gen ds (fst (hd_gens ds gs v len start le)) v =
  match sel_gen ds gs v with Some (c, g) => Some (c, q_next c g start len le) | None => None end.
Proof.
  induction ds as [|[k c] ds IH]; intros gs v len start le; [split; reflexivity|].
  destruct gs as [|g gs]; [split; reflexivity|].
  cbn [hd_gens sel_gen]. specialize (IH gs v len start le).
  destruct (hd_gens ds gs v len start le) as [gs'' sel]. cbn [fst snd] in *.
  cbn [sel_gen]. destruct (v =? k); [split; reflexivity | exact IH].
Qed.

Definition gen_part (c : cg_cfg) (g : q_st) : list (wire * N) :=
  match q_k g with
  | QSend => map (fun b => (wire_of c b, olen_of c (q_ml g))) (skipn (q_pos g) (answer c 0 (q_ml g)))
  | _ => []
  end.
Definition reg_part (w : wire) (len : N) : list (wire * N) := if wire_valid w =? 0 then [] else [(w, len)].
(* SsDesc.w_ok under another name; the packing lemmas at the end of the file pass from one to the other by conversion *)
Definition reg_ok (w : wire) (len : N) : Prop := let '(v, f, l, p) := w in v < 16 /\ p < 2 ^ 32 /\ len < 2 ^ 16.
Definition gen_ok (c : cg_cfg) (g : q_st) : Prop :=
  match q_k g with QSend => 0 < q_ml g /\ (q_pos g < length (answer c 0 (q_ml g)))%nat | _ => True end.

Lemma olen_lt : forall c ml, hd_cfg_ok c = true -> olen_of c ml < 2 ^ 16.
Proof.
  intros c ml Hc. destruct (hd_cfg_ok_facts c Hc) as (_ & H1 & _ & _ & H2 & _).
  unfold olen_of. rewrite H1, H2. apply trunc_lt.
Qed.

Lemma reg_ok_none : forall len, len < 2 ^ 16 -> reg_ok wire_none len.
Proof. intros len H. repeat split. exact H. Qed.

Lemma hd_unpack : forall w len (stall : bool), reg_ok w len ->
  let o := hd_pack_out w len stall in
  hd_ovalid o = wire_valid w /\ hd_owire o = w /\ hd_olen o = len /\ hd_ostall o = stall.
Proof.
  intros [[[v f] l] p] len stall (Hv & Hp & Hl) o.
  set (L := [(4, v); (1, b2n f); (1, b2n l); (32, p); (16, len); (1, b2n stall)]).
  assert (HL : fields_ok L) by (repeat constructor; cbn [fst snd]; try apply b2n_lt2; assumption).
  assert (E : o = fields_word L).
  { subst o L. unfold hd_pack_out. rewrite !N.shiftl_mul_pow2. cbn [fields_word]. lia. }
  unfold hd_ovalid, hd_owire, hd_olen, hd_ostall. rewrite E.
  rewrite (bits_fields_word L 0 HL : bits _ 0 4 = v), (bits_fields_word L 1 HL : bits _ 4 1 = b2n f),
    (bits_fields_word L 2 HL : bits _ 5 1 = b2n l), (bits_fields_word L 3 HL : bits _ 6 32 = p),
    (bits_fields_word L 4 HL : bits _ 38 16 = len), (bits_fields_word L 5 HL : bits _ 54 1 = b2n stall), !odd_b2n.
  auto.
Qed.

Lemma gen_ok_ml : forall c g, gen_ok c g -> q_k g = QSend -> 0 < q_ml g.
Proof. intros c g H E. unfold gen_ok in H. rewrite E in H. apply H. Qed.

Lemma wire_of_ok : forall c ml pos b, hd_cfg_ok c = true -> 0 < ml -> nth_error (answer c 0 ml) pos = Some b ->
  1 <= wire_valid (wire_of c b) /\ forall len, len < 2 ^ 16 -> reg_ok (wire_of c b) len.
Proof.
  intros c ml pos b Hc Hm En. destruct (hd_cfg_ok_facts c Hc) as (_ & _ & _ & Hv & _).
  destruct (answer_ok c Hc ml Hm) as [Hall _]. rewrite Forall_forall in Hall.
  destruct (Hall b (nth_error_In _ _ En)) as (H1 & H4 & Hp).
  unfold wire_of, wire_valid, reg_ok, vmask. cbn [fst]. rewrite Hv. change (4 =? 1) with false. cbv iota.
  destruct (ones_range _ 4 (conj H1 H4)). repeat split; assumption.
Qed.

Lemma q_wire_ok : forall c g, hd_cfg_ok c = true -> (q_k g = QSend -> 0 < q_ml g) -> reg_ok (q_wire c g) (q_olen c g).
Proof.
  intros c [k ml pos] Hc Hm. pose proof (olen_lt c ml Hc) as Ho. unfold q_wire, q_olen, q_answer. cbn [q_k q_ml q_pos] in *.
  destruct k; try exact (reg_ok_none _ Ho).
  destruct (nth_error (answer c 0 ml) pos) as [b|] eqn:En; [|exact (reg_ok_none _ Ho)].
  exact (proj2 (wire_of_ok c ml pos b Hc (Hm eq_refl) En) _ Ho).
Qed.

Lemma hd_load : forall c g len, hd_cfg_ok c = true -> gen_ok c g ->
  let g' := q_next c g false len true in
  reg_part (q_wire c g) (q_olen c g) ++ gen_part c g' = gen_part c g /\ gen_ok c g'.
Proof.
  intros c [k ml pos] len Hc Hg.
  unfold gen_ok, q_next, q_wire, q_olen, gen_part, q_answer in *. cbn [q_k q_ml q_pos andb] in *.
  destruct k; try (split; [reflexivity | exact I]).
  destruct Hg as [Hm Hp].
  destruct (nth_error (answer c 0 ml) pos) as [b|] eqn:En; [|apply nth_error_None in En; lia].
  destruct (wire_of_ok c ml pos b Hc Hm En) as [Hv1 _]. rewrite (skipn_cons_nth _ _ b Hp), (nth_error_nth _ _ b En). cbn [map].
  unfold reg_part. replace (wire_valid (wire_of c b) =? 0) with false by lia.
  (* the beat at pos has gone to the register; those from pos + 1 on are left, if any *)
  destruct (Nat.ltb_spec (S pos) (length (answer c 0 ml))) as [El|El]; cbn [q_k q_ml q_pos app].
  - split; [reflexivity | split; assumption].
  - rewrite skipn_all2 by exact El. split; [reflexivity | exact I].
Qed.

Lemma hd_hold : forall c g len, gen_ok c g ->
  let g' := q_next c g false len false in gen_part c g' = gen_part c g /\ gen_ok c g'.
Proof. intros c [k ml pos] len Hg. destruct k; (split; [reflexivity | first [exact Hg | exact I]]). Qed.

(* one cycle without `start`: what is handed over plus what remains is what remained before *)
Lemma hd_cycle : forall c g w lr len (ready : bool), hd_cfg_ok c = true -> gen_ok c g -> reg_ok w lr ->
  let le := (wire_valid w =? 0) || ready in
  let g' := q_next c g false len le in
  let w' := if le then q_wire c g else w in
  let lr' := if le then q_olen c g else lr in
  (if negb (wire_valid w =? 0) && ready then [(w, lr)] else []) ++ (reg_part w' lr' ++ gen_part c g')
    = reg_part w lr ++ gen_part c g /\ gen_ok c g' /\ reg_ok w' lr'.
Proof.
  intros c g w lr len ready Hc Hg Hr. cbv zeta.
  destruct (hd_load c g len Hc Hg) as (L1 & L2). destruct (hd_hold c g len Hg) as (K1 & K2).
  pose proof (q_wire_ok c g Hc (gen_ok_ml c g Hg)) as L3.
  destruct (wire_valid w =? 0) eqn:Ev, ready; cbn [negb andb orb app]; rewrite ?L1, ?K1; unfold reg_part; rewrite Ev;
    repeat split; (reflexivity || assumption).
Qed.

Fixpoint sel_cfg (ds : list (N * cg_cfg)) (v : N) : option cg_cfg :=
  match ds with (k, c) :: t => if v =? k then Some c else sel_cfg t v | [] => None end.

Lemma sel_gen_init : forall ds v,
  sel_gen ds (map (fun _ => q_init) ds) v = match sel_cfg ds v with Some c => Some (c, q_init) | None => None end.
Proof. induction ds as [|[k c] ds IH]; intro v; [reflexivity|]. cbn [map sel_gen sel_cfg]. destruct (v =? k); [reflexivity | apply IH]. Qed.

Lemma sel_gen_none : forall ds gs v, sel_cfg ds v = None -> sel_gen ds gs v = None.
Proof.
  induction ds as [|[k c] ds IH]; intros gs v H; [reflexivity|]. destruct gs as [|g gs]; [reflexivity|].
  cbn [sel_gen sel_cfg] in *. destruct (v =? k); [discriminate | apply IH; exact H].
Qed.

Lemma hd_known_none : forall ds v, sel_cfg ds v = None -> hd_known ds v = false.
Proof.
  induction ds as [|[k c] ds IH]; intros v H; [reflexivity|]. unfold hd_known in *. cbn [existsb fst sel_cfg] in *.
  destruct (v =? k); [discriminate | apply IH; exact H].
Qed.

Section HandlerThm.
  Variable descs : list (N * cg_cfg).
  Notation step := (hd_step descs).

  Definition remaining (v : N) (st : hd_st) : list (wire * N) :=
    match sel_gen descs (h_gens st) v with
    | Some (c, g) => reg_part (h_w st) (h_len st) ++ gen_part c g
    | None => []
    end.

  Definition hd_inv (v : N) (c : cg_cfg) (st : hd_st) : Prop :=
    exists g, sel_gen descs (h_gens st) v = Some (c, g) /\ gen_ok c g /\ reg_ok (h_w st) (h_len st).

  Lemma hd_step_out : forall st i,
    snd (step st i) = hd_pack_out (h_w st) (h_len st) (negb (hd_known descs (hd_value i)) && hd_start i).
  Proof. intros. unfold hd_step. destruct (hd_gens _ _ _ _ _ _). reflexivity. Qed.

  Lemma hd_step_view : forall st i,
    let le := (wire_valid (h_w st) =? 0) || hd_ready i in
    let st' := fst (step st i) in
    match sel_gen descs (h_gens st) (hd_value i) with
    | Some (c, g) =>
        sel_gen descs (h_gens st') (hd_value i) = Some (c, q_next c g (hd_start i) (hd_length i) le) /\
        h_w st' = (if le then q_wire c g else h_w st) /\ h_len st' = (if le then q_olen c g else h_len st)
    | None => h_w st' = h_w st /\ h_len st' = h_len st
    end.
  Proof.
    intros st i le st'. subst st'. unfold hd_step. fold le.
    destruct (hd_gens_sel descs (h_gens st) (hd_value i) (hd_length i) (hd_start i) le) as [H1 H2].
    destruct (hd_gens descs (h_gens st) (hd_value i) (hd_length i) (hd_start i) le) as [gs' sel].
    cbn [fst snd h_gens h_w h_len] in *.
    destruct (sel_gen descs (h_gens st) (hd_value i)) as [[c g]|]; subst sel; repeat split; assumption.
  Qed.

  Lemma out_fields : forall st i, reg_ok (h_w st) (h_len st) ->
    let o := snd (step st i) in
    hd_ovalid o = wire_valid (h_w st) /\ hd_owire o = h_w st /\ hd_olen o = h_len st /\
    hd_ostall o = negb (hd_known descs (hd_value i)) && hd_start i.
  Proof. intros st i Hr. cbv zeta. rewrite hd_step_out. exact (hd_unpack _ _ _ Hr). Qed.

  Lemma hd_nostart : forall v c, hd_cfg_ok c = true -> forall tr st,
    Forall (fun i => hd_value i = v /\ hd_start i = false) tr -> hd_inv v c st ->
    hd_xfers tr (run step st tr) ++ remaining v (run_state step st tr) = remaining v st /\
    hd_inv v c (run_state step st tr).
  Proof.
    intros v c Hc. induction tr as [|i t IH]; intros st Hall (g & Hs & Hg & Hr).
    - cbn. split; [reflexivity | exists g; repeat split; assumption].
    - inversion Hall as [|? ? [Hv Hst] Ht]; subst. rewrite run_cons. cbn [run_state hd_xfers].
      destruct (out_fields st i Hr) as (O1 & O2 & O3 & _). rewrite O1, O2, O3.
      pose proof (hd_step_view st i) as V. cbv zeta in V. rewrite Hs, Hst in V. destruct V as (V1 & V2 & V3).
      destruct (hd_cycle c g (h_w st) (h_len st) (hd_length i) (hd_ready i) Hc Hg Hr) as (C1 & C2 & C3).
      assert (Hinv' : hd_inv (hd_value i) c (fst (step st i))).
      { eexists. split; [exact V1|]. rewrite V2, V3. split; assumption. }
      destruct (IH (fst (step st i)) Ht Hinv') as [I1 I2].
      split; [|exact I2].
      rewrite <- app_assoc. rewrite I1. unfold remaining at 1. rewrite V1, V2, V3.
      unfold remaining. rewrite Hs. exact C1.
  Qed.

  Lemma hd_started : forall v ml c g0 st r0 readys, v < 2 ^ 16 -> ml < 2 ^ 16 ->
    hd_cfg_ok c = true -> sel_gen descs (h_gens st) v = Some (c, g0) -> q_k g0 = QIdle ->
    wire_valid (h_w st) = 0 -> reg_ok (h_w st) (h_len st) ->
    let tr := hd_request v ml r0 readys in
    hd_xfers tr (run step st tr) ++ remaining v (run_state step st tr) = if 0 <? ml then hd_expected c ml else [].
  Proof.
    intros v ml c g0 st r0 readys Hv Hm Hc Hs Hk Hw Hr tr. subst tr. unfold hd_request.
    rewrite run_cons. cbn [run_state hd_xfers].
    destruct (hd_in_fields v ml true r0 Hv Hm) as (F1 & F2 & F3 & F4).
    set (i := hd_in v ml true r0) in *.
    destruct (out_fields st i Hr) as (O1 & _). rewrite O1, Hw. cbn [N.eqb negb andb app].
    pose proof (hd_step_view st i) as V. cbv zeta in V. rewrite F1, F2, F3, F4, Hs, Hw in V.
    cbn [N.eqb orb] in V. destruct V as (V1 & V2 & V3).
    assert (Hw1 : q_wire c g0 = wire_none) by (unfold q_wire; rewrite Hk; reflexivity).
    assert (Hinv' : hd_inv v c (fst (step st i))).
    { eexists. split; [exact V1|]. split.
      - unfold gen_ok, q_next. rewrite Hk. cbn [andb]. destruct (N.ltb_spec 0 ml) as [Hm0|_]; [|exact I].
        cbn [q_k q_ml q_pos]. split; [exact Hm0|]. destruct (answer_ok c Hc ml Hm0) as [_ Hne].
        destruct (answer c 0 ml); [congruence | apply Nat.lt_0_succ].
      - rewrite V2, V3, Hw1. apply reg_ok_none, olen_lt, Hc. }
    assert (HF : Forall (fun i => hd_value i = v /\ hd_start i = false) (map (hd_in v ml false) readys)).
    { apply Forall_map, Forall_forall. intros r _. destruct (hd_in_fields v ml false r Hv Hm) as (G1 & _ & G3 & _).
      split; assumption. }
    destruct (hd_nostart v c Hc _ (fst (step st i)) HF Hinv') as [-> _].
    (* what the start cycle leaves queued is the whole answer: register empty, generator at beat 0 (idle if ml = 0) *)
    unfold remaining. rewrite V1, V2, Hw1. unfold q_next. rewrite Hk. cbn [andb]. destruct (0 <? ml); reflexivity.
  Qed.

  (* C48: the words handed over on tx, followed by what is still queued, are exactly the expected answer *)
  Theorem hd_request_stream : forall v ml c g0 st r0 readys, v < 2 ^ 16 -> 0 < ml -> ml < 2 ^ 16 ->
    hd_cfg_ok c = true -> sel_gen descs (h_gens st) v = Some (c, g0) -> q_k g0 = QIdle ->
    wire_valid (h_w st) = 0 -> reg_ok (h_w st) (h_len st) ->
    let tr := hd_request v ml r0 readys in
    hd_xfers tr (run step st tr) ++ remaining v (run_state step st tr) = hd_expected c ml.
  Proof.
    intros v ml c g0 st r0 readys Hv Hm0 Hm Hc Hs Hk Hw Hr. cbv zeta.
    rewrite (hd_started v ml c g0 st r0 readys Hv Hm Hc Hs Hk Hw Hr). replace (0 <? ml) with true by lia. reflexivity.
  Qed.

  Corollary hd_request_from_reset : forall v ml c r0 readys, v < 2 ^ 16 -> 0 < ml -> ml < 2 ^ 16 ->
    sel_cfg descs v = Some c -> hd_cfg_ok c = true ->
    let tr := hd_request v ml r0 readys in
    hd_xfers tr (run step (hd_init descs) tr) ++ remaining v (run_state step (hd_init descs) tr) = hd_expected c ml.
  Proof.
    intros v ml c r0 readys Hv Hm0 Hm Hs Hc. apply (hd_request_stream v ml c q_init); try assumption; try reflexivity.
    - unfold hd_init. cbn [h_gens]. rewrite sel_gen_init, Hs. reflexivity.
    - apply reg_ok_none. reflexivity.
  Qed.

  (* wLength = 0: nothing is sent *)
  Theorem hd_zero_length : forall v c g0 st r0 readys, v < 2 ^ 16 -> hd_cfg_ok c = true ->
    sel_gen descs (h_gens st) v = Some (c, g0) -> q_k g0 = QIdle ->
    wire_valid (h_w st) = 0 -> reg_ok (h_w st) (h_len st) ->
    let tr := hd_request v 0 r0 readys in hd_xfers tr (run step st tr) = [].
  Proof.
    intros v c g0 st r0 readys Hv Hc Hs Hk Hw Hr. cbv zeta.
    exact (proj1 (app_eq_nil _ _ (hd_started v 0 c g0 st r0 readys Hv eq_refl Hc Hs Hk Hw Hr))).
  Qed.

  (* unknown (type, index): stall = start in every cycle, and tx stays silent *)
  Theorem hd_unknown : forall v, sel_cfg descs v = None -> forall tr st,
    wire_valid (h_w st) = 0 -> reg_ok (h_w st) (h_len st) -> Forall (fun i => hd_value i = v) tr ->
    Forall2 (fun i o => hd_ovalid o = 0 /\ hd_ostall o = hd_start i) tr (run step st tr).
  Proof.
    intros v Hn. induction tr as [|i t IH]; intros st Hw Hr Hall; [constructor|].
    inversion Hall as [|? ? Hi Ht]; subst. rewrite run_cons.
    destruct (out_fields st i Hr) as (O1 & _ & _ & O4).
    pose proof (hd_step_view st i) as V. cbv zeta in V. rewrite (sel_gen_none descs (h_gens st) _ Hn) in V.
    destruct V as (V2 & V3).
    constructor.
    - rewrite O1, O4, Hw, (hd_known_none descs _ Hn). split; reflexivity.
    - apply IH; [rewrite V2; exact Hw | rewrite V2, V3; exact Hr | exact Ht].
  Qed.
End HandlerThm.

(* tx_length is min(wLength, descriptor length) *)
Lemma olen_min : forall c ml, c_hasml c = true -> c_mlw c = 16 -> ml < 2 ^ 16 -> olen_of c ml = N.min ml (c_dlen c).
Proof.
  intros c ml H1 H2 Hm. unfold olen_of. rewrite H1, H2.
  destruct (N.ltb_spec ml (c_dlen c)); rewrite trunc_small; lia.
Qed.

Lemma le_bytes_zero : forall n, le_bytes n 0 = repeat 0 n.
Proof. induction n; cbn [le_bytes repeat]; [reflexivity|]. rewrite N.mod_0_l, N.div_0_l by discriminate. rewrite IHn. reflexivity. Qed.

Lemma le_bytes_word_le : forall ch n, Forall (fun b => b < 256) ch -> (length ch <= n)%nat ->
  le_bytes n (word_le ch) = ch ++ repeat 0 (n - length ch).
Proof.
  induction ch as [|b t IH]; intros n Hb Hn.
  - cbn [word_le app length]. rewrite Nat.sub_0_r. apply le_bytes_zero.
  - inversion Hb as [|? ? Hb1 Hb2]; subst. destruct n as [|n]; [cbn in Hn; lia|].
    cbn [word_le le_bytes length app]. rewrite digit_mod, digit_div by exact Hb1.
    rewrite IH by (try assumption; cbn in Hn; lia). reflexivity.
Qed.

Definition beat_bytes (b : beat) : list N := firstn (N.to_nat (b_bytes b)) (le_bytes 4 (b_payload b)).

Lemma chunk_bytes : forall ch k, Forall (fun b => b < 256) ch -> (length ch <= 4)%nat ->
  firstn (N.to_nat (N.min (N.of_nat (length ch)) k)) (le_bytes 4 (word_le ch)) = firstn (N.to_nat k) ch.
Proof.
  intros ch k Hb Hl. rewrite le_bytes_word_le, N2Nat.inj_min, Nat2N.id, firstn_app by assumption.
  replace (Nat.min (length ch) (N.to_nat k) - length ch)%nat with 0%nat by lia. cbn [firstn]. rewrite app_nil_r.
  rewrite Nat.min_comm, <- firstn_firstn, firstn_all. reflexivity.
Qed.

Lemma chunks_nil : forall f k, chunks f k (@nil N) = [].
Proof. destruct f; reflexivity. Qed.

(* the number of bytes in the last word of n bytes (c_lwb of cfg_of_bytes) *)
Definition lwb_of (n : nat) : nat := if Nat.eqb (n mod 4) 0 then 4%nat else (n mod 4)%nat.

Lemma lwb_of_small : forall n, (1 <= n <= 4)%nat -> lwb_of n = n.
Proof.
  intros n H. unfold lwb_of. destruct (Nat.eq_dec n 4) as [->|]; [reflexivity|].
  rewrite Nat.mod_small by lia. destruct (Nat.eqb_spec n 0); lia.
Qed.

Lemma lwb_of_sub4 : forall n, (4 < n)%nat -> lwb_of (n - 4) = lwb_of n.
Proof.
  intros n H. unfold lwb_of. replace (n mod 4)%nat with ((n - 4) mod 4)%nat; [reflexivity|].
  rewrite <- (Nat.mod_add (n - 4) 1 4) by discriminate. f_equal. lia.
Qed.

(* The answer over the words of bs, four bytes at a time.  Whether final or not, a beat carries the first ml - sent
   bytes of its piece of bs, that is all of them unless the budget ends here; what follows carries the rest of the
   budget. *)
Lemma beats_chunks_bytes : forall fuel bs ml sent first, (length bs <= fuel)%nat -> Forall (fun b => b < 256) bs ->
  flat_map beat_bytes (beats 4 (N.of_nat (lwb_of (length bs))) ml (map word_le (chunks fuel 4 bs)) sent first)
  = firstn (N.to_nat (ml - sent)) bs.
Proof.
  induction fuel as [|f IH]; intros bs ml sent first Hf Hb; [destruct bs; [symmetry; apply firstn_nil | inversion Hf]|].
  destruct bs as [|b t]; [symmetry; apply firstn_nil|]. cbn [chunks]. remember (b :: t) as bs eqn:Ebs.
  assert (L1 : (1 <= length bs)%nat) by (subst bs; cbn; lia). clear Ebs b t.
  pose proof (skipn_length 4 bs) as Hlen.
  assert (Hb4 : Forall (fun b => b < 256) (firstn 4 bs)) by (apply Forall_firstn, Hb).
  cbn [map]. rewrite beats_cons. cbv zeta. cbn [flat_map]. unfold beat_bytes at 1. cbn [b_bytes b_payload].
  destruct (le_lt_dec (length bs) 4) as [Hle|Hgt].
  - (* the last word: it has all the bytes there are *)
    rewrite (skipn_all2 bs) by exact Hle. rewrite chunks_nil, lwb_of_small, (firstn_all2 (n:=4) bs) by lia.
    cbn [map orb flat_map]. rewrite app_nil_r. apply chunk_bytes; assumption.
  - (* a full word, and the rest of bs has words of its own *)
    destruct (map word_le (chunks f 4 (skipn 4 bs))) as [|w2 ws] eqn:Ew.
    { destruct f; [lia|]. destruct (skipn 4 bs); [cbn in Hlen; lia | discriminate Ew]. }
    cbn [orb]. rewrite <- Ew.
    assert (L4 : length (firstn 4 bs) = 4%nat) by (rewrite firstn_length; lia).
    replace (if ml <=? sent + 4 then N.min 4 (ml - sent) else 4)
      with (N.min (N.of_nat (length (firstn 4 bs))) (ml - sent)) by (rewrite L4; destruct (N.leb_spec ml (sent + 4)); lia).
    rewrite chunk_bytes, firstn_firstn by (assumption || lia).
    destruct (N.leb_spec ml (sent + 4)) as [Hfin|Hfin].
    + cbn [flat_map]. rewrite app_nil_r. f_equal. lia.
    + rewrite <- (lwb_of_sub4 _ Hgt), <- Hlen.
      rewrite IH; [| lia | apply Forall_skipn, Hb].
      replace (N.to_nat (ml - sent)) with (4 + N.to_nat (ml - (sent + 4)))%nat at 2 by lia. rewrite firstn_plus.
      f_equal. f_equal. lia.
Qed.

(* the valid bytes of the answer of the 32-bit generator built from `data` are its first min(wLength, len) bytes *)
Theorem answer_bytes_prefix : forall data ml, data <> [] -> Forall (fun b => b < 256) data -> 0 < ml ->
  answer_bytes (cfg_of_bytes data 4 false (Some 16)) ml
  = firstn (N.to_nat (N.min ml (N.of_nat (length data)))) data.
Proof.
  intros data ml _ Hb _. unfold answer_bytes, answer. cbn [N.to_nat skipn].
  unfold cfg_of_bytes. cbn [c_bpw c_lwb c_words]. change (N.of_nat 4) with 4.
  rewrite (map_ext _ word_le) by reflexivity. fold (lwb_of (length data)).
  change (fun b : beat => firstn (N.to_nat (b_bytes b)) (le_bytes 4 (b_payload b))) with beat_bytes.
  rewrite (beats_chunks_bytes _ data ml 0 true (le_n _) Hb), N.sub_0_r.
  (* beyond the length, firstn takes everything *)
  rewrite N2Nat.inj_min, Nat2N.id, <- firstn_firstn, firstn_all. reflexivity.
Qed.

Lemma q_dec_enc : forall g, q_ml g < 2 ^ 16 -> q_dec (q_enc g) = g.
Proof.
  intros [k ml pos] H. cbn [q_ml] in H. unfold q_dec, q_enc. cbn [q_k q_ml q_pos].
  set (t := match k with QIdle => 0 | QSend => 1 | QDone => 2 end).
  assert (Ht : t < 2 ^ 2) by (destruct k; reflexivity).
  change 18 with (2 + 16). rewrite <- N.shiftr_shiftr. change 3 with (N.ones 2). change 4 with (2 ^ 2).
  rewrite !N.shiftr_div_pow2, !N.land_ones, digit_mod, digit_div by exact Ht.
  rewrite digit_mod, digit_div by exact H. rewrite Nat2N.id. subst t. destruct k; reflexivity.
Qed.

Lemma q_enc_lt : forall c g, q_wfd c g -> N.of_nat (length (c_words c)) < 2 ^ 32 -> q_enc g < 2 ^ 64.
Proof.
  intros c [k ml pos] (H1 & H2 & _) Hn. cbn [q_ml q_pos] in *. unfold q_enc. cbn [q_k q_ml q_pos].
  assert (N.of_nat pos < 2 ^ 32) by lia.
  change (2 ^ 16) with 65536 in *. change (2 ^ 32) with 4294967296 in *. change (2 ^ 64) with 18446744073709551616.
  destruct k; lia.
Qed.

Lemma qs_dec_enc : forall gs, Forall (fun g => q_ml g < 2 ^ 16 /\ q_enc g < 2 ^ 64) gs ->
  qs_dec (length gs) (qs_enc gs) = gs.
Proof.
  induction gs as [|g gs IH]; intro H; [reflexivity|]. inversion H as [|? ? [H1 H2] Ht]; subst.
  cbn [length qs_dec qs_enc]. rewrite N.land_ones, N.shiftr_div_pow2, digit_mod, digit_div by exact H2.
  rewrite q_dec_enc by exact H1. rewrite IH by exact Ht. reflexivity.
Qed.

Lemma w_enc_lt : forall v f l p, v < 16 -> p < 2 ^ 32 -> w_enc (v, f, l, p) < 2 ^ 38.
Proof.
  intros v f l p Hv Hp. unfold w_enc. pose proof (b2n_lt2 f). pose proof (b2n_lt2 l).
  change (2 ^ 32) with 4294967296 in *. change (2 ^ 38) with 274877906944. lia.
Qed.

Lemma w_dec_enc : forall v f l p, v < 16 -> w_dec (w_enc (v, f, l, p)) = (v, f, l, p).
Proof.
  intros v f l p Hv. unfold w_dec, w_enc. change 15 with (N.ones 4). rewrite N.land_ones, !N.shiftr_div_pow2.
  change (2 ^ 5) with (2 ^ 4 * 2). change (2 ^ 6) with (2 ^ 4 * 2 * 2). change 16 with (2 ^ 4) in *.
  rewrite <- !N.div_div by discriminate. rewrite digit_mod, !digit_div by exact Hv.
  rewrite !odd_b2n_add_2, !(digit_div 2) by apply b2n_lt2. rewrite odd_b2n_add_2. reflexivity.
Qed.

Lemma Forall2_length' : forall {A B : Type} {R : A -> B -> Prop} {l1 l2}, Forall2 R l1 l2 -> length l2 = length l1.
Proof. intros A B R l1 l2 H. induction H; cbn; congruence. Qed.

Lemma hd_descs_ok_facts : forall descs, hd_descs_ok descs = true ->
  Forall (fun d => hd_cfg_ok (snd d) = true /\ N.of_nat (length (c_words (snd d))) < 2 ^ 32) descs.
Proof.
  intros descs H. unfold hd_descs_ok in H. rewrite forallb_forall in H. apply Forall_forall. intros d Hd.
  specialize (H d Hd). apply andb_true_iff in H as [H1 H2]. apply N.ltb_lt in H2. split; assumption.
Qed.

Lemma hd_dec_enc : forall descs, hd_descs_ok descs = true -> forall st, hd_wf descs st ->
  hd_dec (length descs) (hd_enc st) = st.
Proof.
  intros descs Hd [gs w len] [Hg Hw]. cbn [h_gens h_w h_len] in *. unfold hd_dec, hd_enc. cbn [h_gens h_w h_len].
  destruct w as [[[v f] l] p]. destruct Hw as (Hv & Hp & Hl).
  change 54 with (16 + 38). rewrite <- N.shiftr_shiftr, !N.land_ones, !N.shiftr_div_pow2.
  rewrite digit_mod, !digit_div by exact Hl. rewrite digit_mod, digit_div by (apply w_enc_lt; assumption).
  rewrite w_dec_enc by exact Hv.
  rewrite <- (Forall2_length' Hg), qs_dec_enc; [reflexivity|].
  pose proof (hd_descs_ok_facts descs Hd) as Hf. clear Hd.
  induction Hg as [|d g ds gs' Hdg Hrest IH]; [constructor|].
  inversion Hf as [|? ? [_ Hn] Hf']; subst. constructor; [|apply IH; exact Hf'].
  split; [exact (proj1 Hdg) | exact (q_enc_lt _ _ Hdg Hn)].
Qed.

Lemma answer_len : forall c ml, (length (answer c 0 ml) <= length (c_words c))%nat.
Proof.
  intros c ml. unfold answer. cbn [N.to_nat skipn].
  pose proof (f_equal (@length N) (beats_payloads (c_bpw c) (c_lwb c) ml (c_words c) 0 true)) as Hp.
  rewrite map_length, firstn_length in Hp. lia.
Qed.

Lemma q_next_wfd : forall c g start len ready, q_wfd c g -> len < 2 ^ 16 -> q_wfd c (q_next c g start len ready).
Proof.
  intros c [k ml pos] start len ready (H1 & H2 & H3) Hl. cbn [q_k q_ml q_pos] in *.
  unfold q_next, q_wfd, q_answer. cbn [q_k q_ml q_pos]. destruct k.
  - destruct (start && (0 <? len)) eqn:E; cbn [q_k q_ml q_pos]; (split; [exact Hl | split; [apply Nat.le_0_l|]]);
      intro Hs; [|discriminate]. apply andb_true_iff in E as [_ E]. apply N.ltb_lt, E.
  - destruct ready; [|exact (conj H1 (conj H2 H3))]. specialize (H3 eq_refl).
    destruct (Nat.ltb_spec (S pos) (length (answer c 0 ml))) as [E|E]; cbn [q_k q_ml q_pos];
      (split; [exact H1 | split]); [|intros _; exact H3 | apply Nat.le_0_l | discriminate].
    (* the answer has no more beats than the ROM has words *)
    pose proof (answer_len c ml). lia.
  - split; [exact H1 | split; [apply Nat.le_0_l | discriminate]].
Qed.

Lemma hd_gens_wf : forall ds gs value len start le,
  Forall (fun d => hd_cfg_ok (snd d) = true) ds -> Forall2 (fun d g => q_wfd (snd d) g) ds gs -> len < 2 ^ 16 ->
  Forall2 (fun d g => q_wfd (snd d) g) ds (fst (hd_gens ds gs value len start le)) /\
  match snd (hd_gens ds gs value len start le) with Some (w, ol) => w_ok w ol | None => True end.
Proof.
  induction ds as [|[k c] ds IH]; intros gs value len start le Hc Hg Hl.
  - inversion Hg; subst. cbn. split; [constructor | exact I].
  - inversion Hg as [|? g ? gs' Hdg Hrest]; subst. inversion Hc as [|? ? Hc1 Hc2]; subst. cbn [snd] in *.
    cbn [hd_gens]. specialize (IH gs' value len start le Hc2 Hrest Hl).
    destruct (hd_gens ds gs' value len start le) as [gs'' sel]. cbn [fst snd] in *. destruct IH as [I1 I2].
    split.
    + constructor; [|exact I1]. cbn [snd]. apply q_next_wfd; try assumption.
      destruct (value =? k); [exact Hl | reflexivity].
    + destruct (value =? k); [exact (q_wire_ok c g Hc1 (proj2 (proj2 Hdg))) | exact I2].
Qed.

Lemma hd_wf_step : forall descs, hd_descs_ok descs = true -> forall st i, hd_wf descs st ->
  hd_wf descs (fst (hd_step descs st i)).
Proof.
  intros descs Hd st i [Hg Hw].
  assert (Hc : Forall (fun d => hd_cfg_ok (snd d) = true) descs).
  { eapply Forall_impl; [|apply (hd_descs_ok_facts descs Hd)]. intros d [H _]. exact H. }
  unfold hd_step.
  set (le := (wire_valid (h_w st) =? 0) || hd_ready i).
  destruct (hd_gens_wf descs (h_gens st) (hd_value i) (hd_length i) (hd_start i) le Hc Hg (bits_lt i 16 16)) as [G1 G2].
  destruct (hd_gens descs (h_gens st) (hd_value i) (hd_length i) (hd_start i) le) as [gs' sel]. cbn [fst snd] in *.
  split; cbn [h_gens h_w h_len]; [exact G1|].
  destruct sel as [[w ol]|]; [|exact Hw]. destruct le; [exact G2 | exact Hw].
Qed.

Lemma hd_wf_init : forall descs, hd_wf descs (hd_init descs).
Proof.
  intro descs. split; [|apply reg_ok_none; reflexivity]. unfold hd_init. cbn [h_gens].
  induction descs as [|d ds IH]; [constructor|]. cbn [map]. constructor; [|exact IH].
  repeat split; cbn; try lia. discriminate.
Qed.
