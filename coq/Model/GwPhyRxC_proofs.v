(* C25 -- the cycle-level receive front end (GwPhy.rxf: synchronisers, clock/data recovery, NRZI decoder, packet
   detector, bit-stuff remover, shifter, up to the FIFO write ports) on an ideally (4x) sampled line, at any phase,
   performs exactly the steps of the symbol-level machine GwPhy.rxb, one per line symbol (rxf_sim, from the `locked`
   condition; rx_acquire reaches it from reset by evaluation).  With GwPhyRxB_proofs.rxb_unframe it therefore computes
   the specification's decoder, as far as rxb_unframe says (rx_unframe_cycles); rx_frame_cycles and rx_violation_cycles
   are that with the codec laws. *)
From Coq Require Import NArith List Bool Lia Arith.
Import ListNotations.
From LunaLib Require Import Netlist Machine BitFacts ListFacts.
From LunaModel Require Import GwPhyCodec GwPhyCodec_proofs GwPhy GwPhyRxB_proofs.
Open Scope N_scope.

(* The front end is the clock recovery (cdr) beside the rest (rxd), which sees the recovery's outputs only. *)
Record rxd := { d_nz : rxnz; d_det : N; d_bs : rxbs; d_sh : rxsh; d_past : bool; d_err : bool }.
Definition rxd_of (s : rxf) : rxd :=
  {| d_nz := f_nz s; d_det := f_det s; d_bs := f_bs s; d_sh := f_sh s; d_past := f_past s; d_err := f_err s |}.
Definition mkF (k : cdr) (d : rxd) : rxf :=
  {| f_cdr := k; f_nz := d_nz d; f_det := d_det d; f_bs := d_bs d; f_sh := d_sh d; f_past := d_past d; f_err := d_err d |}.

Definition rxd_next (d : rxd) (valid dj dk : bool) : rxd :=
  let z := d_nz d in let b := d_bs d in
  let st := det_start (d_det d) (z_valid z) (z_data z) (z_se0 z) in
  let en := det_end (d_det d) (z_valid z) (z_se0 z) in
  let act := det_active (d_det d) (z_valid z) (z_se0 z) in
  {| d_nz := rxnz_next z valid dj dk;
     d_det := det_next (d_det d) (z_valid z) (z_data z) (z_se0 z);
     d_bs := rxbs_next b (z_valid z) (z_data z);
     d_sh := rxsh_next 8 (d_sh d) en (negb (b_stall b) && d_past d) (b_data b);
     d_past := act;
     d_err := if st then false else if b_error b && d_past d then true else d_err d |}.

Definition rxd_events (d : rxd) : list rxev :=
  let z := d_nz d in
  (if det_start (d_det d) (z_valid z) (z_data z) (z_se0 z) then [EvStart] else []) ++
  (if r_put (d_sh d) then [EvByte (rev8 (r_reg (d_sh d) mod 256))] else []) ++
  (if det_end (d_det d) (z_valid z) (z_se0 z) then [EvEnd] else []).

Lemma mkF_rxd_of : forall s, mkF (f_cdr s) (rxd_of s) = s.
Proof. intros []; reflexivity. Qed.

Lemma line_word_bits : forall s, nb (bits (line_word s) 0 1) = sym_dp s /\ nb (bits (line_word s) 1 1) = sym_dn s.
Proof. destruct s; split; reflexivity. Qed.

Lemma rxf_step_split : forall k d y,
  rxf_step (mkF k d) (line_word y) =
  (mkF (cdr_next k (sym_dp y) (sym_dn y)) (rxd_next d (k_valid k) (k_dj k) (k_dk k)), rxf_out (mkF k d)).
Proof. intros k [z q b sh p e] y. unfold rxf_step. destruct (line_word_bits y) as [-> ->]. reflexivity. Qed.

Lemma rev8_lt : forall x, rev8 x < 256.
Proof.
  intro x.
  set (L := map (fun i => (1, b2n (N.testbit x i))) [7; 6; 5; 4; 3; 2; 1; 0]).
  assert (E : rev8 x = fields_word L) by (unfold rev8; cbn [L map fields_word]; lia).
  rewrite E. apply (fields_word_lt L). repeat constructor; apply b2n_lt2.
Qed.

Lemma rxf_out_obs : forall k d,
  rxf_events (rxf_out (mkF k d)) = rxd_events d /\ rxf_err_of (rxf_out (mkF k d)) = d_err d.
Proof.
  intros k [z q b sh p e].
  set (st := det_start q (z_valid z) (z_data z) (z_se0 z)). set (en := det_end q (z_valid z) (z_se0 z)).
  set (L := [(1, b2n (r_put sh)); (8, rev8 (r_reg sh mod 256)); (1, b2n (st || en)); (1, b2n en); (1, b2n st);
             (1, b2n e); (1, b2n (k_valid k))]).
  assert (HL : fields_ok L) by (repeat constructor; cbn [fst snd]; try apply b2n_lt2; apply rev8_lt).
  set (o := rxf_out _).
  assert (E : o = fields_word L).
  { subst o L st en. unfold rxf_out, mkF. cbn [fields_word f_cdr f_nz f_det f_sh f_err d_nz d_det d_sh d_err]. lia. }
  unfold rxf_events, rxf_err_of, rxd_events. rewrite E.
  (* the casts evaluate the fields' offsets (field_off L k) to the numerals of rxf_events *)
  rewrite (testbit_fields_word L 0 _ HL eq_refl : N.testbit _ 0 = _), (bits_fields_word L 1 HL : bits _ 1 8 = _),
          (testbit_fields_word L 2 _ HL eq_refl : N.testbit _ 9 = _), (testbit_fields_word L 3 _ HL eq_refl : N.testbit _ 10 = _),
          (testbit_fields_word L 4 _ HL eq_refl : N.testbit _ 11 = _), (testbit_fields_word L 5 _ HL eq_refl : N.testbit _ 12 = _).
  split; [|reflexivity]. cbn [d_nz d_det d_sh]. fold st en. destruct st, en; reflexivity.
Qed.

(* the clock recovery when locked (GwPhy.v 3.5): the strobe for sk is visible, the synchronisers hold two samples of
   sk1; four cycles (one bit time) later it is locked again, one symbol on *)
Definition locked_cdr (sk sk1 : sym) : cdr :=
  {| k_p0 := sym_dp sk1; k_p1 := sym_dp sk1; k_n0 := sym_dn sk1; k_n1 := sym_dn sk1;
     k_fsm := cdr_of_sym sk; k_phase := 2; k_valid := true;
     k_se0 := cdrst_eqb (cdr_of_sym sk) Cd0; k_se1 := cdrst_eqb (cdr_of_sym sk) Cd1;
     k_dj := sym_dj sk; k_dk := sym_dk sk |}.

Lemma cdr_macro : forall sk sk1 sk2,
  let k1 := cdr_next (locked_cdr sk sk1) (sym_dp sk1) (sym_dn sk1) in
  let k2 := cdr_next k1 (sym_dp sk1) (sym_dn sk1) in
  let k3 := cdr_next k2 (sym_dp sk2) (sym_dn sk2) in
  let k4 := cdr_next k3 (sym_dp sk2) (sym_dn sk2) in
  k_valid k1 = false /\ k_valid k2 = false /\ k_valid k3 = false /\ k4 = locked_cdr sk1 sk2.
Proof. intros sk sk1 sk2. destruct sk, sk1, sk2; repeat split; reflexivity. Qed.

Lemma det_idle : forall q d z,
  det_start q false d z = false /\ det_end q false z = false /\ det_active q false z = N.eqb q 6 /\ det_next q false d z = q.
Proof.
  intros. unfold det_start, det_end, det_active, det_next. cbn [andb negb].
  rewrite !andb_false_r. cbn [andb negb]. rewrite andb_true_r. auto.
Qed.

Lemma rxbs_next_idle : forall s d,
  rxbs_next s false d = {| b_cnt := b_cnt s; b_data := d; b_stall := true; b_error := false |}.
Proof. intros. unfold rxbs_next. rewrite !andb_false_r. reflexivity. Qed.

Lemma rxsh_next_idle : forall W s reset d,
  rxsh_next W s reset false d = {| r_reg := if reset then 1 else r_reg s; r_put := false |}.
Proof. intros. unfold rxsh_next. rewrite andb_false_r. reflexivity. Qed.

(* everything behind the decoder at rest, in the condition described by the symbol-level state b (bd: stale register
   contents); put: the shifter completed a byte in the previous cycle *)
Definition mkR (z : rxnz) (b : rxb) (bd put : bool) : rxd :=
  Build_rxd z (a_det b) {| b_cnt := a_cnt b; b_data := bd; b_stall := true; b_error := false |}
      {| r_reg := a_reg b; r_put := put |} (N.eqb (a_det b) 6) (a_err b).

(* the decoder at rest as well (zd zs: stale register contents) *)
Definition mkQ (b : rxb) (zd zs bd put : bool) : rxd :=
  mkR {| z_last := a_last b; z_data := zd; z_se0 := zs; z_valid := false |} b bd put.

(* the three states between: the decoded bit of symbol y moves through decoder, detector and remover, shifter *)
Definition rxd_bit (b : rxb) (y : sym) (v : bool) : rxnz :=
  {| z_last := sym_dk y; z_data := rxb_data b y; z_se0 := sym_se0 y; z_valid := v |}.
Definition cyc1 (b : rxb) (y : sym) (zd : bool) : rxd := mkR (rxd_bit b y true) b zd false.
Definition cyc2 (b : rxb) (y : sym) : rxd :=
  let data := rxb_data b y in
  let drop := N.eqb (a_cnt b) 6 in
  Build_rxd (rxd_bit b y false) (det_next (a_det b) true data (sym_se0 y))
      {| b_cnt := if drop then 0 else if data then a_cnt b + 1 else 0; b_data := data; b_stall := drop; b_error := drop && data |}
      {| r_reg := if det_end (a_det b) true (sym_se0 y) then 1 else a_reg b; r_put := false |}
      (det_active (a_det b) true (sym_se0 y)) (if det_start (a_det b) true data (sym_se0 y) then false else a_err b).
Definition cyc3 (b : rxb) (y : sym) : rxd :=
  let r1 := if det_end (a_det b) true (sym_se0 y) then 1 else a_reg b in
  mkQ (fst (rxb_step b y)) (rxb_data b y) (sym_se0 y) (rxb_data b y)
      (N.testbit r1 7 && negb (N.testbit r1 8) && (negb (N.eqb (a_cnt b) 6) && det_active (a_det b) true (sym_se0 y))).

Lemma rxd_rest_cycle : forall b zd zs bd put v dj dk,
  rxd_next (mkQ b zd zs bd put) v dj dk =
  mkR (rxnz_next {| z_last := a_last b; z_data := zd; z_se0 := zs; z_valid := false |} v dj dk) b zd false.
Proof.
  intros. unfold rxd_next, mkQ, mkR.
  cbn [d_nz d_det d_bs d_sh d_past d_err z_last z_data z_se0 z_valid b_cnt b_data b_stall b_error r_reg r_put].
  destruct (det_idle (a_det b) zd zs) as (-> & -> & -> & ->). rewrite rxbs_next_idle.
  cbn [negb andb]. rewrite rxsh_next_idle. reflexivity.
Qed.

Lemma rxd_rest_events : forall b zd zs bd put,
  rxd_events (mkQ b zd zs bd put) = if put then [EvByte (rev8 (a_reg b mod 256))] else [].
Proof.
  intros. unfold rxd_events, mkQ, mkR. cbn [d_nz d_det d_sh z_data z_se0 z_valid r_reg r_put].
  destruct (det_idle (a_det b) zd zs) as (-> & -> & _). apply app_nil_r.
Qed.

Lemma rxd_strobe_cycle : forall b zd zs bd put y,
  rxd_next (mkQ b zd zs bd put) true (sym_dj y) (sym_dk y) = cyc1 b y zd.
Proof. intros. apply rxd_rest_cycle. Qed.

Lemma rxd_detect_cycle : forall b y zd,
  (forall j k, rxd_next (cyc1 b y zd) false j k = cyc2 b y) /\
  rxd_events (cyc1 b y zd) =
    (if det_start (a_det b) true (rxb_data b y) (sym_se0 y) then [EvStart] else []) ++
    (if det_end (a_det b) true (sym_se0 y) then [EvEnd] else []).
Proof.
  intros. unfold rxd_next, rxd_events, cyc1, cyc2, mkR, rxd_bit.
  cbn [d_nz d_det d_bs d_sh d_past d_err z_last z_data z_se0 z_valid b_cnt b_data b_stall b_error r_reg r_put].
  cbn [negb andb]. rewrite rxsh_next_idle. unfold rxbs_next.
  cbn [b_cnt rxnz_next z_last z_data z_se0]. rewrite !andb_true_r, orb_false_r. split; reflexivity.
Qed.

Lemma det_active_excl : forall q d z, det_active q true z = true -> det_start q true d z = false /\ det_end q true z = false.
Proof.
  intros q d z. unfold det_active, det_start, det_end. destruct (N.eqb_spec q 6) as [->|_]; [|discriminate].
  destruct z; [discriminate | split; reflexivity].
Qed.

(* the step in the order in which the pipeline performs it: the detector (start, end, shifter reset) first, then the
   remover and the shift, which cannot coincide with a start or an end *)
Lemma rxb_step_pipelined : forall b y,
  let data := rxb_data b y in
  let st := det_start (a_det b) true data (sym_se0 y) in
  let en := det_end (a_det b) true (sym_se0 y) in
  let act := det_active (a_det b) true (sym_se0 y) in
  let drop := N.eqb (a_cnt b) 6 in
  let r1 := if en then 1 else a_reg b in
  let r2 := if negb drop && act then (if N.testbit r1 8 then b2n data + 2 else b2n data + 2 * (r1 mod 256)) else r1 in
  rxb_step b y =
  ({| a_last := sym_dk y; a_det := det_next (a_det b) true data (sym_se0 y);
      a_cnt := if drop then 0 else if data then a_cnt b + 1 else 0;
      a_reg := r2; a_err := if drop && data && act then true else if st then false else a_err b |},
   ((if st then [EvStart] else []) ++ (if en then [EvEnd] else [])) ++
   (if N.testbit r1 7 && negb (N.testbit r1 8) && (negb drop && act) then [EvByte (rev8 (r2 mod 256))] else [])).
Proof.
  intros b y. cbv zeta. unfold rxb_step. fold (rxb_data b y) (sym_se0 y).
  pose proof (det_active_excl (a_det b) (rxb_data b y) (sym_se0 y)) as X.
  destruct (det_active (a_det b) true (sym_se0 y)).
  - destruct (X eq_refl) as [-> ->]. cbn [app]. rewrite app_nil_r. reflexivity.
  - rewrite !andb_false_r. cbn [app]. rewrite app_nil_r. reflexivity.
Qed.

Lemma rxd_shift_cycle : forall b y,
  (forall j k, rxd_next (cyc2 b y) false j k = cyc3 b y) /\ rxd_events (cyc2 b y) = [].
Proof.
  intros. unfold cyc3. rewrite (rxb_step_pipelined b y). unfold rxd_next, rxd_events, cyc2, mkQ, mkR, rxd_bit. cbv zeta.
  cbn [d_nz d_det d_bs d_sh d_past d_err z_last z_data z_se0 z_valid b_cnt b_data b_stall b_error r_reg r_put
       fst a_last a_det a_cnt a_reg a_err].
  destruct (det_idle (det_next (a_det b) true (rxb_data b y) (sym_se0 y)) (rxb_data b y) (sym_se0 y)) as (-> & -> & -> & ->).
  rewrite rxbs_next_idle. split; reflexivity.
Qed.

Lemma rxd_write_cycle : forall b y j k,
  rxd_next (cyc3 b y) false j k = mkQ (fst (rxb_step b y)) (rxb_data b y) (sym_se0 y) (rxb_data b y) false.
Proof. intros. apply rxd_rest_cycle. Qed.

(* The two clauses about d_err are what the two error conclusions of rxf_sim are made of: the flag is down throughout a
   step that starts and ends with it down; and EvEnd is written in cyc1, where d_err is still the flag before the step,
   which is the one end_err speaks of. *)
Lemma rxd_macro : forall b zd zs bd y,
  let b' := fst (rxb_step b y) in
  let ds := [mkQ b zd zs bd false; cyc1 b y zd; cyc2 b y; cyc3 b y] in
  flat_map rxd_events ds = snd (rxb_step b y) /\
  Forall (fun d => (a_err b = false -> a_err b' = false -> d_err d = false) /\
                   (In EvEnd (rxd_events d) -> d_err d = a_err b)) ds.
Proof.
  intros. subst ds.
  pose proof (rxd_rest_events b zd zs bd false) as V0.
  pose proof (proj2 (rxd_detect_cycle b y zd)) as V1.
  pose proof (proj2 (rxd_shift_cycle b y)) as V2.
  pose proof (rxd_rest_events (fst (rxb_step b y))) as V3.
  split.
  - cbn [flat_map]. unfold cyc3. rewrite V0, V1, V2, V3.
    subst b'. rewrite (rxb_step_pipelined b y). cbn [fst snd a_reg app]. rewrite !app_nil_r. reflexivity.
  - repeat apply Forall_cons; [| | | | apply Forall_nil].
    + split; [intros Hb _; exact Hb | rewrite V0; intros []].
    + (* cyc1 *) split; [intros Hb _; exact Hb | reflexivity].
    + (* cyc2 *) split; [intros Hb _ | rewrite V2; intros []].
      cbn [cyc2 d_err]. rewrite Hb. destruct (det_start _ _ _ _); reflexivity.
    + (* cyc3 *) split; [intros _ Hb'; exact Hb' | unfold cyc3; rewrite V3; intro H; destruct (byte_not_end _ _ H)].
Qed.

Definition locked (sk sk1 : sym) (b : rxb) (zd zs bd : bool) : rxf := mkF (locked_cdr sk sk1) (mkQ b zd zs bd false).

Lemma rxf_macro : forall sk sk1 sk2 b zd zs bd,
  let inp := map line_word [sk1; sk1; sk2; sk2] in
  let s := locked sk sk1 b zd zs bd in
  let b' := fst (rxb_step b sk) in
  run_state rxf_step s inp = locked sk1 sk2 b' (rxb_data b sk) (sym_se0 sk) (rxb_data b sk) /\
  flat_map rxf_events (run rxf_step s inp) = snd (rxb_step b sk) /\
  Forall (fun o => (a_err b = false -> a_err b' = false -> rxf_err_of o = false) /\
                   (In EvEnd (rxf_events o) -> rxf_err_of o = a_err b)) (run rxf_step s inp).
Proof.
  intros sk sk1 sk2 b zd zs bd. cbv zeta. unfold locked.
  cbn [map run run_state]. repeat (rewrite rxf_step_split; cbn [fst snd]).
  destruct (cdr_macro sk sk1 sk2) as (V1 & V2 & V3 & K4). cbv zeta in V1, V2, V3, K4.
  rewrite V1, V2, V3, K4. cbn [locked_cdr k_valid k_dj k_dk].
  rewrite rxd_strobe_cycle, (proj1 (rxd_detect_cycle b sk zd)), (proj1 (rxd_shift_cycle b sk)), rxd_write_cycle.
  destruct (rxd_macro b zd zs bd sk) as (ME & MF). cbv zeta in ME, MF.
  split; [reflexivity | split].
  - cbn [flat_map] in *. rewrite !(proj1 (rxf_out_obs _ _)). exact ME.
  - rewrite Forall_forall in MF |- *. intros o Ho. cbn [In] in Ho.
    destruct Ho as [<-|[<-|[<-|[<-|[]]]]]; rewrite (proj1 (rxf_out_obs _ _)), (proj2 (rxf_out_obs _ _)); apply MF; cbn [In]; auto.
Qed.

(* samples consumed between the strobe of sk and the strobe of the last-but-one symbol: two more samples of the next
   symbol, then two of the one after, ...; and the symbols whose strobes are processed meanwhile *)
Fixpoint blocks (sk1 : sym) (rest : list sym) : list sym :=
  match rest with [] => [] | s2 :: rest' => [sk1; sk1; s2; s2] ++ blocks s2 rest' end.
Fixpoint toks (sk sk1 : sym) (rest : list sym) : list sym :=
  match rest with [] => [] | s2 :: rest' => sk :: toks sk1 s2 rest' end.

Lemma rxf_sim : forall rest sk sk1 b zd zs bd,
  let outs := run rxf_step (locked sk sk1 b zd zs bd) (map line_word (blocks sk1 rest)) in
  let tk := toks sk sk1 rest in
  flat_map rxf_events outs = snd (rxb_run b tk) /\
  (a_err b = false -> Forall (fun e => e = false) (rxb_errs b tk) -> Forall (fun o => rxf_err_of o = false) outs) /\
  (end_err b tk -> Forall (fun o => In EvEnd (rxf_events o) -> rxf_err_of o = true) outs).
Proof.
  induction rest as [|s2 rest IH]; intros sk sk1 b zd zs bd; cbv zeta.
  - split; [reflexivity | split; constructor].
  - cbn [blocks toks end_err rxb_errs]. rewrite map_app, (run_app rxf_step), rxb_run_cons.
    destruct (rxf_macro sk sk1 s2 b zd zs bd) as (M1 & M2 & M3). cbv zeta in M1, M2, M3.
    rewrite M1. destruct (IH sk1 s2 (fst (rxb_step b sk)) (rxb_data b sk) (sym_se0 sk) (rxb_data b sk)) as (I2 & I3 & I4).
    cbv zeta in I2, I3, I4.
    split; [|split].
    + rewrite flat_map_app, M2, I2. reflexivity.
    + intros He Hf. apply Forall_cons_iff in Hf as [Hf1 Hf2]. apply Forall_app. split; [|exact (I3 Hf1 Hf2)].
      eapply Forall_impl; [|exact M3]. intros o [H _]. exact (H He Hf1).
    + intros [HE1 HE2]. apply Forall_app. split; [|exact (I4 HE2)].
      rewrite Forall_forall in M3 |- *. intros o Ho Hend. rewrite (proj2 (M3 o Ho) Hend). apply HE1.
      rewrite <- M2. apply in_flat_map. exists o. split; assumption.
Qed.

Lemma toks_app2 : forall A sk sk1 x y, toks sk sk1 (A ++ [x; y]) = sk :: sk1 :: A.
Proof.
  induction A as [|a A IH]; intros; [reflexivity|]. cbn [app toks]. rewrite IH. reflexivity.
Qed.

Lemma line_blocks : forall A sk sk1 x y,
  rep4 (sk :: sk1 :: A ++ [x]) ++ [y; y] = [sk; sk; sk; sk; sk1; sk1] ++ blocks sk1 (A ++ [x; y]).
Proof.
  induction A as [|a A IH]; intros sk sk1 x y; [reflexivity|].
  change (rep4 (sk :: sk1 :: (a :: A) ++ [x]) ++ [y; y]) with ([sk; sk; sk; sk] ++ rep4 (sk1 :: a :: A ++ [x]) ++ [y; y]).
  rewrite IH. reflexivity.
Qed.

Definition idle_state (pre : nat) : rxf := run_state rxf_step rxf_init (repeat (line_word SJ) pre).
Definition acq_inp : list N := map line_word [SK; SK; SK; SK; SJ; SJ].

Definition cdr_eqb (a b : cdr) : bool :=
  Bool.eqb (k_p0 a) (k_p0 b) && Bool.eqb (k_p1 a) (k_p1 b) && Bool.eqb (k_n0 a) (k_n0 b) && Bool.eqb (k_n1 a) (k_n1 b) &&
  cdrst_eqb (k_fsm a) (k_fsm b) && N.eqb (k_phase a) (k_phase b) && Bool.eqb (k_valid a) (k_valid b) &&
  Bool.eqb (k_se0 a) (k_se0 b) && Bool.eqb (k_se1 a) (k_se1 b) && Bool.eqb (k_dj a) (k_dj b) && Bool.eqb (k_dk a) (k_dk b).

Definition quiet_ob (o : N) : bool := match rxf_events o with [] => true | _ => false end && negb (rxf_err_of o).

Definition acq_ok (s : rxf) : bool :=
  forallb quiet_ob (run rxf_step s acq_inp) &&
  existsb (fun c => rxf_simb (run_state rxf_step s acq_inp) SK SJ (rxb_idle_c c)) [0; 1; 2; 3; 4; 5; 6].

(* On an idle line the recovery's phase has period 4 and the remover's count of the idle ones period 7 (the candidates c
   of acq_ok), so the state has period 28 once the reset transient of 12 samples is over (idle_state (p + 28) differs
   from idle_state p for p < 12): 40 = 12 + 28.  Hence pre = 7 .. 39 stand for all longer ones (idle_reduce); acq_ok
   fails on idle_state 0 .. 6.  By evaluation. *)
Lemma idle_period : idle_state 40 = idle_state 12.
Proof. vm_compute. reflexivity. Qed.
Lemma idle_quiet_40 : forallb quiet_ob (run rxf_step rxf_init (repeat (line_word SJ) 40)) = true.
Proof. vm_compute. reflexivity. Qed.
Lemma acq_all : forallb (fun pre => acq_ok (idle_state pre)) (seq 7 33) = true.
Proof. vm_compute. reflexivity. Qed.

Lemma idle_state_add : forall a b, idle_state (a + b) = run_state rxf_step (idle_state a) (repeat (line_word SJ) b).
Proof. intros. unfold idle_state. rewrite repeat_app, run_state_app. reflexivity. Qed.

Lemma idle_run_add : forall a b,
  forallb quiet_ob (run rxf_step rxf_init (repeat (line_word SJ) (a + b))) =
  forallb quiet_ob (run rxf_step rxf_init (repeat (line_word SJ) a)) &&
  forallb quiet_ob (run rxf_step (idle_state a) (repeat (line_word SJ) b)).
Proof. intros. rewrite repeat_app, (run_app rxf_step), forallb_app. reflexivity. Qed.

Lemma idle_reduce : forall pre, (40 <= pre)%nat -> idle_state pre = idle_state (pre - 28).
Proof.
  intros pre H. replace pre with (40 + (pre - 40))%nat at 1 by lia. replace (pre - 28)%nat with (12 + (pre - 40))%nat by lia.
  rewrite !idle_state_add, idle_period. reflexivity.
Qed.

Lemma idle_always_quiet : forall pre, forallb quiet_ob (run rxf_step rxf_init (repeat (line_word SJ) pre)) = true.
Proof.
  intro pre. induction pre as [pre IH] using lt_wf_ind.
  destruct (Nat.lt_ge_cases pre 40) as [Hlt | Hge].
  - pose proof idle_quiet_40 as H40. replace 40%nat with (pre + (40 - pre))%nat in H40 by lia.
    rewrite idle_run_add in H40. apply andb_true_iff in H40. apply H40.
  - replace pre with (40 + (pre - 40))%nat by lia. rewrite idle_run_add, idle_quiet_40, idle_period.
    specialize (IH (12 + (pre - 40))%nat ltac:(lia)). rewrite idle_run_add in IH. apply andb_true_iff in IH. apply IH.
Qed.

Lemma acq_always : forall pre, (7 <= pre)%nat -> acq_ok (idle_state pre) = true.
Proof.
  intro pre. induction pre as [pre IH] using lt_wf_ind. intro H7.
  destruct (Nat.lt_ge_cases pre 40) as [Hlt | Hge].
  - pose proof acq_all as HA. rewrite forallb_forall in HA. apply HA. apply in_seq. lia.
  - rewrite (idle_reduce pre Hge). apply IH; lia.
Qed.

Lemma cdrst_eqb_eq : forall a b, cdrst_eqb a b = true -> a = b.
Proof. intros [] []; cbn; congruence. Qed.

Lemma simb_locked : forall s sk sk1 b, rxf_simb s sk sk1 b = true -> exists zd zs bd, s = locked sk sk1 b zd zs bd.
Proof.
  intros [[p0 p1 n0 n1 fsm ph v s0 s1 dj dk] [zl zdta zse zv] det [cnt bdta bst berr] [reg put] past err] sk sk1 b H.
  unfold rxf_simb in H.
  cbn [f_cdr f_nz f_det f_bs f_sh f_past f_err k_p0 k_p1 k_n0 k_n1 k_fsm k_phase k_valid k_se0 k_se1 k_dj k_dk
       z_last z_data z_se0 z_valid b_cnt b_data b_stall b_error r_reg r_put] in H.
  (* every conjunct of rxf_simb decides one equation between a register and its value in the locked state *)
  repeat match type of H with (_ && _ = true) => apply andb_true_iff in H; let H' := fresh "C" in destruct H as [H H'] end.
  repeat match goal with
         | X : Bool.eqb _ _ = true |- _ => apply eqb_prop in X
         | X : cdrst_eqb _ _ = true |- _ => apply cdrst_eqb_eq in X
         | X : N.eqb _ _ = true |- _ => apply N.eqb_eq in X
         | X : negb _ = true |- _ => apply negb_true_iff in X
         end.
  subst. exists zdta, zse, bdta. reflexivity.
Qed.

Lemma quiet_events : forall l, forallb quiet_ob l = true ->
  flat_map rxf_events l = [] /\ Forall (fun o => rxf_err_of o = false) l.
Proof.
  induction l as [|o l IH]; intro H; [split; [reflexivity | constructor]|].
  cbn [forallb flat_map] in *. apply andb_true_iff in H as [Ho Hl]. apply andb_true_iff in Ho as [E1 E2].
  destruct (IH Hl) as [I1 I2]. destruct (rxf_events o); [|discriminate E1].
  split; [exact I1 | constructor; [apply negb_true_iff, E2 | exact I2]].
Qed.

Lemma rx_acquire : forall pre, (7 <= pre)%nat ->
  let inp := repeat (line_word SJ) pre ++ acq_inp in
  let outs := run rxf_step rxf_init inp in
  flat_map rxf_events outs = [] /\ Forall (fun o => rxf_err_of o = false) outs /\
  exists c zd zs bd, run_state rxf_step rxf_init inp = locked SK SJ (rxb_idle_c c) zd zs bd.
Proof.
  intros pre H7 inp outs. subst outs inp. rewrite (run_app rxf_step), run_state_app. fold (idle_state pre).
  pose proof (acq_always pre H7) as HA. unfold acq_ok in HA. apply andb_true_iff in HA as [HA1 HA2].
  rewrite <- and_assoc. split.
  - apply quiet_events. rewrite forallb_app, idle_always_quiet, HA1. reflexivity.
  - apply existsb_exists in HA2. destruct HA2 as (c & _ & Hs).
    destruct (simb_locked _ _ _ _ Hs) as (zd & zs & bd & E). exists c, zd, zs, bd. exact E.
Qed.

(* The line runs one symbol and two samples past tk, the symbols whose steps are taken: the strobe of a symbol is
   visible six samples after the symbol's first (locked), and its step consumes four more (rxf_macro); see line_blocks. *)
Lemma rx_line_run : forall pre pkt fr m, (7 <= pre)%nat -> pkt = SK :: SJ :: fr ->
  let line := repeat SJ pre ++ rep4 (pkt ++ repeat SJ (S m)) ++ [SJ; SJ] in
  let outs := run rxf_step rxf_init (map line_word line) in
  let tk := pkt ++ repeat SJ m in
  exists c,
  flat_map rxf_events outs = snd (rxb_run (rxb_idle_c c) tk) /\
  (Forall (fun e => e = false) (rxb_errs (rxb_idle_c c) tk) -> Forall (fun o => rxf_err_of o = false) outs) /\
  (end_err (rxb_idle_c c) tk -> Forall (fun o => In EvEnd (rxf_events o) -> rxf_err_of o = true) outs).
Proof.
  intros pre pkt fr m H7 -> line outs tk. subst outs line tk.
  replace ((SK :: SJ :: fr) ++ repeat SJ (S m)) with (SK :: SJ :: (fr ++ repeat SJ m) ++ [SJ])
    by (cbn [repeat app]; rewrite repeat_cons, app_assoc; reflexivity).
  rewrite line_blocks, map_app, map_repeat, map_app.
  change (map line_word [SK; SK; SK; SK; SJ; SJ]) with acq_inp. rewrite app_assoc, (run_app rxf_step).
  destruct (rx_acquire pre H7) as (Q1 & Q2 & c & zd & zs & bd & E). cbv zeta in Q1, Q2, E. rewrite E.
  destruct (rxf_sim ((fr ++ repeat SJ m) ++ [SJ; SJ]) SK SJ (rxb_idle_c c) zd zs bd) as (S2 & S3 & S4). cbv zeta in S2, S3, S4.
  rewrite toks_app2 in S2, S3, S4.
  exists c. split; [|split].
  - rewrite flat_map_app, Q1, S2. reflexivity.
  - intro Hf. apply Forall_app. split; [exact Q2 | exact (S3 eq_refl Hf)].
  - intro He. apply Forall_app. split; [|exact (S4 He)].
    apply Forall_forall. intros o Ho Hin.
    pose proof (proj2 (in_flat_map rxf_events _ EvEnd) (ex_intro _ o (conj Ho Hin))) as X. rewrite Q1 in X. destruct X.
Qed.

(* the front end, at ANY sampling phase after seven idle samples, computes the specification's decoder (nothing is claimed
   when the payload unstuffs to a number of bits that is not a multiple of 8: RxMalformed) *)
Theorem rx_unframe_cycles : forall pre l m, (7 <= pre)%nat ->
  let pkt := nrzi SJ (sync_bits ++ l) ++ eop in
  let line := repeat SJ pre ++ rep4 (pkt ++ repeat SJ (S m)) ++ [SJ; SJ] in
  let outs := run rxf_step rxf_init (map line_word line) in
  match unframe pkt with
  | RxBytes bs => flat_map rxf_events outs = EvStart :: map EvByte bs ++ [EvEnd] /\
                  Forall (fun o => rxf_err_of o = false) outs
  | RxStuffError => (exists o, In o outs /\ In EvEnd (rxf_events o)) /\
                    Forall (fun o => In EvEnd (rxf_events o) -> rxf_err_of o = true) outs
  | RxMalformed => True
  end.
Proof.
  intros pre l m H7. cbv zeta.
  (* eq_refl: nrzi SJ sync_bits starts SK, SJ by computation *)
  destruct (rx_line_run pre (nrzi SJ (sync_bits ++ l) ++ eop) _ m H7 eq_refl) as (c & R1 & R2 & R3). cbv zeta in R1, R2, R3.
  pose proof (rxb_unframe c l m) as P. cbv zeta in P.
  destruct (unframe (nrzi SJ (sync_bits ++ l) ++ eop)); [destruct P as (P1 & P2 & _) | destruct P as [P1 P2] | exact I].
  - split; [rewrite R1; exact P1 | exact (R2 P2)].
  - split; [rewrite <- R1 in P1; apply in_flat_map in P1; exact P1 | exact (R3 P2)].
Qed.

(* C25: a correctly encoded packet: start flag, bytes, end flag; no error *)
Theorem rx_frame_cycles : forall pre bs m, (7 <= pre)%nat -> Forall (fun b => b < 256) bs ->
  let line := repeat SJ pre ++ rep4 (frame bs ++ repeat SJ (S m)) ++ [SJ; SJ] in
  let outs := run rxf_step rxf_init (map line_word line) in
  flat_map rxf_events outs = EvStart :: map EvByte bs ++ [EvEnd] /\
  Forall (fun o => rxf_err_of o = false) outs.
Proof.
  intros pre bs m H7 Hbs. pose proof (rx_unframe_cycles pre (stuff 1 (bits_of_bytes bs)) m H7) as P. cbv zeta in P.
  fold (frame_bits bs) (frame bs) in P. rewrite (unframe_frame bs Hbs) in P. exact P.
Qed.

(* C25: seven consecutive ones in the payload (SYNC's last one counted): every end flag is written with the error flag up. *)
Theorem rx_violation_cycles : forall pre l m, (7 <= pre)%nat -> (7 <= max_ones 1 l)%nat ->
  let line := repeat SJ pre ++ rep4 ((nrzi SJ (sync_bits ++ l) ++ eop) ++ repeat SJ (S m)) ++ [SJ; SJ] in
  let outs := run rxf_step rxf_init (map line_word line) in
  (exists o, In o outs /\ In EvEnd (rxf_events o)) /\
  Forall (fun o => In EvEnd (rxf_events o) -> rxf_err_of o = true) outs.
Proof.
  intros pre l m H7 Hm. pose proof (rx_unframe_cycles pre l m H7) as P. cbv zeta in P.
  rewrite (unframe_violation l Hm) in P. exact P.
Qed.
