(* C10 -- proofs: unsupported / unclaimed requests are STALLed and never answered (Model/CtlStall.v). *)
From Coq Require Import NArith List Bool Lia.
Import ListNotations.
From LunaLib Require Import PackN.
From LunaModel Require Import CtlXfer CtlXfer_proofs CtlStall.
Open Scope N_scope.

Section Proofs.
  Variables EP mps spw : N.
  Variable skip : N -> bool.
  Variable gate : bool.
  Hypothesis skip_ext : forall f i, same_fieldsb f i = true -> skip i = skip f.
  Notation step := (cx_step EP mps spw skip gate).

  Lemma dispatch_unsupported : forall i, supported_std i = false -> dispatch i = HUnhandled.
  Proof.
    intros i H. unfold supported_std in H. unfold dispatch, cf_unsupp.
    destruct (i_req i =? 0); [discriminate H|]. destruct (i_req i =? 5); [discriminate H|].
    destruct (i_req i =? 6); [discriminate H|]. destruct (i_req i =? 8); [discriminate H|].
    destruct (i_req i =? 9); [discriminate H|]. cbn [orb] in H.
    destruct (i_req i =? 1); [|reflexivity]. cbn [andb] in H.
    destruct (i_rcpt i =? 2), (i_value i =? 0); try discriminate H; reflexivity.
  Qed.

  Lemma ctl_ping_opp : forall c i, impb (ctl_ping EP c i) ((i_ep i =? EP) && i_rfr i && i_ping i) = true.
  Proof. intros [] i; cbn; unfold i_tgt; try reflexivity; destruct (_ && _ && _); reflexivity. Qed.

  (* the handler while the unsupported request f is watched (a = it has been answered): idle if f is skiplisted
     or answered, else in the state that STALLs *)
  Definition stalling (f : N) (a : bool) (x : cx_state) : Prop :=
    i_std f = true -> x_h x = if skip f || a then HIdle else HUnhandled.

  Lemma stalling_same : forall f i a x, same_fieldsb f i = true ->
    unclaimed skip f = unclaimed skip i /\ (stalling f a x <-> stalling i a x).
  Proof.
    intros f i a x H. destruct (same_fields_eqs f i H) as (_ & E & _).
    unfold stalling, unclaimed, i_std. rewrite E, (skip_ext f i H). split; reflexivity.
  Qed.

  Lemma stall_cycle : forall x i a, stalling i a x ->
    stall_cycle_ok EP (unclaimed skip i) a i (snd (step x i)) = true.
  Proof.
    intros x i a Hx. cbn [step cx_step snd]. unfold stall_cycle_ok, unclaimed, claimed.
    cbn [o_dr o_sr o_txv o_ds o_ss o_nak o_ac o_cc o_halt o_ack o_stall].
    pose proof (ctl_ping_opp (x_ctl x) i) as Hpg.
    destruct (i_std i) eqn:Es; [rewrite (Hx Es); destruct (skip i), a|]; cbn;
      destruct (i_sack i); cbn; rewrite ?Hpg; destruct (ctl_dr EP (x_ctl x) i || ctl_sr EP (x_ctl x) i); reflexivity.
  Qed.

  Lemma stalling_hold : forall x i a, i_rcv i = false -> stalling i a x ->
    stalling i (a || o_dr (snd (step x i)) || o_sr (snd (step x i))) (fst (step x i)).
  Proof.
    intros x i a Hr Hx Hs. cbn [step cx_step fst snd x_h o_dr o_sr]. rewrite Hs, (Hx Hs). unfold h_next. rewrite Hr.
    destruct (skip i), a; reflexivity.
  Qed.

  Lemma stalling_setup : forall x i, i_rcv i = true -> unsupported skip i = true -> stalling i false (fst (step x i)).
  Proof.
    intros x i Hr Hu Hs. cbn [step cx_step fst x_h]. rewrite Hs. unfold h_next. rewrite Hr.
    unfold unsupported, unclaimed in Hu. rewrite Hs in Hu. destruct (skip i); [reflexivity|].
    apply negb_true_iff in Hu. apply dispatch_unsupported, Hu.
  Qed.

  Definition inv10 (s : st10) (x : cx_state) : Prop :=
    match t_cur s with Some f => stalling f (t_ans s) x | None => True end.

  Lemma c10_step : forall s x i, inv10 s x ->
    c10_ok EP skip s i (snd (step x i)) = true /\ inv10 (c10_next skip s i (snd (step x i))) (fst (step x i)).
  Proof.
    intros s x i Hi. unfold c10_ok, c10_next, watching, inv10 in *. destruct (i_rcv i) eqn:Er.
    - (* a SETUP packet is reported: nothing is checked; the handler re-dispatches *)
      split; [destruct (t_cur s); reflexivity|]. cbn [t_cur t_ans].
      destruct (unsupported skip i) eqn:Eu; [apply stalling_setup; assumption | exact I].
    - destruct (t_cur s) as [f|]; [|split; [reflexivity | exact I]]. cbn [negb andb].
      destruct (same_fieldsb f i) eqn:Esf; [|split; [reflexivity | exact I]]. cbn [t_cur t_ans].
      destruct (stalling_same f i (t_ans s) x Esf) as [-> Hx]. apply Hx in Hi.
      split; [apply stall_cycle, Hi | apply (stalling_same f i _ _ Esf), stalling_hold; assumption].
  Qed.

  Lemma stalled_run : forall tr s x, inv10 s x -> stalled_along EP skip s tr (xrun step x tr) = true.
  Proof.
    induction tr as [|i t IH]; intros s x Hi; cbn [xrun stalled_along]; [reflexivity|].
    destruct (c10_step s x i Hi) as [A B]. destruct (step x i) as [x' o]. cbn [fst snd] in *.
    rewrite A. cbn [andb]. apply IH. exact B.
  Qed.

  (* C10: from ANY state of the control endpoint and for EVERY input history *)
  Theorem unsupported_requests_stalled : forall tr x,
    stalled_along EP skip st10_0 tr (xrun step x tr) = true.
  Proof. intros tr x. apply stalled_run. exact I. Qed.
End Proofs.

Lemma st10_dec_enc : forall s, st10_dec (st10_enc s) = s.
Proof.
  intros [cur ans]. unfold st10_dec, st10_enc. cbn [t_cur t_ans].
  rewrite pk_div, pk_mod by apply b2n_lt2. rewrite nb_b2n, (opt_code cur). reflexivity.
Qed.

Lemma sw_in : forall EP r rc ld v, r < 256 -> In rc sw_recipients -> In ld sw_stages -> In v sw_values ->
  In (sw_trace EP r rc (fst ld) (snd ld) v) (sw_all EP).
Proof.
  intros EP r rc ld v Hr Hrc Hld Hv. unfold sw_all.
  apply in_flat_map. exists r. split.
  - apply in_map_iff. exists (N.to_nat r). split; [apply N2Nat.id|]. apply in_seq. lia.
  - apply in_flat_map. exists rc. split; [exact Hrc|].
    apply in_flat_map. exists ld. split; [exact Hld|].
    apply in_map_iff. exists v. split; [reflexivity | exact Hv].
Qed.
