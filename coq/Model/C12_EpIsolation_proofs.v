(* C12 -- proofs about Model/C12_EpIsolation.v.  A relation between the states of the mixed and of the projected run
   that every legal cycle keeps, with equal outputs, gives equal output histories (noninterference_from).  For the
   status IN endpoint that relation is c_rel; c_rel_step shows it kept, by cases on whose cycle it is.  The same step,
   read on packed words, ties SignalIn's machine to the machine that runs alone on the projection (al_rel_step).
   sc_sound says what an accepted self-composition monitor means. *)
From Coq Require Import NArith List Bool.
Import ListNotations.
From LunaLib Require Import Machine BitFacts.
From LunaModel Require Import SignalIn SignalIn_proofs C12_EpIsolation.
Open Scope N_scope.

Section Generic.
  Context {S I O : Type}.
  Variable step : S -> I -> S * O.
  Variable mine : I -> bool.
  Variable quiet : I -> I.
  Variable legal : S -> I -> I -> bool.
  Variable rel : I -> S -> S -> Prop.      (* previous input, state of the mixed run, state of the projected run *)

  Hypothesis rel_step : forall prev s s' i, rel prev s s' -> legal s prev i = true ->
    snd (step s i) = snd (step s' (proj mine quiet i)) /\
    rel i (fst (step s i)) (fst (step s' (proj mine quiet i))).

  Theorem noninterference_from : forall tr prev s s', rel prev s s' -> legal_run step legal s prev tr = true ->
    grun step s tr = grun step s' (map (proj mine quiet) tr).
  Proof.
    induction tr as [|i t IH]; intros prev s s' HR HL; simpl; [reflexivity|].
    simpl in HL. apply andb_true_iff in HL as [H1 H2].
    destruct (rel_step prev s s' i HR H1) as [Ho Hr].
    destruct (step s i) as [s1 o1]. destruct (step s' (proj mine quiet i)) as [s2 o2]. simpl in *.
    subst o2. f_equal. apply (IH i); assumption.
  Qed.
End Generic.

Section StatusEndpoint.
  Variable W : N.
  Variable big : bool.
  Variable ep : N.

  Lemma sv_step_view : forall s i, si_step W big ep s i = sv_step W big s (si_view W ep i).
  Proof. intros [[] bt lat tog] i; reflexivity. Qed.

  Lemma grun_view : forall tr s, run (si_step W big ep) s tr = grun (sv_step W big) s (map (si_view W ep) tr).
  Proof.
    induction tr as [|i t IH]; intros s; cbn [run map grun]; [reflexivity|].
    rewrite sv_step_view. unfold sv_step. f_equal. apply IH.
  Qed.

  Lemma st_eq : forall f bt lat tog s, s_fsm s = f -> s_bt s = bt -> s_lat s = lat -> s_tog s = tog ->
    s = {| s_fsm := f; s_bt := bt; s_lat := lat; s_tog := tog |}.
  Proof. intros f bt lat tog [f' bt' lat' tog']; simpl; intros; subst; reflexivity. Qed.

  Lemma c_rel_step : forall prev s s' c, c_rel prev s s' -> c_legal s prev c = true ->
    snd (c_step W big s c) = snd (c_step W big s' (proj c_mine c_quiet c)) /\
    c_rel c (fst (c_step W big s c)) (fst (c_step W big s' (proj c_mine c_quiet c))).
  Proof.
    intros prev s s' [m [sg rq rd tk ak]] HR HL. unfold c_legal in HL. cbn [c_mine fst snd v_req v_tok v_ack] in HL.
    rewrite !andb_true_iff, !negb_true_iff in HL. destruct HL as ((((L0 & L1) & L2) & L3) & L4).
    unfold proj, c_step, sv_step, c_quiet, quietv. cbn [c_mine fst snd v_sig v_rdy].
    destruct HR as [[-> Hinv]|(Hpm & Hf & Hf' & Hbt & Hlat & Htog)].
    - destruct m; cbn [orb negb] in L0.
      + (* own cycle: the same input *)
        split; [reflexivity|]. left. split; [reflexivity | discriminate].
      + (* foreign cycle: the endpoint can be in TRANSMIT or WAIT only if the foreign transaction starts here, with a
           token (L1) *)
        apply negb_true_iff in L0. subst rq.
        assert (Htk : s_fsm s' = S_TX \/ s_fsm s' = S_WAIT -> tk = true).
        { intro H. destruct (c_mine prev); [exact L1 | destruct (Hinv eq_refl); tauto]. }
        destruct s' as [[] bt lat tog]; cbn in *.
        * split; [reflexivity|]. left. split; [reflexivity|]. intros _. split; discriminate.
        * (* excluded by L3 *)
          rewrite Htk in L3 by auto. discriminate L3.
        * (* the token comes without ACK (L2): the mixed run goes to RETRANSMIT, the projected run waits on *)
          rewrite Htk in * by auto. cbn in L2. subst ak. rewrite xorb_false_r.
          split; [reflexivity|]. right. repeat split; reflexivity.
        * split; [reflexivity|]. left. split; [reflexivity|]. intros _. split; discriminate.
    - (* the mixed run is in RETRANSMIT, the projected run still in WAIT *)
      destruct s, s'. cbn in Hf, Hf', Hbt, Hlat, Htog. subst. destruct m; cbn [orb negb] in L0.
      + (* this endpoint's next token (L1), without ACK (L2) or request (L4), takes the projected run to RETRANSMIT too *)
        rewrite Hpm in L1. cbn in L1. subst tk. cbn in L2, L4. subst ak rq. cbn. rewrite xorb_false_r.
        split; [reflexivity|]. left. split; [reflexivity | discriminate].
      + (* a foreign cycle moves neither *)
        apply negb_true_iff in L0. subst rq. cbn. rewrite xorb_false_r.
        split; [reflexivity|]. right. repeat split; reflexivity.
  Qed.

  Theorem status_noninterference : forall tr prev s,
    (c_mine prev = false -> s_fsm s <> S_TX /\ s_fsm s <> S_WAIT) ->
    legal_run (c_step W big) c_legal s prev tr = true ->
    grun (c_step W big) s tr = grun (c_step W big) s (map (proj c_mine c_quiet) tr).
  Proof.
    intros tr prev s Hinv HL.
    apply (noninterference_from (c_step W big) c_mine c_quiet c_legal c_rel c_rel_step tr prev s s); [|exact HL].
    left. split; [reflexivity | exact Hinv].
  Qed.

  Corollary status_noninterference_reset : forall tr prev,
    legal_run (c_step W big) c_legal si_init prev tr = true ->
    grun (c_step W big) si_init tr = grun (c_step W big) si_init (map (proj c_mine c_quiet) tr).
  Proof. intros tr prev H. apply (status_noninterference tr prev); [|exact H]. intros _. split; discriminate. Qed.

  (* c_quiet marks the cycles the projection puts in place of foreign ones as own *)
  Lemma proj_is_alone : forall tr : list cyc, Forall (fun c => c_mine c = true) (map (proj c_mine c_quiet) tr).
  Proof.
    induction tr as [|[m v] t IH]; simpl; constructor; [|exact IH].
    unfold proj. destruct m; reflexivity.
  Qed.

  (* the legal-host predicate on packed words implies the one on cycles; al_env reads "transmitting" (L3) off the
     alone machine's state, c_legal off the mixed run's: c_rel makes them agree *)
  Lemma al_env_legal : forall s s' pe prev i, c_rel prev s s' -> c_mine prev = (pe =? ep) ->
    al_env W (s', pe) i = true -> c_legal s prev (cyc_of W ep i) = true.
  Proof.
    intros s s' pe prev i HR Hp H.
    assert (Htx : in_tx s = in_tx s').
    { destruct HR as [[-> _]|(_ & Hf & Hf' & _)]; [reflexivity|]. unfold in_tx. rewrite Hf, Hf'. reflexivity. }
    unfold al_env in H. cbn [fst snd] in H. rewrite !andb_true_iff in H. destruct H as (((L1 & L2) & L3) & L4).
    unfold c_legal, cyc_of, si_view, si_req. cbn [c_mine fst snd v_req v_tok v_ack]. rewrite Htx, Hp, L2, L3, !andb_true_r.
    destruct (si_newtok W i); cbn [orb andb negb] in *.
    - apply negb_true_iff in L4. rewrite L4, !andb_false_r, !orb_true_r. reflexivity.
    - rewrite orb_false_r in L1. apply N.eqb_eq in L1. rewrite L1, eqb_reflx. destruct (pe =? ep); reflexivity.
  Qed.

  (* the state of the alone machine remembers the previous tokenizer.endpoint: what c_rel reads of the previous cycle *)
  Definition al_rel (s : si_state) (st : si_state * N) : Prop :=
    exists prev, c_rel prev s (fst st) /\ c_mine prev = (snd st =? ep).

  Lemma al_rel_step : forall s st i, al_rel s st -> al_env W st i = true ->
    al_rel (fst (si_step W big ep s i)) (fst (al_step W big ep st i)) /\
    snd (si_step W big ep s i) = snd (al_step W big ep st i).
  Proof.
    intros s [s' pe] i (prev & HR & Hp) He. cbn [fst snd] in HR, Hp.
    destruct (c_rel_step prev s s' _ HR (al_env_legal s s' pe prev i HR Hp He)) as [Ho Hr].
    rewrite sv_step_view. split; [exists (cyc_of W ep i); split; [exact Hr | reflexivity] | exact Ho].
  Qed.

  Theorem alone_machine_noninterference : forall tr s st, al_rel s st ->
    env_ok _ (al_step W big ep) (al_env W) st tr = true ->
    run (si_step W big ep) s tr = run (al_step W big ep) st tr.
  Proof. exact (sim_run _ _ al_rel (al_env W) al_rel_step). Qed.

  Corollary alone_machine_noninterference_reset : forall tr,
    env_ok _ (al_step W big ep) (al_env W) (al_init) tr = true ->
    run (si_step W big ep) si_init tr = run (al_step W big ep) al_init tr.
  Proof.
    intros tr. apply alone_machine_noninterference.
    exists (0 =? ep, mkV 0 false false false false). split; [|reflexivity].
    left. split; [reflexivity|]. intros _. split; discriminate.
  Qed.

  Lemma al_dec_enc : forall st, al_wf W st -> al_dec W (al_enc W st) = st.
  Proof.
    intros [s pe] [Hs Hp]. unfold al_dec, al_enc. cbn [fst snd] in *.
    rewrite digit_div, digit_mod, (si_dec_enc W s Hs) by exact Hp. reflexivity.
  Qed.

  Lemma al_wf_step : forall st i, al_wf W st -> al_wf W (fst (al_step W big ep st i)).
  Proof.
    intros [s pe] i [Hs Hp]. unfold al_wf, al_step, sv_next. cbn [fst snd] in *.
    split; [|apply (bits_lt _ _ 4)]. generalize (snd (proj c_mine c_quiet (cyc_of W ep i))). intro v.
    destruct (s_fsm s); [destruct (v_req v) | destruct (v_rdy v) | | destruct (v_req v)]; cbn [s_bt];
      try exact Hs; try apply pow2_pos.
    apply N.mod_lt, pow2_nz.
  Qed.

  Lemma al_wf_init : al_wf W (al_init).
  Proof. split; [apply pow2_pos | reflexivity]. Qed.
End StatusEndpoint.

Section SelfComposition.
  Variable step : N -> N -> N * N.
  Variable projw normw : N -> N.
  Variable legalw : N -> N -> N -> bool.
  Variable auxnext : N -> N -> N.

  Theorem sc_sound : forall tr s aux s2, aux < AUXR ->
    check_trace step (sc_mon step projw normw legalw auxnext) s (aux + AUXR * s2) tr = true ->
    sc_legal_run step legalw auxnext s aux tr = true ->
    map normw (run step s tr) = map normw (run step s2 (map projw tr)).
  Proof.
    induction tr as [|i t IH]; intros s aux s2 Ha HC HL; [reflexivity|].
    cbn [check_trace sc_legal_run run map] in *.
    destruct (step s i) as [s' o] eqn:Es.
    unfold sc_mon in HC.
    rewrite digit_mod, digit_div in HC by exact Ha.
    apply andb_true_iff in HL as [Hl Ht]. rewrite Hl in HC.
    destruct (step s2 (projw i)) as [s2' o2] eqn:Es2.
    apply andb_true_iff in HC as [Ho Hc]. apply N.eqb_eq in Ho.
    cbn [map]. rewrite Ho. f_equal.
    apply (IH s' (auxnext aux i mod AUXR) s2'); [apply N.mod_lt; discriminate | exact Hc | exact Ht].
  Qed.
End SelfComposition.
