(* C21 -- proofs about the frame/microframe model and specification of Model/FrameTrack.v: the registers after any
   history are the specification's fold over its SOFs (ft_state_spec), hence frametrack_exact; and what that fold
   reports (frame_is_last_sof, microframe_recurrence). *)
From Coq Require Import NArith List Lia.
Import ListNotations.
From LunaLib Require Import BitFacts Machine.
From LunaModel Require Import FrameTrack.
Open Scope N_scope.

Section Proofs.
  Variables fw mw : N.

  Lemma ft_next_update : forall st (sof : bool) f,
    ft_next mw st sof f = if sof then sof_update mw st f else st.
  Proof.
    intros st sof f. unfold ft_next, sof_update. destruct sof; [|reflexivity].
    destruct (f =? fst st); reflexivity.
  Qed.

  Lemma ft_state_spec : forall h,
    run_state (ft_step fw mw) ft_init h = frames_after mw (sofs_of fw h).
  Proof.
    induction h as [|i h IH] using rev_ind; [reflexivity|].
    rewrite run_state_app. cbn [run_state ft_step fst]. rewrite IH, ft_next_update.
    unfold sofs_of, frames_after. rewrite filter_app. cbn [filter].
    destruct (ft_sof i).
    - rewrite map_app, fold_left_app. reflexivity.
    - rewrite app_nil_r. reflexivity.
  Qed.

  Theorem frametrack_exact : forall tr t, (t < length tr)%nat ->
    nth t (run (ft_step fw mw) ft_init tr) 0 = ft_spec_out fw mw (firstn t tr) (nth t tr 0).
  Proof.
    intros tr t Ht. rewrite run_nth, ft_state_spec by exact Ht. reflexivity.
  Qed.

  Lemma frames_after_snoc : forall sofs f,
    frames_after mw (sofs ++ [f]) = sof_update mw (frames_after mw sofs) f.
  Proof. intros. unfold frames_after. rewrite fold_left_app. reflexivity. Qed.

  Lemma frame_is_last_sof : forall sofs f, fst (frames_after mw (sofs ++ [f])) = f.
  Proof. intros. rewrite frames_after_snoc. reflexivity. Qed.

  Lemma microframe_recurrence : forall sofs f,
    snd (frames_after mw (sofs ++ [f]))
    = if f =? fst (frames_after mw sofs) then (snd (frames_after mw sofs) + 1) mod 2 ^ mw else 0.
  Proof. intros. rewrite frames_after_snoc. reflexivity. Qed.

  Lemma microframe_bound : forall sofs, snd (frames_after mw sofs) < 2 ^ mw.
  Proof.
    destruct sofs as [|f sofs _] using rev_ind; [apply pow2_pos|].
    rewrite microframe_recurrence. destruct (f =? fst (frames_after mw sofs)); [|apply pow2_pos].
    apply N.mod_lt, pow2_nz.
  Qed.

  Definition ft_wf (st : N * N) : Prop := fst st < 2 ^ fw.

  Lemma ft_dec_enc : forall st, ft_wf st -> ft_dec fw (ft_enc fw st) = st.
  Proof.
    intros [fn mf] H. unfold ft_dec, ft_enc. cbn [fst snd].
    rewrite digit_mod, digit_div by exact H. reflexivity.
  Qed.

  Lemma ft_wf_step : forall st i, ft_wf st -> ft_wf (fst (ft_step fw mw st i)).
  Proof.
    intros st i H. unfold ft_wf, ft_step, ft_next. cbn [fst].
    destruct (ft_sof i); [apply bits_lt | exact H].
  Qed.

  Lemma ft_wf_init : ft_wf ft_init.
  Proof. apply pow2_pos. Qed.
End Proofs.
