(* C37 / C38 -- hand model of luna/gateware/usb/usb3/link/receiver.py
     RawHeaderPacketReceiver   (hunt for HPSTART, collect four words, check CRC-5 / CRC-16 / sequence number)
     HeaderPacketReceiver      (header buffers, LGOOD / LCRD / LBAD / LRTY / keepalive / LXU bookkeeping
                                around a LinkCommandGenerator)
   and the specification they are proved against.  One list element = one "ss" clock cycle.

   Reading guide
     1. link-command / header wire constants
     2. sp_state / sp_mon          the SPECIFICATION of the bookkeeping: a small abstract machine (a FIFO of
                                   accepted headers, numbers of LGOODs / LCRDs owed, the partner's credits)
                                   that OBSERVES inputs and outputs of every cycle and says whether they are
                                   allowed.  It never looks at the model's state.
     3. hdr_ok / rs_*              the SPECIFICATION of header acceptance: a header packet is the four valid
                                   words that follow an HPSTART word; it is good iff the standard CRC-5 and
                                   CRC-16 (Model/Crc.v) match.
     4. core / core_step           the code-shaped MODEL of HeaderPacketReceiver's bookkeeping, parametric in the
                                   buffer count n (pointer width pw, counter width cw) and sequence width sw
     5. raw / raw_step             the code-shaped MODEL of RawHeaderPacketReceiver
     6. hr_step                    their composition = HeaderPacketReceiver
     7. packed forms for the ties
     8. the specification at the level of the sink: header parser + verdict + bookkeeping monitor
     9. environments, alphabets and packed monitors for the ties
    10. histories (for the statement "each accepted header is offered exactly once and in order")

   The model describes the PROPERTY-SATISFYING behaviour.  It differs from the gateware as found in the tree when
   it was written in how a disable / USB reset is handled (C38, findings/C38-*.diff): the model (and the patched
   gateware) hold the bookkeeping in its pre-advertisement state in EVERY cycle in which `enable` is low or
   `usb_reset` is high, whatever the dispatcher was doing; the gateware as found does so only on a falling edge of
   `enable` that happens to be seen in DISPATCH_COMMAND.  While `enable` is high and `usb_reset` low in every
   cycle (C37's setting) the two agree. *)
From Coq Require Import NArith List Bool.
Import ListNotations.
From LunaLib Require Import Netlist Bits Machine ListMem PackN.
From LunaModel Require Import Crc.
Open Scope N_scope.

(* ------------------------------------------------------------------------------------------ *)
(* 1. Constants                                                                                *)
Definition LGOOD : N := 0.   Definition LCRD : N := 1.   Definition LRTY : N := 2.   Definition LBAD : N := 3.
Definition LXU : N := 6.     Definition LUP : N := 8.    Definition LDN : N := 11.
Definition LC_START : N := 0xf7fefefe.      (* SLC SLC SLC EPF, ctrl = 1111 *)
Definition HP_START : N := 0xf7fbfbfb.      (* SHP SHP SHP EPF, ctrl = 1111 *)

(* the 16-bit link command word (subtype[0..3], reserved[4..6] = 0, command[7..10], CRC-5[11..15]) and
   the 32-bit data word that carries it twice *)
Definition lc_word (cmd sub : N) : N := let w := sub + 128 * cmd in w + 2048 * crc5_usb w.
Definition lc_data (cmd sub : N) : N := let w := lc_word cmd sub in w + 65536 * w.

Definition inc (w x : N) : N := (x + 1) mod 2 ^ w.
Definition dec (w x : N) : N := (x + 2 ^ w - 1) mod 2 ^ w.

(* counter with enqueue / dequeue strobes (acks_to_send, credits_to_issue, buffers_filled) *)
Definition updown (w x : N) (up dn : bool) : N :=
  if up && negb dn then inc w x else if dn && negb up then dec w x else x.

(* ------------------------------------------------------------------------------------------ *)
(* Interface of the bookkeeping part: one record per cycle.
   i_new / i_bad / i_badseq / i_pkt come from the raw receiver (new_packet, bad_packet, bad_sequence, packet). *)
Record cin := {
  i_en : bool; i_rst : bool; i_qrdy : bool; i_retry_rx : bool; i_retry_req : bool;
  i_keep : bool; i_rej : bool; i_srdy : bool;
  i_new : bool; i_bad : bool; i_badseq : bool; i_pkt : N }.

Record cout := {
  o_qvalid : bool; o_qhdr : N;                       (* queue.valid, queue.header *)
  o_svalid : bool; o_sdata : N; o_sctrl : N;         (* source (link commands) *)
  o_recov : bool; o_sent : bool; o_lrty : bool;      (* recovery_required, link_command_sent, lrty_pending *)
  o_exp : N }.                                       (* expected sequence number (to the raw receiver) *)

Definition restart (i : cin) : bool := negb (i_en i) || i_rst i.

(* ------------------------------------------------------------------------------------------ *)
(* 2. SPECIFICATION of the bookkeeping                                                          *)
Record sp_state := {
  s_exp : N;            (* sequence number the next accepted header carries *)
  s_ign : bool;         (* a corrupted header was seen and the partner has not retried yet *)
  s_q : list N;         (* accepted headers not yet taken by the protocol layer, oldest first *)
  s_ackowed : N;        (* LGOODs owed (the sequence-number advertisement included) *)
  s_nextack : N;        (* the sequence number the next LGOOD must carry *)
  s_credowed : N;       (* LCRDs owed = buffers freed (or never advertised) *)
  s_nextcred : N;       (* index (A = 0, B = 1, ...) the next LCRD must carry *)
  s_partner : N;        (* credits the partner holds: LCRDs sent minus headers accepted *)
  s_adv : bool;         (* the advertisement LGOOD has been sent since the link came up *)
  s_lbadowed : bool }.  (* an LBAD is owed *)

Section Spec.
  Variables n sw : N.    (* buffer count, width of sequence numbers *)
  Variable downstream : bool.

  (* state at (re)entry to U0 with next expected sequence number e: one LGOOD (e - 1) and n LCRDs are owed *)
  Definition sp_fresh (e : N) : sp_state :=
    {| s_exp := e; s_ign := false; s_q := []; s_ackowed := 1; s_nextack := dec sw e;
       s_credowed := n; s_nextcred := 0; s_partner := 0; s_adv := false; s_lbadowed := false |}.

  (* a header is ACCEPTED in a cycle iff the raw receiver reports a good, in-sequence header, no corrupted
     header is outstanding and the link is up *)
  Definition sp_accept (g : sp_state) (i : cin) : bool := i_new i && negb (s_ign g) && negb (restart i).
  Definition sp_badev (g : sp_state) (i : cin) : bool := i_bad i && negb (s_ign g).

  (* what the link partner is assumed to do: it sends a header only while it holds a credit, and never has more
     than n headers un-acknowledged *)
  Definition sp_env (g : sp_state) (i : cin) : bool :=
    negb (sp_accept g i) || ((0 <? s_partner g) && (s_ackowed g <? n)).

  (* link command completed in this cycle, if any: the command word is on the bus and taken *)
  Definition completed (i : cin) (o : cout) : option (N * N) :=
    if o_svalid o && i_srdy i && (o_sctrl o =? 0) then Some (bits (o_sdata o) 7 4, bits (o_sdata o) 0 4) else None.

  Definition keepalive_cmd : N := if downstream then LDN else LUP.

  (* is the completed command allowed, and well-formed? *)
  Definition sp_cmd_ok (g : sp_state) (o : cout) (c : N * N) : bool :=
    let (cmd, sub) := c in
    (o_sdata o =? lc_data cmd sub) &&
    (if cmd =? LGOOD then (0 <? s_ackowed g) && (sub =? s_nextack g)
     else if cmd =? LCRD then s_adv g && (0 <? s_credowed g) && (sub =? s_nextcred g)
     else if cmd =? LBAD then s_adv g && s_lbadowed g && (sub =? 0)
     else if (cmd =? LRTY) || (cmd =? LXU) || (cmd =? keepalive_cmd) then s_adv g && (sub =? 0)
     else false).

  Definition sp_check (g : sp_state) (i : cin) (o : cout) : bool :=
    (* the queue offers exactly the oldest accepted header that was not yet taken *)
    (match s_q g with
     | [] => negb (o_qvalid o)
     | h :: _ => o_qvalid o && (o_qhdr o =? h)
     end) &&
    (o_exp o =? s_exp g) &&
    (match completed i o with None => true | Some c => sp_cmd_ok g o c end).

  Definition sp_next (g : sp_state) (i : cin) (o : cout) : sp_state :=
    if restart i then sp_fresh (if i_rst i then 0 else s_exp g) else
    let acc := sp_accept g i in
    let take := o_qvalid o && i_qrdy i in
    let c := completed i o in
    let is c' := match c with Some (cmd, _) => cmd =? c' | None => false end in
    {| s_exp := if acc then inc sw (s_exp g) else s_exp g;
       s_ign := if i_retry_rx i then false else if sp_badev g i then true else s_ign g;
       s_q := (if take then tl (s_q g) else s_q g) ++ (if acc then [i_pkt i] else []);
       s_ackowed := s_ackowed g + b2n acc - b2n (is LGOOD);
       s_nextack := if is LGOOD then inc sw (s_nextack g) else s_nextack g;
       s_credowed := s_credowed g + b2n take - b2n (is LCRD);
       s_nextcred := if is LCRD then (s_nextcred g + 1) mod n else s_nextcred g;
       s_partner := s_partner g + b2n (is LCRD) - b2n acc;
       s_adv := s_adv g || is LGOOD;
       s_lbadowed := if is LBAD then false else if sp_badev g i then true else s_lbadowed g |}.

  (* the monitor: None = the partner broke its assumptions, Some (g', ok) otherwise *)
  Definition sp_mon (g : sp_state) (i : cin) (o : cout) : option (sp_state * bool) :=
    if sp_env g i then Some (sp_next g i o, sp_check g i o) else None.

  (* a whole trace is accepted (vacuously from the point where the partner misbehaves) *)
  Fixpoint sp_accepts (g : sp_state) (ios : list (cin * cout)) : bool :=
    match ios with
    | [] => true
    | (i, o) :: t => match sp_mon g i o with
                     | None => true
                     | Some (g', ok) => ok && sp_accepts g' t
                     end
    end.
End Spec.

(* ------------------------------------------------------------------------------------------ *)
(* 3. SPECIFICATION of header acceptance (raw receiver)                                          *)
(* a word on the sink: (valid, data, ctrl) *)
Record word := { w_valid : bool; w_data : N; w_ctrl : N }.
Definition is_hpstart (w : word) : bool := w_valid w && (w_data w =? HP_START) && (w_ctrl w =? 15).

(* the link control word of a header: fields of DW3 *)
Definition dw3_crc16 (d : N) : N := bits d 0 16.
Definition dw3_seq (d : N) : N := bits d 16 3.
Definition dw3_crc5 (d : N) : N := bits d 27 5.
(* both CRCs of the four words of a header are the standard ones *)
Definition hdr_crc_ok (dw0 dw1 dw2 dw3 : N) : bool :=
  (dw3_crc5 dw3 =? crc5_usb (bits dw3 16 11)) && (dw3_crc16 dw3 =? crc16_hdr [dw0; dw1; dw2]).
(* the header as one number, in the bit order of HeaderPacket (dw0, dw1, dw2, link control word) *)
Definition hdr_pack (dw0 dw1 dw2 dw3 : N) : N :=
  dw0 + N.shiftl dw1 32 + N.shiftl dw2 64 + N.shiftl dw3 96.

(* the parser of the specification: RS_HUNT = hunting for HPSTART, RS_COLLECT ws = ws collected so far (newest first);
   after the fourth word the verdict is known and the parser hunts again from the cycle after next *)
Inductive rs_state := RS_HUNT | RS_COLLECT (ws : list N) | RS_VERDICT (dw0 dw1 dw2 dw3 : N).
Definition rs_next (p : rs_state) (w : word) : rs_state :=
  match p with
  | RS_HUNT => if is_hpstart w then RS_COLLECT [] else RS_HUNT
  | RS_COLLECT ws =>
      if w_valid w then
        match ws with
        | [d2; d1; d0] => RS_VERDICT d0 d1 d2 (w_data w)
        | _ => RS_COLLECT (w_data w :: ws)
        end
      else p
  | RS_VERDICT _ _ _ _ => RS_HUNT
  end.

(* ------------------------------------------------------------------------------------------ *)
(* 4. MODEL of the bookkeeping                                                                  *)
Inductive dfsm := DISPATCH | SEND_ACKS | ISSUE_CREDITS | SEND_LBAD | SEND_LRTY | SEND_KEEPALIVE | SEND_LXU.
Inductive gfsm := G_IDLE | G_HDR | G_CMD.

Record core := {
  acks : N; credits : N; filled : N; rd : N; wr : N; bufs : list N;
  expd : N; nack : N; ncred : N;
  lbad : bool; lrty : bool; keep : bool; lxu : bool; ign : bool;
  fsm : dfsm; gen : gfsm; lcmd : N; lsub : N }.

Definition dfsm_eqb (a b : dfsm) : bool :=
  match a, b with
  | DISPATCH, DISPATCH | SEND_ACKS, SEND_ACKS | ISSUE_CREDITS, ISSUE_CREDITS | SEND_LBAD, SEND_LBAD
  | SEND_LRTY, SEND_LRTY | SEND_KEEPALIVE, SEND_KEEPALIVE | SEND_LXU, SEND_LXU => true
  | _, _ => false
  end.

Section Core.
  Variables n pw cw sw : N.   (* buffer count; widths of the buffer pointers, of the counters, of sequence numbers *)
  Variable downstream : bool.

  Definition core_fresh (e : N) (b : list N) (x : bool) : core :=
    {| acks := 1; credits := n mod 2 ^ cw; filled := 0; rd := 0; wr := 0; bufs := b;
       expd := e; nack := dec sw e; ncred := 0;
       lbad := false; lrty := false; keep := false; lxu := x; ign := false;
       fsm := DISPATCH; gen := G_IDLE; lcmd := 0; lsub := 0 |}.
  Definition core_init : core := core_fresh 0 (repeat 0 (N.to_nat n)) false.

  (* command and subtype the dispatcher asks the generator for *)
  Definition req_cmd (s : core) : N * N :=
    match fsm s with
    | DISPATCH => (0, 0)
    | SEND_ACKS => (LGOOD, nack s mod 16)
    | ISSUE_CREDITS => (LCRD, ncred s mod 16)
    | SEND_LBAD => (LBAD, 0)
    | SEND_LRTY => (LRTY, 0)
    | SEND_KEEPALIVE => (keepalive_cmd downstream, 0)
    | SEND_LXU => (LXU, 0)
    end.
  Definition generate (s : core) : bool := match fsm s with DISPATCH => false | _ => true end.
  Definition done (s : core) (i : cin) : bool := match gen s with G_CMD => i_srdy i | _ => false end.
  Definition accept (s : core) (i : cin) : bool := i_new i && negb (ign s) && negb (restart i).
  Definition badev (s : core) (i : cin) : bool := i_bad i && negb (ign s).
  Definition qvalid (s : core) : bool := 0 <? filled s.
  Definition consume (s : core) (i : cin) : bool := qvalid s && i_qrdy i.
  Definition in_state (s : core) (f : dfsm) : bool := dfsm_eqb (fsm s) f.

  (* Array index: an out-of-range index selects the last element (only possible when n is not a power of two) *)
  Definition bidx (x : N) : nat := N.to_nat (N.min x (n - 1)).

  Definition core_out (s : core) (i : cin) : cout :=
    {| o_qvalid := qvalid s; o_qhdr := nth (bidx (rd s)) (bufs s) 0;
       o_svalid := match gen s with G_IDLE => false | _ => true end;
       o_sdata := match gen s with G_IDLE => 0 | G_HDR => LC_START | G_CMD => lc_data (lcmd s) (lsub s) end;
       o_sctrl := match gen s with G_HDR => 15 | _ => 0 end;
       o_recov := i_badseq i && negb (ign s); o_sent := done s i; o_lrty := lrty s; o_exp := expd s |}.

  (* the dispatcher *)
  Definition fsm_next (s : core) (i : cin) : dfsm :=
    if restart i then DISPATCH else
    match fsm s with
    | DISPATCH =>
        if lrty s then SEND_LRTY
        else if negb (acks s =? 0) then SEND_ACKS
        else if negb (credits s =? 0) then ISSUE_CREDITS
        else if lbad s then SEND_LBAD
        else if lxu s then SEND_LXU
        else if keep s then SEND_KEEPALIVE
        else DISPATCH
    | SEND_ACKS => if done s i && (acks s =? 1) then DISPATCH else SEND_ACKS
    | ISSUE_CREDITS => if done s i && (credits s =? 1) then DISPATCH else ISSUE_CREDITS
    | f => if done s i then DISPATCH else f
    end.

  (* the link command generator (held in reset while the link is down) *)
  Definition gen_next (s : core) (i : cin) : gfsm :=
    if restart i then G_IDLE else
    match gen s with
    | G_IDLE => if generate s then G_HDR else G_IDLE
    | G_HDR => if i_srdy i then G_CMD else G_HDR
    | G_CMD => if i_srdy i then G_IDLE else G_CMD
    end.
  Definition latch (s : core) (i : cin) : bool :=
    match gen s with G_IDLE => generate s | _ => false end.

  Definition core_step (s : core) (i : cin) : core :=
    let r := restart i in
    let acc := accept s i in
    let dn := done s i in
    let e' := if i_rst i then 0 else if acc then inc sw (expd s) else expd s in
    {| acks := if r then 1 else updown cw (acks s) acc (in_state s SEND_ACKS && dn);
       credits := if r then n mod 2 ^ cw else updown cw (credits s) (consume s i) (in_state s ISSUE_CREDITS && dn);
       filled := if r then 0 else updown cw (filled s) acc (consume s i);
       rd := if r then 0 else if consume s i then inc pw (rd s) else rd s;
       wr := if r then 0 else if acc then inc pw (wr s) else wr s;
       bufs := if acc then upd (bidx (wr s)) (i_pkt i) (bufs s) else bufs s;
       expd := e';
       nack := if r then dec sw e' else if in_state s SEND_ACKS && dn then inc sw (nack s) else nack s;
       ncred := if r then 0 else if in_state s ISSUE_CREDITS && dn then inc pw (ncred s) else ncred s;
       lbad := if r then false else if in_state s SEND_LBAD && dn then false else if badev s i then true else lbad s;
       lrty := if r then false else if in_state s SEND_LRTY && dn then false else if i_retry_req i then true else lrty s;
       keep := if r then false else if in_state s SEND_KEEPALIVE && dn then false else if i_keep i then true else keep s;
       lxu := if in_state s SEND_LXU && dn then false else if i_rej i then true else lxu s;
       ign := if r then false else if i_retry_rx i then false else if badev s i then true else ign s;
       fsm := fsm_next s i; gen := gen_next s i;
       lcmd := if r then 0 else if latch s i then fst (req_cmd s) else lcmd s;
       lsub := if r then 0 else if latch s i then snd (req_cmd s) else lsub s |}.

  (* traces of the typed model *)
  Fixpoint core_run (s : core) (ins : list cin) : list cout :=
    match ins with
    | [] => []
    | i :: t => core_out s i :: core_run (core_step s i) t
    end.
End Core.

(* ------------------------------------------------------------------------------------------ *)
(* 5. MODEL of the raw receiver                                                                 *)
Inductive rfsm := WAIT_HPSTART | RECV (k : nat) (* k = 0..3 *) | CHECK.
Record raw := {
  r_fsm : rfsm;
  r_dw0 : N; r_dw1 : N; r_dw2 : N; r_dw3 : N;    (* packet under reception *)
  r_crc : list bool;                             (* CRC-16 register *)
  r_crc5 : N;                                    (* pipelined expected CRC-5 *)
  r_new : bool;                                  (* new_packet (registered) *)
  r_pkt : N }.                                   (* packet output register *)

Definition raw_init : raw :=
  {| r_fsm := WAIT_HPSTART; r_dw0 := 0; r_dw1 := 0; r_dw2 := 0; r_dw3 := 0; r_crc := reg_init 16;
     r_crc5 := 0; r_new := false; r_pkt := 0 |}.

Definition raw_crc_bad (r : raw) : bool :=
  negb (r_crc5 r =? dw3_crc5 (r_dw3 r)) || negb (crc_out (r_crc r) =? dw3_crc16 (r_dw3 r)).
Definition raw_in_check (r : raw) : bool := match r_fsm r with CHECK => true | _ => false end.
(* outputs (Moore, given the expected sequence number): bad_packet, bad_sequence; new_packet / packet are registers *)
Definition raw_bad (r : raw) : bool := raw_in_check r && raw_crc_bad r.
Definition raw_badseq (r : raw) (e : N) : bool :=
  raw_in_check r && negb (raw_crc_bad r) && negb (dw3_seq (r_dw3 r) =? e).
Definition raw_good (r : raw) (e : N) : bool :=
  raw_in_check r && negb (raw_crc_bad r) && (dw3_seq (r_dw3 r) =? e).

Definition raw_step (r : raw) (w : word) (e : N) : raw :=
  let v := w_valid w in let d := w_data w in
  let take (k : nat) := match r_fsm r with RECV k' => Nat.eqb k k' && v | _ => false end in
  {| r_fsm := match r_fsm r with
              | WAIT_HPSTART => if is_hpstart w then RECV 0 else WAIT_HPSTART
              | RECV 3 => if v then CHECK else RECV 3
              | RECV k => if v then RECV (S k) else RECV k
              | CHECK => WAIT_HPSTART
              end;
     r_dw0 := if take 0%nat then d else r_dw0 r;
     r_dw1 := if take 1%nat then d else r_dw1 r;
     r_dw2 := if take 2%nat then d else r_dw2 r;
     r_dw3 := if take 3%nat then d else r_dw3 r;
     r_crc := match r_fsm r with
              | WAIT_HPSTART => reg_init 16
              | RECV 3 | CHECK => r_crc r
              | RECV _ => if v then crc_update poly16h (r_crc r) (N2bits 32 d) else r_crc r
              end;
     r_crc5 := if take 3%nat then crc5_usb (bits d 16 11) else r_crc5 r;
     r_new := raw_good r e;
     r_pkt := if raw_good r e then hdr_pack (r_dw0 r) (r_dw1 r) (r_dw2 r) (r_dw3 r) else r_pkt r |}.

(* ------------------------------------------------------------------------------------------ *)
(* 6. HeaderPacketReceiver = raw receiver + bookkeeping                                          *)
Record hin := {
  h_en : bool; h_rst : bool; h_qrdy : bool; h_retry_rx : bool; h_retry_req : bool;
  h_keep : bool; h_rej : bool; h_srdy : bool; h_sink : word }.

Section Full.
  Variables n pw cw sw : N.
  Variable downstream : bool.

  Definition hr_state : Type := raw * core.
  Definition hr_init : hr_state := (raw_init, core_init n cw sw).

  (* what the bookkeeping sees in a cycle *)
  Definition hr_cin (r : raw) (c : core) (i : hin) : cin :=
    {| i_en := h_en i; i_rst := h_rst i; i_qrdy := h_qrdy i; i_retry_rx := h_retry_rx i;
       i_retry_req := h_retry_req i; i_keep := h_keep i; i_rej := h_rej i; i_srdy := h_srdy i;
       i_new := r_new r; i_bad := raw_bad r; i_badseq := raw_badseq r (expd c); i_pkt := r_pkt r |}.

  Definition hr_step (st : hr_state) (i : hin) : hr_state * cout :=
    let (r, c) := st in
    let ci := hr_cin r c i in
    ((raw_step r (h_sink i) (expd c), core_step n pw cw sw downstream c ci), core_out n c ci).
End Full.

(* ------------------------------------------------------------------------------------------ *)
(* 7. Packed forms                                                                              *)
(* output word: queue.valid, queue.header (hw bits), source.valid, source.data (32), source.ctrl (4),
   recovery_required, link_command_sent, lrty_pending, expected sequence (3) *)
Definition pack_cout (hw : N) (o : cout) : N :=
  b2n (o_qvalid o) + 2 * (o_qhdr o + 2 ^ hw * (b2n (o_svalid o) + 2 * (o_sdata o + 2 ^ 32 * (o_sctrl o + 16 *
  (b2n (o_recov o) + 2 * (b2n (o_sent o) + 2 * (b2n (o_lrty o) + 2 * o_exp o))))))).
Definition unpack_cout (hw : N) (x : N) : cout :=
  {| o_qvalid := N.testbit x 0; o_qhdr := bits x 1 hw; o_svalid := N.testbit x (1 + hw);
     o_sdata := bits x (2 + hw) 32; o_sctrl := bits x (34 + hw) 4; o_recov := N.testbit x (38 + hw);
     o_sent := N.testbit x (39 + hw); o_lrty := N.testbit x (40 + hw); o_exp := bits x (41 + hw) 3 |}.

(* (a) bookkeeping with the raw receiver's strobes as free inputs (the "stub" targets): input word
   enable, usb_reset, queue.ready, retry_received, retry_required, keepalive_required, reject_power_state,
   source.ready, new_packet, bad_packet, bad_sequence, packet (hw bits) *)
Definition cin_of (hw : N) (x : N) : cin :=
  {| i_en := N.testbit x 0; i_rst := N.testbit x 1; i_qrdy := N.testbit x 2; i_retry_rx := N.testbit x 3;
     i_retry_req := N.testbit x 4; i_keep := N.testbit x 5; i_rej := N.testbit x 6; i_srdy := N.testbit x 7;
     i_new := N.testbit x 8; i_bad := N.testbit x 9; i_badseq := N.testbit x 10; i_pkt := bits x 11 hw |}.

Definition core_mstep (n pw cw sw : N) (down : bool) (hw : N) (s : core) (x : N) : core * N :=
  let i := cin_of hw x in (core_step n pw cw sw down s i, pack_cout hw (core_out n s i)).

(* (b) the complete HeaderPacketReceiver: input word = the eight controls, sink.valid, sink.data (32), sink.ctrl (4);
   output word = pack_cout 128 plus packet_received and bad_packet_received on top *)
Definition hin_of (x : N) : hin :=
  {| h_en := N.testbit x 0; h_rst := N.testbit x 1; h_qrdy := N.testbit x 2; h_retry_rx := N.testbit x 3;
     h_retry_req := N.testbit x 4; h_keep := N.testbit x 5; h_rej := N.testbit x 6; h_srdy := N.testbit x 7;
     h_sink := {| w_valid := N.testbit x 8; w_data := bits x 9 32; w_ctrl := bits x 41 4 |} |}.
Definition cin_of_hin (e : N) (new bad badseq : bool) (pkt : N) (i : hin) : cin :=
  {| i_en := h_en i; i_rst := h_rst i; i_qrdy := h_qrdy i; i_retry_rx := h_retry_rx i;
     i_retry_req := h_retry_req i; i_keep := h_keep i; i_rej := h_rej i; i_srdy := h_srdy i;
     i_new := new; i_bad := bad; i_badseq := badseq; i_pkt := pkt |}.

Definition hr_mstep (n pw cw sw : N) (down : bool) (st : hr_state) (x : N) : hr_state * N :=
  let (st', o) := hr_step n pw cw sw down st (hin_of x) in
  (st', pack_cout 128 o + 2 ^ 172 * (b2n (r_new (fst st)) + 2 * b2n (raw_bad (fst st)))).

(* (c) the raw receiver alone: input word sink.valid, sink.data (32), sink.ctrl (4), expected_sequence (3);
   output word new_packet, bad_packet, bad_sequence, packet (128) *)
Definition raw_mstep (r : raw) (x : N) : raw * N :=
  let w := {| w_valid := N.testbit x 0; w_data := bits x 1 32; w_ctrl := bits x 33 4 |} in
  let e := bits x 37 3 in
  (raw_step r w e, b2n (r_new r) + 2 * (b2n (raw_bad r) + 2 * (b2n (raw_badseq r e) + 2 * r_pkt r))).

(* the specification monitor on packed words (runtime oracle / R-monitor).  Monitor state = sp_state packed. *)
Definition dfsm_code (f : dfsm) : N :=
  match f with DISPATCH => 0 | SEND_ACKS => 1 | ISSUE_CREDITS => 2 | SEND_LBAD => 3 | SEND_LRTY => 4
             | SEND_KEEPALIVE => 5 | SEND_LXU => 6 end.
Definition dfsm_of (c : N) : dfsm :=
  match c with 0 => DISPATCH | 1 => SEND_ACKS | 2 => ISSUE_CREDITS | 3 => SEND_LBAD | 4 => SEND_LRTY
             | 5 => SEND_KEEPALIVE | _ => SEND_LXU end.
Definition gfsm_code (g : gfsm) : N := match g with G_IDLE => 0 | G_HDR => 1 | G_CMD => 2 end.
Definition gfsm_of (c : N) : gfsm := match c with 0 => G_IDLE | 1 => G_HDR | _ => G_CMD end.
Definition n2b (x : N) : bool := x =? 1.

(* state packing: every numeric field and every buffered header in its own W-bit slot (all must be < 2^W) *)
Fixpoint packb (W : N) (l : list N) : N :=
  match l with [] => 0 | x :: t => x + N.shiftl (packb W t) W end.
Fixpoint unpackb (W : N) (k : nat) (m : N) : list N :=
  match k with O => [] | S k' => N.land m (N.ones W) :: unpackb W k' (N.shiftr m W) end.

Definition core_nums (s : core) : list N :=
  [acks s; credits s; filled s; rd s; wr s; expd s; nack s; ncred s; lcmd s; lsub s;
   b2n (lbad s); b2n (lrty s); b2n (keep s); b2n (lxu s); b2n (ign s); dfsm_code (fsm s); gfsm_code (gen s)]
  ++ bufs s.
Definition core_enc (W : N) (s : core) : N := packb W (core_nums s).
Definition core_dec (W : N) (nb : nat) (m : N) : core :=
  let l := unpackb W (17 + nb) m in
  let f k := nth k l 0 in
  {| acks := f 0%nat; credits := f 1%nat; filled := f 2%nat; rd := f 3%nat; wr := f 4%nat; bufs := skipn 17 l;
     expd := f 5%nat; nack := f 6%nat; ncred := f 7%nat;
     lbad := n2b (f 10%nat); lrty := n2b (f 11%nat); keep := n2b (f 12%nat); lxu := n2b (f 13%nat);
     ign := n2b (f 14%nat); fsm := dfsm_of (f 15%nat); gen := gfsm_of (f 16%nat);
     lcmd := f 8%nat; lsub := f 9%nat |}.
Definition core_wf (W : N) (nb : nat) (s : core) : Prop :=
  length (bufs s) = nb /\ Forall (fun x => x < 2 ^ W) (core_nums s).

Definition sp_nums (g : sp_state) : list N :=
  [s_exp g; b2n (s_ign g); s_ackowed g; s_nextack g; s_credowed g; s_nextcred g; s_partner g;
   b2n (s_adv g); b2n (s_lbadowed g); N.of_nat (length (s_q g))] ++ s_q g.
Definition sp_enc (W : N) (g : sp_state) : N := packb W (sp_nums g).
Definition sp_dec (W : N) (m : N) : sp_state :=
  let h := unpackb W 10 m in
  let f k := nth k h 0 in
  let l := unpackb W (10 + N.to_nat (f 9%nat)) m in
  {| s_exp := f 0%nat; s_ign := n2b (f 1%nat); s_q := skipn 10 l; s_ackowed := f 2%nat; s_nextack := f 3%nat;
     s_credowed := f 4%nat; s_nextcred := f 5%nat; s_partner := f 6%nat; s_adv := n2b (f 7%nat);
     s_lbadowed := n2b (f 8%nat) |}.
Definition sp_monN (n sw : N) (down : bool) (W : N) (ci : N -> cin) (co : N -> cout) (m i o : N) : option (N * bool) :=
  match sp_mon n sw down (sp_dec W m) (ci i) (co o) with
  | None => None
  | Some (g, ok) => Some (sp_enc W g, ok)
  end.

(* ------------------------------------------------------------------------------------------ *)
(* 8. The specification at the level of the sink: header parser + verdict + bookkeeping monitor  *)
(* the raw receiver as the specification describes it: the parser, plus the one-cycle delay of new_packet and the
   holding register of the last accepted header *)
Record rsx := { x_p : rs_state; x_new : bool; x_pkt : N }.
Definition rsx_init : rsx := {| x_p := RS_HUNT; x_new := false; x_pkt := 0 |}.
Definition rsx_bad (x : rsx) : bool :=
  match x_p x with RS_VERDICT d0 d1 d2 d3 => negb (hdr_crc_ok d0 d1 d2 d3) | _ => false end.
Definition rsx_good (x : rsx) (e : N) : bool :=
  match x_p x with RS_VERDICT d0 d1 d2 d3 => hdr_crc_ok d0 d1 d2 d3 && (dw3_seq d3 =? e) | _ => false end.
Definition rsx_badseq (x : rsx) (e : N) : bool :=
  match x_p x with RS_VERDICT d0 d1 d2 d3 => hdr_crc_ok d0 d1 d2 d3 && negb (dw3_seq d3 =? e) | _ => false end.
Definition rsx_step (x : rsx) (w : word) (e : N) : rsx :=
  {| x_p := rs_next (x_p x) w; x_new := rsx_good x e;
     x_pkt := match x_p x with
              | RS_VERDICT d0 d1 d2 d3 => if rsx_good x e then hdr_pack d0 d1 d2 d3 else x_pkt x
              | _ => x_pkt x
              end |}.

(* events the bookkeeping specification is fed with, derived from the sink history by the parser *)
Definition spec_cin (x : rsx) (e : N) (i : hin) : cin :=
  cin_of_hin e (x_new x) (rsx_bad x) (rsx_badseq x e) (x_pkt x) i.

Section FullSpec.
  Variables n sw : N.
  Variable downstream : bool.
  (* monitor of the complete receiver: state = (parser, bookkeeping specification); the sequence number a header is
     compared with is the SPECIFICATION's expected number *)
  Definition hs_mon (st : rsx * sp_state) (i : hin) (o : cout) : option ((rsx * sp_state) * bool) :=
    let (x, g) := st in
    let ci := spec_cin x (s_exp g) i in
    match sp_mon n sw downstream g ci o with
    | None => None
    | Some (g', ok) => Some ((rsx_step x (h_sink i) (s_exp g), g'), ok)
    end.
  Fixpoint hs_accepts (st : rsx * sp_state) (ios : list (hin * cout)) : bool :=
    match ios with
    | [] => true
    | (i, o) :: t => match hs_mon st i o with
                     | None => true
                     | Some (st', ok) => ok && hs_accepts st' t
                     end
    end.
End FullSpec.

(* ------------------------------------------------------------------------------------------ *)
(* 9. Environments, alphabets and packed monitors for the ties                                   *)
(* the partner's rules, read off the model state (partner credits = n - buffered - credits still to issue) *)
Definition core_env (n hw : N) (s : core) (x : N) : bool :=
  let i := cin_of hw x in
  negb (i_new i && negb (ign s) && negb (restart i)) || ((filled s + credits s <? n) && (acks s <? n)).

(* all words that have the bits of `fixed` set plus any subset of the bit positions `free` *)
Fixpoint subsets (free : list N) : list N :=
  match free with
  | [] => [0]
  | b :: t => let l := subsets t in l ++ map (fun x => x + 2 ^ b) l
  end.
Definition alpha_of (fixed : N) (free : list N) : list N := map (fun x => x + fixed) (subsets free).

Definition rs_nums (p : rs_state) : list N :=
  match p with
  | RS_HUNT => [0; 0; 0; 0; 0; 0]
  | RS_COLLECT ws => [1; N.of_nat (length ws); nth 0 ws 0; nth 1 ws 0; nth 2 ws 0; 0]
  | RS_VERDICT d0 d1 d2 d3 => [2; 0; d0; d1; d2; d3]
  end.
Definition rs_of_nums (l : list N) : rs_state :=
  let f k := nth k l 0 in
  match f 0%nat with
  | 0 => RS_HUNT
  | 1 => RS_COLLECT (firstn (N.to_nat (f 1%nat)) [f 2%nat; f 3%nat; f 4%nat])
  | _ => RS_VERDICT (f 2%nat) (f 3%nat) (f 4%nat) (f 5%nat)
  end.
Definition hs_enc (W : N) (st : rsx * sp_state) : N :=
  packb W (rs_nums (x_p (fst st)) ++ [b2n (x_new (fst st)); x_pkt (fst st)] ++ sp_nums (snd st)).
Definition hs_dec (W : N) (m : N) : rsx * sp_state :=
  let l := unpackb W 8 m in
  ({| x_p := rs_of_nums l; x_new := n2b (nth 6 l 0); x_pkt := nth 7 l 0 |},
   sp_dec W (N.shiftr m (8 * W))).

(* full-target output word: pack_cout 128 plus packet_received / bad_packet_received on top *)
Definition hs_monN (n sw : N) (down : bool) (W : N) (m i o : N) : option (N * bool) :=
  let st := hs_dec W m in
  match hs_mon n sw down st (hin_of i) (unpack_cout 128 o) with
  | None => None
  | Some (st', ok) =>
      Some (hs_enc W st', ok && Bool.eqb (N.testbit o 172) (x_new (fst st)) && Bool.eqb (N.testbit o 173) (rsx_bad (fst st)))
  end.

(* raw receiver alone: the specification's parser as a monitor of (sink, expected) -> (new, bad, bad_sequence, packet) *)
Definition rsx_monN (W : N) (m i o : N) : option (N * bool) :=
  let l := unpackb W 8 m in
  let x := {| x_p := rs_of_nums l; x_new := n2b (nth 6 l 0); x_pkt := nth 7 l 0 |} in
  let w := {| w_valid := N.testbit i 0; w_data := bits i 1 32; w_ctrl := bits i 33 4 |} in
  let e := bits i 37 3 in
  let x' := rsx_step x w e in
  Some (packb W (rs_nums (x_p x') ++ [b2n (x_new x'); x_pkt x']),
        o =? b2n (x_new x) + 2 * (b2n (rsx_bad x) + 2 * (b2n (rsx_badseq x e) + 2 * x_pkt x))).

(* ------------------------------------------------------------------------------------------ *)
(* 10. Histories (for the statement "each accepted header is offered exactly once and in order")   *)
Section Hist.
  Variables n sw : N.
  Variable down : bool.
  (* a run the monitor accepts without the partner ever breaking its rules: final state, headers accepted (in order),
     headers handed to the protocol layer (in order) *)
  Fixpoint sp_run (g : sp_state) (ios : list (cin * cout)) : option (sp_state * list N * list N) :=
    match ios with
    | [] => Some (g, [], [])
    | (i, o) :: t =>
        match sp_mon n sw down g i o with
        | Some (g', true) =>
            match sp_run g' t with
            | Some (gf, a, d) => Some (gf, (if sp_accept g i then [i_pkt i] else []) ++ a,
                                          (if o_qvalid o && i_qrdy i then [o_qhdr o] else []) ++ d)
            | None => None
            end
        | _ => None
        end
    end.

End Hist.
