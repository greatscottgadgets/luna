(* C09 -- proofs about the block-RAM-free GET_DESCRIPTOR handler model (Model/DescDist.v).  dist_refines: for every
   well-formed collection of non-empty descriptors the bank of constant stream generators, selected and started as
   GetDescriptorHandlerDistributed does (as of 9ef863f: send_zlp, past_end), is output-equivalent to the specification
   machine s_step (resp_of c mps) on every legal input history.
   A generator of the bank is quiet, armed (its start register is set) or streaming; the simulation relation
   `rel` has one case per situation of the bank: all quiet, all quiet with send_zlp set, the selected
   generator armed, the selected generator streaming.  What the specification machine does in these cycles
   comes from DescCommon.v (serving).  Last, the packing lemmas of the lock-step obligations. *)
From Coq Require Import NArith Arith List Bool Lia.
Import ListNotations.
From LunaLib Require Import Netlist Machine ListFacts.
From LunaModel Require Import ConstGen ConstGen_proofs DescSpec DescRom DescRom_proofs DescCommon
                              DescDist.
From LunaLib Require Import BitFacts.
Open Scope N_scope.

Lemma gen_cfg_eq : forall d, gen_cfg d =
  {| c_words := d; c_bpw := 1; c_vw := 1; c_lwb := 1; c_dlen := nlen d; c_hasml := true; c_mlw := 16;
     c_posw := N.size (nlen d - 1); c_spw := N.size (nlen d - 1); c_dw := 8 |}.
Proof.
  intros d. pose proof (cfg_of_bytes_bytewide_words d (Some 16)) as H. unfold gen_cfg, cfg_of_bytes in *.
  cbn [c_words] in H. rewrite H, Nat.mod_1_r. reflexivity.
Qed.

Lemma gen_cfg_nwords : forall d, nwords (gen_cfg d) = nlen d.
Proof. intros. rewrite gen_cfg_eq. reflexivity. Qed.

Lemma gen_ok_facts : forall g, gen_okb g = true -> bytes_ok (snd g) /\ 1 <= nlen (snd g) /\ nlen (snd g) < 2048.
Proof.
  intros g H. unfold gen_okb in H. repeat (apply andb_true_iff in H as [H ?]). split; [|lia].
  rewrite forallb_forall in H. apply Forall_forall. intros b Hb. specialize (H b Hb). lia.
Qed.

Lemma gens_ok_in : forall gs g, gens_okb gs = true -> In g gs -> gen_okb g = true.
Proof. intros gs g H. unfold gens_okb in H. rewrite forallb_forall in H. apply H. Qed.

(* start_position and position_in_stream address the whole descriptor *)
Lemma gen_width : forall d : desc, nlen d <= 2 ^ N.size (nlen d - 1).
Proof. intros d. pose proof (N.size_gt (nlen d - 1)). lia. Qed.

Lemma gen_cfg_ok : forall d, 1 <= nlen d -> cfg_okb (gen_cfg d) = true.
Proof.
  intros d H. rewrite gen_cfg_eq. unfold cfg_okb. cbn [c_words c_bpw c_vw c_lwb c_dlen c_hasml c_mlw c_posw c_spw].
  fold (nlen d). pose proof (gen_width d). change (2 ^ 16) with 65536. lia.
Qed.

Lemma ds_init_forall2 : forall (P : dgen -> bool * cg_state -> Prop) gs,
  (forall g, In g gs -> P g (false, cg_init (gen_cfg (snd g)))) -> Forall2 P gs (d_gens (ds_init gs)).
Proof.
  intros P gs H. unfold ds_init. cbn [d_gens]. induction gs as [|g gs IH]; cbn [map]; constructor.
  - apply H. left. reflexivity.
  - apply IH. intros g' Hin. apply H. right. exact Hin.
Qed.

Lemma gens_next_forall2 : forall mps i (P Q : dgen -> bool * cg_state -> Prop) gs ss,
  Forall2 P gs ss -> (forall g s, In g gs -> P g s -> Q g (fst (gen_step mps g s i))) ->
  Forall2 Q gs (gens_next mps gs ss i).
Proof.
  intros mps i P Q gs ss H. induction H as [|g s gs ss Hp _ IH]; intros HPQ; cbn [gens_next]; constructor.
  - apply HPQ; [left; reflexivity | exact Hp].
  - apply IH. intros g' s' Hin Hp'. apply HPQ; [right; exact Hin | exact Hp'].
Qed.

Lemma gens_env_forall2 : forall mps i (P : dgen -> bool * cg_state -> Prop) gs ss,
  Forall2 P gs ss -> (forall g s, In g gs -> P g s -> gen_env mps g s i = true) -> gens_env mps gs ss i = true.
Proof.
  intros mps i P gs ss H. induction H as [|g s gs ss Hp _ IH]; intros HP; [reflexivity|].
  cbn [gens_env]. rewrite (HP g s (or_introl eq_refl) Hp). apply IH. intros g' s' Hin. apply HP. right. exact Hin.
Qed.

Lemma sel_out_spec : forall mps i (P : dgen -> bool * cg_state -> Prop) gs ss, Forall2 P gs ss ->
  match sel_desc gs (i_value i) with
  | Some _ => exists g s, In g gs /\ fst g = i_value i /\ P g s /\ sel_out mps gs ss i = Some (snd (gen_step mps g s i))
  | None => sel_out mps gs ss i = None
  end.
Proof.
  intros mps i P gs ss H. induction H as [|g s gs ss Hp _ IH]; [reflexivity|].
  cbn [sel_desc sel_out]. destruct (N.eqb_spec (fst g) (i_value i)) as [E|E].
  - exists g, s. repeat split; try assumption. left. reflexivity.
  - destruct (sel_desc gs (i_value i)); [|exact IH].
    destruct IH as (g' & s' & Hin & IH). exists g', s'. split; [right; exact Hin | exact IH].
Qed.

Definition cg_in_fields (c : cg_cfg) (s : bool) (sp ml : N) (r : bool) : list (N * N) :=
  [(1, b2n s); (c_spw c, trunc (c_spw c) sp); (c_mlw c, trunc (c_mlw c) ml); (1, b2n r)].

Lemma cg_in_word : forall c s sp ml r, cg_in c s sp ml r = fields_word (cg_in_fields c s sp ml r).
Proof. intros. unfold cg_in, cg_in_fields. cbn [fields_word]. rewrite !N.shiftl_mul_pow2, !N.pow_add_r. ring. Qed.

Lemma cg_in_fields_ok : forall c s sp ml r, fields_ok (cg_in_fields c s sp ml r).
Proof. intros. repeat constructor; cbn [fst snd]; first [apply b2n_lt2 | apply trunc_lt]. Qed.

Lemma cg_in_start : forall c s sp ml r, ConstGen.i_start (cg_in c s sp ml r) = s.
Proof. intros. rewrite cg_in_word. exact (testbit_fields_word _ 0 s (cg_in_fields_ok c s sp ml r) eq_refl). Qed.

Lemma cg_in_sp : forall c s sp ml r, ConstGen.i_sp c (cg_in c s sp ml r) = trunc (c_spw c) sp.
Proof. intros. rewrite cg_in_word. exact (bits_fields_word _ 1 (cg_in_fields_ok c s sp ml r)). Qed.

Lemma cg_in_ml : forall c s sp ml r, c_hasml c = true -> ConstGen.i_ml c (cg_in c s sp ml r) = trunc (c_mlw c) ml.
Proof.
  intros c s sp ml r H. unfold ConstGen.i_ml. rewrite H, cg_in_word.
  pose proof (bits_fields_word _ 2 (cg_in_fields_ok c s sp ml r)) as E.
  cbn [cg_in_fields field_off nth fst snd] in E. rewrite N.add_0_r in E. exact E.
Qed.

Lemma cg_in_ready : forall c s sp ml r, c_hasml c = true -> ConstGen.i_ready c (cg_in c s sp ml r) = r.
Proof.
  intros c s sp ml r H. unfold ConstGen.i_ready. rewrite H, cg_in_word.
  pose proof (testbit_fields_word _ 3 r (cg_in_fields_ok c s sp ml r) eq_refl) as E.
  cbn [cg_in_fields field_off] in E. rewrite N.add_0_r, !N.add_assoc in E. exact E.
Qed.

Lemma trunc11_pack : forall c valid f l payload done ml, c_vw c = 1 -> c_dw c = 8 -> valid <= 1 -> payload < 256 ->
  trunc 11 (pack_beat c valid f l payload done ml) = valid + 2 * b2n f + 4 * b2n l + 8 * payload.
Proof.
  intros c valid f l payload done ml Hv Hd Hva Hp. unfold pack_beat. rewrite Hv, Hd, !N.shiftl_mul_pow2, trunc_mod.
  replace (_ + _) with (valid + 2 * b2n f + 4 * b2n l + 8 * payload + 2 ^ 11 * (b2n done + 2 * olen_of c ml))
    by lia.
  apply digit_mod. pose proof (b2n_lt2 f). pose proof (b2n_lt2 l). change (2 ^ 11) with 2048. lia.
Qed.

Lemma sel_desc_assoc : forall gs v, sel_desc gs v = assoc v gs.
Proof. induction gs as [|[k d] r IH]; intros v; [reflexivity|]. cbn [sel_desc assoc fst snd]. destruct (k =? v); [reflexivity | apply IH]. Qed.

Lemma assoc_gmap : forall (idxs : list (N * desc)) ty ty' ix, ix < 256 -> keys_small idxs ->
  assoc (ix + 256 * ty) (map (fun e : N * desc => (fst e + 256 * ty', snd e)) idxs) =
  if ty' =? ty then assoc ix idxs else None.
Proof.
  induction idxs as [|[ix' d] r IH]; intros ty ty' ix Hix Hk; [destruct (ty' =? ty); reflexivity|].
  inversion Hk as [|? ? H0 Hr]; subst. cbn [fst] in H0. cbn [map assoc fst snd]. rewrite IH by assumption.
  destruct (N.eqb_spec (ix' + 256 * ty') (ix + 256 * ty)), (N.eqb_spec ty' ty), (N.eqb_spec ix' ix); reflexivity || lia.
Qed.

Lemma sel_desc_find : forall c value, coll_facts c -> value < 65536 ->
  sel_desc (dist_gens c) value = find_desc c (v_type value) (v_index value).
Proof.
  intros c value F Hv. destruct (value_split value Hv) as (Hs & Hix & Hty).
  rewrite sel_desc_assoc. rewrite Hs at 1. unfold find_desc.
  apply (assoc_by_type _ _ _ assoc_gmap c 0); [apply (cf_inc c F) | exact Hix | apply (cf_small c F)].
Qed.

Lemma gen_key_find : forall c g value, coll_facts c -> value < 65536 -> In g (dist_gens c) -> fst g = value ->
  find_desc c (v_type value) (v_index value) = Some (snd g).
Proof.
  intros c g value F Hv Hin Hk. apply in_flat_map in Hin as ([ty idxs] & Hp & Hin).
  apply in_map_iff in Hin as ([ix d] & <- & He). cbn [fst snd] in *.
  assert (Ha : assoc ty c = Some idxs) by (apply (increasing_in_assoc _ _ 0); [apply (cf_inc c F) | exact Hp]).
  destruct (cf_group c F ty idxs Ha) as (Hinc & _ & _ & Hks & _).
  unfold keys_small in Hks. rewrite Forall_forall in Hks. specialize (Hks _ He). cbn [fst] in Hks.
  destruct (value_split value Hv) as (Hs & Hix & _).
  replace (v_type value) with ty by lia. replace (v_index value) with ix by lia.
  unfold find_desc. rewrite Ha. apply (increasing_in_assoc _ _ 0); assumption.
Qed.

(* DONE counts as quiet: a generator spends one cycle there after its last byte, when the specification machine is idle
   again, and a request made in that cycle sets the start register all the same (quiet_step) *)
Definition quiet (s : bool * cg_state) : Prop := fst s = false /\ (g_fsm (snd s) = IDLE \/ g_fsm (snd s) = DONE).
Definition armed (s : bool * cg_state) : Prop := fst s = true /\ g_fsm (snd s) = IDLE.
(* `sent` bytes of the answer to q have been sent, the next one is on the stream *)
Definition streaming (mps : N) (q : dreq) (g : dgen) (s : bool * cg_state) (sent : N) : Prop :=
  fst s = false /\ g_fsm (snd s) = STREAMING /\ g_sent (snd s) = sent /\ g_pos (snd s) = q_sp q + sent /\
  g_ml (snd s) = lenq mps q /\ g_rd (snd s) = nth (N.to_nat (q_sp q + sent)) (snd g) 0.

Lemma gen_step_eq : forall mps g s i,
  gen_step mps g s i =
  let gi := cg_in (gen_cfg (snd g)) (fst s) (i_sp i) (ds_len mps i) ((fst g =? i_value i) && i_ready i) in
  ((if fst g =? i_value i then i_start i && negb (past_end mps (snd g) i) else fst s, cg_next (gen_cfg (snd g)) (snd s) gi),
   cg_out (gen_cfg (snd g)) (snd s) gi).
Proof. reflexivity. Qed.

Lemma resting_out : forall mps g s i, g_fsm (snd s) = IDLE \/ g_fsm (snd s) = DONE ->
  trunc 11 (snd (gen_step mps g s i)) = 0.
Proof.
  intros mps g s i Hf. rewrite gen_step_eq, gen_cfg_eq. cbv zeta. cbn [snd]. unfold cg_out, pack_quiet.
  destruct Hf as [-> | ->]; rewrite trunc11_pack by (try reflexivity; lia); reflexivity.
Qed.

Lemma quiet_step : forall mps g s i, quiet s ->
  g_fsm (snd (fst (gen_step mps g s i))) = IDLE /\
  fst (fst (gen_step mps g s i)) = (fst g =? i_value i) && (i_start i && negb (past_end mps (snd g) i)).
Proof.
  intros mps g s i (Hr & Hf). rewrite gen_step_eq. cbv zeta. cbn [fst snd]. rewrite Hr. split.
  - unfold cg_next. destruct Hf as [-> | ->]; cbn [g_fsm]; [rewrite cg_in_start|]; reflexivity.
  - destruct (fst g =? i_value i); reflexivity.
Qed.

Lemma quiet_unselected : forall mps g s i, quiet s -> fst g <> i_value i -> quiet (fst (gen_step mps g s i)).
Proof.
  intros mps g s i Hq Hk. destruct (quiet_step mps g s i Hq) as [Hf Hr]. apply N.eqb_neq in Hk. rewrite Hk in Hr.
  split; [exact Hr | left; exact Hf].
Qed.

Lemma quiet_env : forall mps g s i, quiet s -> gen_env mps g s i = true.
Proof. intros mps g s i (Hr & Hf). unfold gen_env. rewrite Hr. destruct Hf as [-> | ->]; reflexivity. Qed.

Section Refine.
  Variable c : dcoll.
  Variable mps : N.
  Hypothesis F : coll_facts c.
  Hypothesis Hgens : gens_okb (dist_gens c) = true.
  Hypothesis Hmps : 1 <= mps.

  Local Notation gens := (dist_gens c).
  Local Notation resp := (resp_of c mps).
  Local Notation lat := (ds_lat c).
  Local Notation lenq := (DescCommon.lenq mps).
  Local Notation fd := (DescCommon.fd c).
  Local Notation serving := (serving c mps).
  Local Notation legal := (DescCommon.legal c).

  (* the generator q selects satisfies P, all others are quiet *)
  Definition bank (q : dreq) (P : dgen -> bool * cg_state -> Prop) (st : ds_state) : Prop :=
    Forall2 (fun g s => if fst g =? q_value q then P g s else quiet s) gens (d_gens st).
  Definition all_quiet (st : ds_state) : Prop := Forall2 (fun _ s => quiet s) gens (d_gens st).

  Inductive rel (st : ds_state) : sstate -> Prop :=
  | R_idle : d_zlp st = false -> all_quiet st -> rel st SIdle
  | R_zlp : forall q d, fd q = Some d -> nlen d <= q_sp q -> d_zlp st = true -> all_quiet st ->
      rel st (SWait 0 q)
  | R_armed : forall q d, legal q -> fd q = Some d -> q_sp q < nlen d -> d_zlp st = false ->
      bank q (fun _ s => armed s) st -> rel st (SWait 1 q)
  | R_stream : forall q d sent s, serving d q sent s -> d_zlp st = false ->
      bank q (fun g s => streaming mps q g s sent) st -> rel st s.

  Definition cycle_ok (st : ds_state) (s : sstate) (i : N) : Prop :=
    ds_out gens mps st i = snd (s_step resp lat s i) /\ rel (ds_next gens mps st i) (fst (s_step resp lat s i)) /\
    ds_env gens mps st i = true.

  Lemma sel_fd : forall q, q_bounded q -> sel_desc gens (q_value q) = fd q.
  Proof. intros q (Hv & _). apply sel_desc_find; assumption. Qed.

  Lemma key_fd : forall q g, q_bounded q -> In g gens -> fst g = q_value q -> fd q = Some (snd g).
  Proof. intros q g (Hv & _) Hin Hk. apply (gen_key_find c g (q_value q)); assumption. Qed.

  Lemma bank_quiet : forall q st, bank q (fun _ s => quiet s) st -> all_quiet st.
  Proof. intros q st. apply Forall2_impl. intros g s H. destruct (fst g =? q_value q); exact H. Qed.

  Lemma bank_step : forall q d (P Q : dgen -> bool * cg_state -> Prop) o st i, q_bounded q -> fd q = Some d ->
    bank q P st -> i_value i = q_value q ->
    (forall g s, In g gens -> fst g = q_value q -> P g s ->
       trunc 11 (snd (gen_step mps g s i)) = o /\ Q g (fst (gen_step mps g s i)) /\ gen_env mps g s i = true) ->
    ds_out gens mps st i = N.lor o (if d_zlp st then 5 else 0) /\
    bank q Q (ds_next gens mps st i) /\ gens_env mps gens (d_gens st) i = true.
  Proof.
    intros q d P Q o st i Hq Efd Hb Ev HPQ.
    assert (H : forall g s, In g gens -> (if fst g =? q_value q then P g s else quiet s) ->
              (if fst g =? q_value q then Q g (fst (gen_step mps g s i)) else quiet (fst (gen_step mps g s i))) /\
              gen_env mps g s i = true).
    { intros g s Hin Hp. destruct (N.eqb_spec (fst g) (q_value q)) as [Hk|Hk]; [apply HPQ; assumption|].
      split; [apply quiet_unselected; congruence | apply quiet_env; exact Hp]. }
    split; [|split; [apply (gens_next_forall2 mps i _ _ _ _ Hb) | apply (gens_env_forall2 mps i _ _ _ Hb)];
               intros g s Hin Hp; apply (H g s Hin Hp)].
    (* the Switch connects a generator with the key of q *)
    pose proof (sel_out_spec mps i _ _ _ Hb) as Hsel. rewrite Ev, (sel_fd q Hq), Efd in Hsel.
    destruct Hsel as (g & s & Hin & Hk & Hp & Hsel). rewrite Hk, N.eqb_refl in Hp.
    unfold ds_out. rewrite Hsel, (proj1 (HPQ g s Hin Hk Hp)). reflexivity.
  Qed.

  Lemma quiet_bank_out : forall st i, all_quiet st ->
    ds_out gens mps st i = (if d_zlp st then 5 else 0) +
                           (if i_start i then match sel_desc gens (i_value i) with Some _ => 0 | None => 2048 end else 0).
  Proof.
    intros st i H. unfold ds_out. pose proof (sel_out_spec mps i _ _ _ H) as Ho.
    destruct (sel_desc gens (i_value i)).
    - destruct Ho as (g & s & _ & _ & Hp & ->). rewrite resting_out by apply Hp.
      destruct (d_zlp st), (i_start i); reflexivity.
    - rewrite Ho. reflexivity.
  Qed.

  Lemma env_low : forall st i, i_start i = false -> gens_env mps gens (d_gens st) i = true -> ds_env gens mps st i = true.
  Proof. intros st i Hs Hg. unfold ds_env. rewrite Hg, Hs. destruct (d_zlp st); reflexivity. Qed.

  Lemma zlp_low : forall st i, i_start i = false -> d_zlp (ds_next gens mps st i) = false.
  Proof. intros st i Hs. unfold ds_next. cbn [d_zlp]. rewrite Hs. destruct (sel_desc gens (i_value i)); reflexivity. Qed.

  Lemma quiet_bank_next : forall (P : dgen -> bool * cg_state -> Prop) st i, all_quiet st ->
    (forall g s, In g gens -> fst g = i_value i -> g_fsm (snd s) = IDLE ->
                 fst s = i_start i && negb (past_end mps (snd g) i) -> P g s) ->
    bank (req_of i) P (ds_next gens mps st i).
  Proof.
    intros P st i Hq HP. apply (gens_next_forall2 mps i _ _ _ _ Hq). intros g s Hin Hs.
    change (q_value (req_of i)) with (i_value i).
    destruct (N.eqb_spec (fst g) (i_value i)) as [E|E]; [|apply quiet_unselected; assumption].
    destruct (quiet_step mps g s i Hs) as [Hf Hr]. rewrite E, N.eqb_refl in Hr. apply HP; assumption.
  Qed.

  Lemma quiet_bank_env : forall st i, all_quiet st -> gens_env mps gens (d_gens st) i = true.
  Proof. intros st i Hq. exact (gens_env_forall2 mps i _ _ _ Hq (fun g s _ => quiet_env mps g s i)). Qed.

  Lemma quiet_cycle : forall st i, all_quiet st -> i_start i = false ->
    ds_out gens mps st i = (if d_zlp st then 5 else 0) /\ rel (ds_next gens mps st i) SIdle /\ ds_env gens mps st i = true.
  Proof.
    intros st i Hq Es. rewrite (quiet_bank_out st i Hq), Es.
    split; [apply N.add_0_r|]. split; [|apply env_low; [exact Es | apply quiet_bank_env; exact Hq]].
    apply R_idle; [apply zlp_low; exact Es|]. apply (bank_quiet (req_of i)), quiet_bank_next; [exact Hq|].
    intros g s _ _ Hf Hr. rewrite Es in Hr. split; [exact Hr | left; exact Hf].
  Qed.

  Lemma armed_step : forall q d g s i, legal q -> fd q = Some d -> q_sp q < nlen d -> held q i = true ->
    In g gens -> fst g = q_value q -> armed s ->
    trunc 11 (snd (gen_step mps g s i)) = 0 /\ streaming mps q g (fst (gen_step mps g s i)) 0 /\
    gen_env mps g s i = true.
  Proof.
    intros q d g s i Hl Efd Hsp HE Hin Hk (Hr & Hf). destruct (held_fields _ _ HE) as (Ev & Ew & Esp & Est).
    pose proof (held_len c mps q i Hl Ew Esp : ds_len mps i = lenq q) as Hlen.
    destruct (lenq_bounds c mps q Hmps Hl) as [Hl1 Hl2]. destruct Hl as [Hqb Hleg].
    pose proof (key_fd q g Hqb Hin Hk) as E. rewrite Efd in E. injection E as ->.
    pose proof (gen_width (snd g)) as Hw.
    split; [apply resting_out; left; exact Hf|].
    split; [|unfold gen_env; rewrite Hf, Hr, Ev, Hk, N.eqb_refl, Est; reflexivity].
    clear HE Hleg. (* lia would split cases on their boolean atoms *)
    rewrite gen_step_eq, Hk, Ev, N.eqb_refl, Est, Hr, Esp, Hlen, gen_cfg_eq. cbv zeta. cbn [fst snd andb].
    unfold streaming, cg_next. rewrite Hf. cbn [fst snd g_fsm g_sent g_pos g_ml g_rd].
    rewrite cg_in_start, cg_in_ml by reflexivity. unfold sp_eff, rom, nwords. rewrite cg_in_sp.
    cbn [c_hasml c_mlw c_dlen c_spw c_posw c_words]. rewrite N.add_0_r.
    rewrite !(trunc_small (N.size _)), (trunc_small 16) by (change (2 ^ 16) with 65536; lia).
    destruct (N.leb_spec (nlen (snd g)) (q_sp q)); [lia|]. destruct (N.ltb_spec 0 (lenq q)); [|lia].
    repeat split.
  Qed.

  Lemma stream_step : forall q d g s sent i, legal q -> fd q = Some d -> q_sp q + sent < nlen d ->
    held q i = true -> In g gens -> fst g = q_value q -> streaming mps q g s sent ->
    let last := (nlen d =? q_sp q + sent + 1) || (lenq q <=? sent + 1) in
    let s' := fst (gen_step mps g s i) in
    trunc 11 (snd (gen_step mps g s i)) = o_beat (nth (N.to_nat (q_sp q + sent)) d 0) (sent =? 0) last /\
    (if i_ready i then if last then quiet s' else streaming mps q g s' (sent + 1) else streaming mps q g s' sent) /\
    gen_env mps g s i = true.
  Proof.
    intros q d g s sent i Hl Efd Hp HE Hin Hk (Hr & Hf & Hsent & Hpos & Hml & Hrd). cbv zeta.
    destruct (held_fields _ _ HE) as (Ev & Ew & Esp & Est).
    pose proof (held_len c mps q i Hl Ew Esp : ds_len mps i = lenq q) as Hlen.
    destruct (lenq_bounds c mps q Hmps Hl) as [_ Hl2]. destruct Hl as [Hqb Hleg].
    pose proof (key_fd q g Hqb Hin Hk) as E. rewrite Efd in E. injection E as ->.
    destruct (gen_ok_facts g (gens_ok_in _ g Hgens Hin)) as (Hbytes & _). pose proof (gen_width (snd g)) as Hw.
    assert (Henv : gen_env mps g s i = true).
    { unfold gen_env. rewrite Hf, Ev, Hk, N.eqb_refl, Est, Esp, Hsent, Hpos, Hlen, Hml, !N.eqb_refl. reflexivity. }
    clear HE Hleg. (* lia would split cases on their boolean atoms *)
    rewrite gen_step_eq, Hk, Ev, N.eqb_refl, Est, Hr, Esp, gen_cfg_eq. cbv zeta. cbn [fst snd andb].
    unfold cg_out, cg_next, ConstGen.on_first, ConstGen.on_last, e_data, e_max, mlv, bps, g_valid, nwords, rom.
    rewrite Hf, cg_in_sp, cg_in_ready by reflexivity.
    cbn [c_hasml c_mlw c_bpw c_vw c_dlen c_spw c_posw c_words N.eqb Pos.eqb]. fold (nlen (snd g)).
    rewrite Hpos, Hsent, Hml, Hrd, (trunc_small (N.size _)) by lia.
    replace (q_sp q + sent =? nlen (snd g) - 1) with (nlen (snd g) =? q_sp q + sent + 1) by lia.
    replace (q_sp q + sent =? q_sp q) with (sent =? 0) by lia.
    split; [|split; [|exact Henv]].
    - rewrite trunc11_pack; [reflexivity | reflexivity | reflexivity | lia | apply bytes_ok_nth, Hbytes].
    - destruct (i_ready i); [destruct (_ || _) eqn:El|].
      + split; [reflexivity | right; reflexivity].
      + (* accepted and not the last byte (El): position and count stay below their widths, so neither wraps *)
        rewrite (trunc_small (N.size _)), (trunc_small 16) by (change (2 ^ 16) with 65536; lia).
        rewrite <- N.add_assoc. repeat split.
      + repeat split.
  Qed.

  Lemma idle_cycle : forall st i, d_zlp st = false -> all_quiet st -> i_start i = false -> cycle_ok st SIdle i.
  Proof.
    intros st i Hz Hq Es. unfold cycle_ok. cbn [s_step]. rewrite Es.
    pose proof (quiet_cycle st i Hq Es) as H. rewrite Hz in H. exact H.
  Qed.

  Lemma zlp_cycle : forall st q d i, fd q = Some d -> nlen d <= q_sp q -> d_zlp st = true -> all_quiet st ->
    held q i = true -> cycle_ok st (SWait 0 q) i.
  Proof.
    intros st q d i Efd Hpe Hz Hq HE. destruct (held_fields _ _ HE) as (_ & _ & _ & Es).
    unfold cycle_ok. cbn [s_step]. rewrite wait_now, (deliver_zlp c mps q d i Efd Hpe).
    pose proof (quiet_cycle st i Hq Es) as H. rewrite Hz in H. exact H.
  Qed.

  Lemma request_cycle : forall st i, d_zlp st = false -> all_quiet st -> i_start i = true ->
    req_legal c (req_of i) = true -> cycle_ok st SIdle i.
  Proof.
    intros st i Hz Hq Es HE. unfold cycle_ok. cbn [s_step].
    rewrite (quiet_bank_out st i Hq), Hz, Es.
    set (q := req_of i) in *. pose proof (req_of_bounded i : q_bounded q) as Hb.
    assert (Hsel : sel_desc gens (i_value i) = fd q) by apply (sel_fd q Hb). rewrite Hsel.
    assert (Henv : ds_env gens mps st i = true).
    { unfold ds_env. rewrite (quiet_bank_env st i Hq), Hz, Es, Hsel. exact HE. }
    assert (Hzn : d_zlp (ds_next gens mps st i) = match fd q with Some d => past_end mps d i | None => false end).
    { unfold ds_next. cbn [d_zlp]. rewrite Hsel, Es. reflexivity. }
    pose proof (conj Hb HE : legal q) as Hl.
    pose proof (held_len c mps q i Hl eq_refl eq_refl : ds_len mps i = lenq q) as Hlen.
    destruct (lenq_bounds c mps q Hmps Hl) as [Hl1 _].
    unfold ds_lat. fold (fd q). destruct (fd q) as [d|] eqn:Efd.
    - (* something of wLength remains, so past_end only asks whether start_position is at the end of d *)
      assert (Hpe : forall d', past_end mps d' i = (nlen d' <=? q_sp q)).
      { intros d'. unfold past_end. rewrite Hlen. destruct (N.eqb_spec (lenq q) 0) as [E|_]; [|apply orb_false_r].
        exfalso. clear -Hl1 E. lia. }
      rewrite Hpe in Hzn.
      assert (Hstart : forall g (s : bool * cg_state), In g gens -> fst g = i_value i ->
                fst s = i_start i && negb (past_end mps (snd g) i) -> fst s = negb (nlen d <=? q_sp q)).
      { intros g s Hin Hk Hr. pose proof (key_fd q g Hb Hin Hk) as E. rewrite Efd in E. injection E as ->.
        rewrite Hr, Es, Hpe. reflexivity. }
      rewrite wait_later by (destruct (nlen d <=? q_sp q); discriminate). split; [reflexivity|]. split; [|exact Henv].
      revert Hzn Hstart. destruct (N.leb_spec (nlen d) (q_sp q)) as [Hpe'|Hpe']; intros Hzn Hstart.
      + apply (R_zlp _ q d); try assumption.
        apply (bank_quiet q), quiet_bank_next; [exact Hq|]. intros g s Hin Hk Hf Hr.
        split; [exact (Hstart g s Hin Hk Hr) | left; exact Hf].
      + apply (R_armed _ q d); try assumption.
        apply quiet_bank_next; [exact Hq|]. intros g s Hin Hk Hf Hr.
        split; [exact (Hstart g s Hin Hk Hr) | exact Hf].
    - (* no such descriptor *)
      rewrite wait_now, (deliver_absent c mps q i Efd). split; [reflexivity|]. split; [|exact Henv].
      apply R_idle; [exact Hzn|]. apply (bank_quiet q), quiet_bank_next; [exact Hq|]. intros g s Hin Hk _ _.
      pose proof (key_fd q g Hb Hin Hk). congruence.
  Qed.

  Lemma armed_cycle : forall st q d i, legal q -> fd q = Some d -> q_sp q < nlen d -> d_zlp st = false ->
    bank q (fun _ s => armed s) st -> held q i = true -> cycle_ok st (SWait 1 q) i.
  Proof.
    intros st q d i Hl Efd Hsp Hz Hb HE. destruct (held_fields _ _ HE) as (Ev & _ & _ & Est).
    destruct (bank_step q d _ (fun g s => streaming mps q g s 0) 0 st i (proj1 Hl) Efd Hb Ev
                (fun g s => armed_step q d g s i Hl Efd Hsp HE)) as (Hout & Hnext & Henv).
    unfold cycle_ok. cbn [s_step]. rewrite wait_later, Hout, Hz by discriminate.
    split; [reflexivity|]. split; [|apply env_low; assumption].
    apply (R_stream _ q d 0); [apply serving_begin; assumption | apply zlp_low; exact Est | exact Hnext].
  Qed.

  Lemma stream_cycle : forall st q d sent s i, serving d q sent s -> d_zlp st = false ->
    bank q (fun g s => streaming mps q g s sent) st -> held q i = true -> cycle_ok st s i.
  Proof.
    intros st q d sent s i Hs Hz Hb HE. destruct (held_fields _ _ HE) as (Ev & _ & _ & Est).
    pose proof Hs as (Hl & Efd & Hp & _).
    destruct (serving_step c mps lat d q sent s i Hs) as [Ho Hn]. cbv zeta in Hn.
    set (last := (nlen d =? q_sp q + sent + 1) || (lenq q <=? sent + 1)) in *.
    destruct (bank_step q d _ (fun g s => if i_ready i then if last then quiet s else streaming mps q g s (sent + 1)
                                          else streaming mps q g s sent) _ st i (proj1 Hl) Efd Hb Ev
                (fun g s => stream_step q d g s sent i Hl Efd Hp HE)) as (Hout & Hnext & Henv).
    unfold cycle_ok. rewrite Hout, Hz, N.lor_0_r, Ho. split; [reflexivity|]. split; [|apply env_low; assumption].
    pose proof (zlp_low st i Est) as Hz'. revert Hn Hnext. destruct (i_ready i); [destruct last|]; intros Hn Hnext.
    - rewrite Hn. apply R_idle; [exact Hz' | exact (bank_quiet q _ Hnext)].
    - apply (R_stream _ q d (sent + 1)); assumption.
    - apply (R_stream _ q d sent); assumption.
  Qed.

  Lemma rel_step : forall st s i, rel st s -> s_env (req_legal c) s i = true -> cycle_ok st s i.
  Proof.
    intros st s i HR HE. destruct HR.
    - cbn [s_env] in HE. destruct (i_start i) eqn:Es; [apply request_cycle | apply idle_cycle]; assumption.
    - eapply zlp_cycle; eassumption.
    - eapply armed_cycle; eassumption.
    - rewrite (serving_env c mps _ d q sent s i) in HE by assumption. eapply stream_cycle; eassumption.
  Qed.

  Theorem dist_refines_from : forall tr st s, rel st s ->
    env_ok sstate (s_step resp lat) (s_env (req_legal c)) s tr = true ->
    run (ds_step gens mps) st tr = run (s_step resp lat) s tr /\
    env_ok ds_state (ds_step gens mps) (ds_env gens mps) st tr = true.
  Proof.
    induction tr as [|i t IH]; intros st s HR HE; [split; reflexivity|].
    cbn [env_ok] in HE. apply andb_true_iff in HE as [HE1 HE2].
    destruct (rel_step st s i HR HE1) as (Ho & Hn & Hv).
    cbn [run env_ok ds_step fst]. destruct (s_step resp lat s i) as [s' o] eqn:Es. cbn [fst snd] in *.
    destruct (IH _ _ Hn HE2) as [IH1 IH2]. rewrite Ho, Hv, IH1, IH2. split; reflexivity.
  Qed.

  Lemma rel_init : rel (ds_init gens) SIdle.
  Proof.
    apply R_idle; [reflexivity|]. apply ds_init_forall2. intros g _. split; [reflexivity | left; reflexivity].
  Qed.
End Refine.

Definition dist_okb (c : dcoll) : bool := gens_okb (dist_gens c).

(* C09, handler with the zero-length-packet fix 9ef863f; a legal request sequence also satisfies ds_env, under which the
   netlist is tied to the model *)
Theorem dist_refines : forall c mps, coll_okb c = true -> dist_okb c = true -> 1 <= mps /\ mps < 65536 -> forall tr,
  env_ok sstate (s_step (resp_of c mps) (ds_lat c)) (s_env (req_legal c)) SIdle tr = true ->
  run (ds_step (dist_gens c) mps) (ds_init (dist_gens c)) tr = run (s_step (resp_of c mps) (ds_lat c)) SIdle tr /\
  env_ok ds_state (ds_step (dist_gens c) mps) (ds_env (dist_gens c) mps) (ds_init (dist_gens c)) tr = true.
Proof.
  intros c mps Hc Hd Hm tr HE.
  apply (dist_refines_from c mps (coll_ok_facts c Hc) Hd (proj1 Hm)); [apply rel_init | exact HE].
Qed.

Lemma cg_enc_lt : forall d st, nlen d < 2048 -> cg_wf (gen_cfg d) st -> g_rd st < 256 ->
  cg_enc (gen_cfg d) st < 2 ^ 53.
Proof.
  intros d st HL Hwf Hr. rewrite gen_cfg_eq in *. destruct Hwf as (Hp & Hs & Hm). unfold cg_enc, ConstGen.pair.
  cbn [c_posw c_mlw] in *.
  assert (Hf : match g_fsm st with IDLE => 0 | STREAMING => 1 | DONE => 2 end < 2 ^ 2) by (destruct (g_fsm st); reflexivity).
  (* 2 bits of fsm, the position (at most 11, as nlen d < 2048), 16 of g_sent, 16 of g_ml, 8 of g_rd: at most 53 *)
  pose proof (pair_lt 16 8 _ _ Hm Hr) as H1. pose proof (pair_lt 16 _ _ _ Hs H1) as H2.
  pose proof (pair_lt _ _ _ _ Hp H2) as H3. pose proof (pair_lt 2 _ _ _ Hf H3) as H4.
  eapply N.lt_le_trans; [exact H4|]. apply pow2_le_mono.
  assert (N.size (nlen d - 1) <= 11) by (apply size_le_of_lt; change (2 ^ 11) with 2048; lia). lia.
Qed.

Lemma gen_dec_enc : forall g s, gen_wf g s -> gen_dec g (gen_enc g s) = s.
Proof.
  intros g [r st] (Hwf & _). unfold gen_dec, gen_enc. cbn [fst snd] in *.
  rewrite odd_b2n_add_2, div2_b2n_add_2, cg_dec_enc by exact Hwf. reflexivity.
Qed.

Lemma gen_enc_lt : forall g s, gen_wf g s -> gen_enc g s < 2 ^ 64.
Proof.
  intros g [r st] (Hwf & Hrd & Hok). unfold gen_enc. cbn [fst snd] in *.
  destruct (gen_ok_facts g Hok) as (_ & _ & HL).
  pose proof (cg_enc_lt (snd g) st HL Hwf Hrd) as H. pose proof (b2n_lt2 r). lia.
Qed.

Lemma gens_dec_enc : forall gs ss, Forall2 gen_wf gs ss -> gens_dec gs (gens_enc gs ss) = ss.
Proof.
  induction 1 as [|g s gs ss Hw _ IH]; [reflexivity|]. cbn [gens_enc gens_dec].
  rewrite unpair_lo, unpair_hi, gen_dec_enc, IH by (try apply gen_enc_lt; exact Hw). reflexivity.
Qed.

Lemma gens_enc_lt : forall gs ss, Forall2 gen_wf gs ss -> gens_enc gs ss < 2 ^ (64 * nlen gs).
Proof.
  induction 1 as [|g s gs ss Hw _ IH]; [reflexivity|]. cbn [gens_enc].
  replace (64 * nlen (g :: gs)) with (64 + 64 * nlen gs) by (unfold nlen; cbn [length]; lia).
  apply pair_lt; [apply gen_enc_lt; exact Hw | exact IH].
Qed.

Lemma ds_enc_lt : forall gens st, ds_wf gens st -> ds_enc gens st < 2 ^ (1 + 64 * nlen gens).
Proof.
  intros gens st H. unfold ds_enc. pose proof (gens_enc_lt gens (d_gens st) H). pose proof (b2n_lt2 (d_zlp st)).
  rewrite N.pow_add_r. change (2 ^ 1) with 2. lia.
Qed.

Lemma ds_dec_enc : forall gens st, ds_wf gens st -> ds_dec gens (ds_enc gens st) = st.
Proof.
  intros gens [z ss] H. unfold ds_dec, ds_enc, ds_wf in *. cbn [d_zlp d_gens] in *.
  rewrite odd_b2n_add_2, div2_b2n_add_2, gens_dec_enc by exact H. reflexivity.
Qed.

Lemma rom_lt : forall d a, bytes_ok d -> rom (gen_cfg d) a < 256.
Proof.
  intros d a H. rewrite gen_cfg_eq. apply bytes_ok_nth, H.
Qed.

Lemma cg_next_rd_lt : forall d st i, bytes_ok d -> g_rd (cg_next (gen_cfg d) st i) < 256.
Proof.
  intros d st i H. unfold cg_next.
  destruct (g_fsm st); [| destruct (ConstGen.i_ready (gen_cfg d) i); [destruct (ConstGen.on_last (gen_cfg d) st)|] |];
    cbn [g_rd]; apply rom_lt; exact H.
Qed.

Lemma gen_wf_step : forall mps g s i, gen_wf g s -> gen_wf g (fst (gen_step mps g s i)).
Proof.
  intros mps g [r st] i (Hwf & Hrd & Hok). destruct (gen_ok_facts g Hok) as (Hb & H1 & _).
  unfold gen_step, gen_wf. cbn [fst snd].
  split; [apply cg_wf_step; [apply gen_cfg_ok|]; assumption | split; [apply cg_next_rd_lt; exact Hb | exact Hok]].
Qed.

Lemma ds_wf_step : forall gens mps st i, ds_wf gens st -> ds_wf gens (fst (ds_step gens mps st i)).
Proof.
  intros gens mps st i H. apply (gens_next_forall2 mps i _ _ _ _ H). intros g s _. apply gen_wf_step.
Qed.

Lemma ds_wf_init : forall gens, gens_okb gens = true -> ds_wf gens (ds_init gens).
Proof.
  intros gens H. apply ds_init_forall2. intros g Hin.
  pose proof (gens_ok_in gens g H Hin) as Hok. destruct (gen_ok_facts g Hok) as (Hb & _ & _).
  split; [apply cg_wf_init | split; [apply rom_lt; exact Hb | exact Hok]].
Qed.
