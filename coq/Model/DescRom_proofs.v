(* C09 -- layout lemmas about the ROM image rom_of (Model/DescRom.v): walking the image the way
   GetDescriptorHandlerBlock does (type table -> index table -> data bytes) finds, for every well-formed
   collection, exactly the descriptor find_desc names, and reports "absent" for every other (type, index). *)
From Coq Require Import NArith Arith List Bool Lia ZifyBool.
Import ListNotations.
From LunaLib Require Import Netlist BitFacts ListFacts.
From LunaModel Require Import DescSpec DescSpec_proofs DescRom.
Open Scope N_scope.

Lemma e_hi_entry : forall hi lo, hi < 65536 -> lo < 65536 -> e_hi (entry hi lo) = hi.
Proof.
  intros hi lo Hh Hl. unfold e_hi, entry. change 65536 with (2 ^ 16) in *.
  rewrite bits_spec, N.add_comm, N.mul_comm, digit_div by exact Hl. apply N.mod_small, Hh.
Qed.

Lemma e_lo_entry : forall hi lo, lo < 65536 -> e_lo (entry hi lo) = lo.
Proof.
  intros hi lo Hl. unfold e_lo, entry. change 65536 with (2 ^ 16) in *.
  rewrite bits_0, N.add_comm, N.mul_comm. apply digit_mod, Hl.
Qed.

(* the word address LOOKUP_DESCRIPTOR forms from an index-table entry and the start position *)
Lemma lookup_addr : forall aw h B p, aw <= 14 -> B + p / 4 < 2 ^ aw ->
  trunc aw (N.shiftr (entry h (4 * B) + p) 2) = B + p / 4.
Proof.
  intros aw h B p Haw Hx. rewrite N.shiftr_div_pow2. change (2 ^ 2) with 4. unfold entry.
  replace (h * 65536 + 4 * B + p) with (p + (h * 16384 + B) * 4) by lia. rewrite N.div_add by discriminate.
  replace (p / 4 + (h * 16384 + B)) with (B + p / 4 + 2 ^ aw * (2 ^ (14 - aw) * h)).
  - rewrite trunc_mod. apply digit_mod. exact Hx.
  - rewrite N.mul_assoc, <- N.pow_add_r. replace (aw + (14 - aw)) with 14 by lia. change (2 ^ 14) with 16384. lia.
Qed.

(* the word pointer the gateware extracts: data.bit_select(2, aw) of an entry whose low half is 4*a *)
Lemma ptr_entry : forall hi a aw, a < 2 ^ aw -> aw <= 14 -> bits (entry hi (4 * a)) 2 aw = a.
Proof.
  intros hi a aw Ha Haw. pose proof (lookup_addr aw hi a 0 Haw) as H. change (0 / 4) with 0 in H.
  rewrite !N.add_0_r in H. exact (H Ha).
Qed.

Lemma byte_lane_be32 : forall b0 b1 b2 b3, b0 < 256 -> b1 < 256 -> b2 < 256 -> b3 < 256 ->
  byte_lane (be32 b0 b1 b2 b3) 0 = b0 /\ byte_lane (be32 b0 b1 b2 b3) 1 = b1 /\
  byte_lane (be32 b0 b1 b2 b3) 2 = b2 /\ byte_lane (be32 b0 b1 b2 b3) 3 = b3.
Proof.
  intros b0 b1 b2 b3 H0 H1 H2 H3. set (L := [(8, b3); (8, b2); (8, b1); (8, b0)]).
  assert (HL : fields_ok L) by (repeat constructor; assumption).
  replace (be32 b0 b1 b2 b3) with (fields_word L) by (unfold be32; cbn [fields_word L]; lia).
  repeat split; [exact (bits_fields_word L 3 HL) | exact (bits_fields_word L 2 HL) |
                 exact (bits_fields_word L 1 HL) | exact (bits_fields_word L 0 HL)].
Qed.

Lemma assoc_app : forall (A : Type) k (a b : list (N * A)),
  assoc k (a ++ b) = match assoc k a with Some v => Some v | None => assoc k b end.
Proof.
  induction a as [|[k' v] a IH]; intros b; [reflexivity|].
  cbn [app assoc]. destruct (k' =? k); [reflexivity | apply IH].
Qed.

Lemma assoc_in : forall (A : Type) k (l : list (N * A)) v, assoc k l = Some v -> In (k, v) l.
Proof.
  induction l as [|[k' v'] r IH]; intros v H; [discriminate|]. cbn [assoc] in H.
  destruct (N.eqb_spec k' k); [inversion H; subst; left; reflexivity | right; apply IH; exact H].
Qed.

Lemma increasing_cons : forall (A : Type) lo k (v : A) r,
  increasing lo ((k, v) :: r) = true <-> lo <= k /\ increasing (k + 1) r = true.
Proof. intros. cbn [increasing]. rewrite andb_true_iff, N.leb_le. reflexivity. Qed.

Lemma increasing_assoc_below : forall (A : Type) (l : list (N * A)) lo k, increasing lo l = true -> k < lo -> assoc k l = None.
Proof.
  induction l as [|[k' v] r IH]; intros lo k H Hk; [reflexivity|].
  apply increasing_cons in H as [H1 H2]. cbn [assoc].
  destruct (N.eqb_spec k' k); [lia|]. apply (IH (k' + 1)); [exact H2 | lia].
Qed.

Lemma increasing_keys_ge : forall (A : Type) (l : list (N * A)) lo, increasing lo l = true -> Forall (fun p => lo <= fst p) l.
Proof.
  induction l as [|[k v] r IH]; intros lo H; [constructor|].
  apply increasing_cons in H as [H1 H2]. constructor; [cbn; lia|].
  eapply Forall_impl; [|apply (IH (k + 1) H2)]. cbn. intros; lia.
Qed.

Lemma increasing_in_assoc : forall (A : Type) (l : list (N * A)) lo k v, increasing lo l = true -> In (k, v) l -> assoc k l = Some v.
Proof.
  induction l as [|[k' v'] r IH]; intros lo k v H Hin; [contradiction|].
  apply increasing_cons in H as [H1 H2]. cbn [assoc].
  destruct Hin as [E|Hin].
  - inversion E; subst. rewrite N.eqb_refl. reflexivity.
  - destruct (N.eqb_spec k' k) as [->|NE]; [|apply (IH (k' + 1)); assumption].
    pose proof (increasing_keys_ge _ r (k + 1) H2) as Hge. rewrite Forall_forall in Hge.
    specialize (Hge _ Hin). cbn [fst] in Hge. lia.
Qed.

Lemma max_key_cons : forall (A : Type) k (v : A) r, max_key ((k, v) :: r) = N.max k (max_key r).
Proof. reflexivity. Qed.

Lemma fold_max_ge : forall (A : Type) (f : A -> N) l x, In x l -> f x <= fold_right (fun y m => N.max (f y) m) 0 l.
Proof.
  induction l as [|y r IH]; intros x H; [contradiction|].
  cbn [fold_right]. destruct H as [->|H]; [lia | specialize (IH x H); lia].
Qed.

Lemma max_key_ge : forall (A : Type) (l : list (N * A)) p, In p l -> fst p <= max_key l.
Proof. intros A l. exact (fold_max_ge _ fst l). Qed.

Lemma max_key_reach : forall (A : Type) (r : list (N * A)) k v, increasing (k + 1) r = true ->
  k + nlen ((k, v) :: r) <= max_key ((k, v) :: r) + 1.
Proof.
  induction r as [|[k' v'] r IH]; intros k v H; [cbn; lia|].
  apply increasing_cons in H as [H1 H2]. specialize (IH k' v' H2).
  rewrite max_key_cons. unfold nlen in *. cbn [length] in *. lia.
Qed.

Definition bytes_ok (d : desc) : Prop := Forall (fun b => b < 256) d.

Lemma bytes_ok_nth : forall d i, bytes_ok d -> nth i d 0 < 256.
Proof.
  intros d i H. destruct (Nat.lt_ge_cases i (length d)) as [Hi|Hi].
  - apply Forall_nth; assumption.
  - rewrite nth_overflow by exact Hi. reflexivity.
Qed.

Lemma words_head : forall d, nth 0 (words_of_bytes d) 0 = be32 (nth 0 d 0) (nth 1 d 0) (nth 2 d 0) (nth 3 d 0).
Proof. intros [|b0 [|b1 [|b2 [|b3 r]]]]; reflexivity. Qed.

Lemma words_bounds : forall n d, (length d <= n)%nat ->
  nlen d <= 4 * nlen (words_of_bytes d) /\ 4 * nlen (words_of_bytes d) < nlen d + 4.
Proof.
  induction n as [|n IH]; intros d H.
  - destruct d; [cbn; lia | cbn in H; lia].
  - destruct d as [|b0 [|b1 [|b2 [|b3 rest]]]]; try (cbn; lia).
    specialize (IH rest). cbn [words_of_bytes]. unfold nlen in *. cbn [length] in *. lia.
Qed.

Lemma words_cover : forall d : desc, nlen d <= 4 * nlen (words_of_bytes d).
Proof. intros d. apply (words_bounds (length d)). lia. Qed.

Lemma words_length : forall d, nlen (words_of_bytes d) = (nlen d + 3) / 4.
Proof.
  intros d. destruct (words_bounds (length d) d) as [H1 H2]; [lia|].
  apply (N.div_unique _ _ _ (nlen d + 3 - 4 * nlen (words_of_bytes d))); lia.
Qed.

Lemma padded_words : forall d, padded d = 4 * nlen (words_of_bytes d).
Proof. intros. unfold padded. rewrite words_length. reflexivity. Qed.

Lemma word_of_byte_lt : forall (d : desc) k, k < nlen d -> k / 4 < nlen (words_of_bytes d).
Proof. intros d k H. pose proof (words_cover d). apply N.div_lt_upper_bound; lia. Qed.

Lemma words_byte : forall j d l, bytes_ok d -> (l < 4)%nat -> (4 * j + l < length d)%nat ->
  byte_lane (nth j (words_of_bytes d) 0) (N.of_nat l) = nth (4 * j + l) d 0.
Proof.
  induction j as [|j IH]; intros d l Hb Hl Hk.
  - rewrite words_head.
    destruct (byte_lane_be32 (nth 0 d 0) (nth 1 d 0) (nth 2 d 0) (nth 3 d 0)) as (E0 & E1 & E2 & E3);
      try (apply bytes_ok_nth; exact Hb).
    destruct l as [|[|[|[|l]]]]; [exact E0 | exact E1 | exact E2 | exact E3 | lia].
  - destruct d as [|b0 [|b1 [|b2 [|b3 rest]]]]; cbn [length] in Hk; try lia.
    do 4 apply Forall_inv_tail in Hb.
    replace (4 * S j + l)%nat with (4 + (4 * j + l))%nat by lia. cbn [words_of_bytes nth Nat.add].
    apply IH; [exact Hb | exact Hl | lia].
Qed.

Lemma rom_read_app1 : forall a b x, x < nlen a -> rom_read (a ++ b) x = rom_read a x.
Proof. intros a b x H. apply app_nth1. unfold nlen in H. lia. Qed.

Lemma nth_app_nlen : forall (A : Type) (a b : list A) x d, nth (N.to_nat (nlen a + x)) (a ++ b) d = nth (N.to_nat x) b d.
Proof. intros. unfold nlen. rewrite N2Nat.inj_add, Nat2N.id. apply app_nth2_plus. Qed.

Lemma rom_read_app2 : forall a b n x, nlen a = n -> rom_read (a ++ b) (n + x) = rom_read b x.
Proof. intros a b n x <-. apply nth_app_nlen. Qed.

Lemma nth_map_nseq : forall (f : N -> N) n i d, (i < n)%nat -> nth i (map f (nseq n)) d = f (N.of_nat i).
Proof.
  intros f n i d H. unfold nseq. rewrite map_map, (nth_indep _ d (f (N.of_nat 0))) by (rewrite map_length, seq_length; exact H).
  rewrite (map_nth (fun k => f (N.of_nat k))), seq_nth by exact H. reflexivity.
Qed.

Definition wsum (ds : list desc) : N := nlen (flat_map words_of_bytes ds).

Lemma flat_map_at : forall (A B : Type) (f : A -> list B) l g d, (g < length l)%nat ->
  flat_map f l = flat_map f (firstn g l) ++ f (nth g l d) ++ flat_map f (skipn (S g) l).
Proof.
  intros A B f l g d H. rewrite <- (firstn_skipn g l) at 1. rewrite flat_map_app, (skipn_cons_nth l g d H). reflexivity.
Qed.

Lemma data_words_read : forall ds g j, (g < length ds)%nat -> j < nlen (words_of_bytes (nth g ds [])) ->
  rom_read (flat_map words_of_bytes ds) (wsum (firstn g ds) + j) = rom_read (words_of_bytes (nth g ds [])) j.
Proof.
  intros ds g j H Hj. rewrite (flat_map_at _ _ words_of_bytes ds g [] H). unfold wsum. rewrite rom_read_app2 by reflexivity.
  apply rom_read_app1, Hj.
Qed.

Lemma wsum_firstn_nth : forall ds g, (g < length ds)%nat ->
  wsum (firstn g ds) + nlen (words_of_bytes (nth g ds [])) <= wsum ds.
Proof. intros ds g H. unfold wsum. rewrite (flat_map_at _ _ words_of_bytes ds g [] H), !nlen_app. apply N.add_le_mono_l, N.le_add_r. Qed.

Lemma wsum_firstn_le : forall ds g, wsum (firstn g ds) <= wsum ds.
Proof.
  intros ds g. destruct (Nat.lt_ge_cases g (length ds)) as [H|H].
  - pose proof (wsum_firstn_nth ds g H). lia.
  - rewrite firstn_all2 by exact H. apply N.le_refl.
Qed.

Lemma index_entries_length : forall ds a, length (index_entries ds a) = length ds.
Proof. induction ds as [|d r IH]; intros a; [reflexivity|]. cbn [index_entries length]. rewrite IH. reflexivity. Qed.

Lemma index_entries_nth : forall ds w0 g, (g < length ds)%nat ->
  nth g (index_entries ds (4 * w0)) 0 = entry (nlen (nth g ds [])) (4 * (w0 + wsum (firstn g ds))).
Proof.
  induction ds as [|d r IH]; intros w0 g H; [cbn in H; lia|].
  destruct g as [|g]; cbn [index_entries nth firstn].
  - change (wsum []) with 0. rewrite N.add_0_r. reflexivity.
  - rewrite padded_words, <- N.mul_add_distr_l, IH by (cbn [length] in H; lia).
    change (wsum (d :: firstn g r)) with (nlen (words_of_bytes d ++ flat_map words_of_bytes (firstn g r))).
    rewrite nlen_app, N.add_assoc. reflexivity.
Qed.

Section Rom.
  Variable c : dcoll.
  Local Notation rom := (rom_of c).
  Local Notation ds := (all_descs c).

  Definition data_word (g : N) : N := ntypes c + nentries c + wsum (firstn (N.to_nat g) ds).

  Lemma type_table_nlen : nlen (map (type_entry c) (nseq (N.to_nat (ntypes c)))) = ntypes c.
  Proof. unfold nlen, nseq. rewrite !map_length, seq_length. apply N2Nat.id. Qed.

  Lemma index_table_nlen : forall a, nlen (index_entries ds a) = nentries c.
  Proof. intros a. unfold nlen. rewrite index_entries_length. reflexivity. Qed.

  Lemma rom_len : nlen rom = ntypes c + nentries c + wsum ds.
  Proof. unfold rom_of. rewrite !nlen_app, type_table_nlen, index_table_nlen. apply N.add_assoc. Qed.

  Lemma rom_type_read : forall t, t < ntypes c -> rom_read rom t = type_entry c t.
  Proof.
    intros t H. unfold rom_of. rewrite rom_read_app1 by (rewrite type_table_nlen; exact H).
    unfold rom_read. rewrite nth_map_nseq, N2Nat.id by lia. reflexivity.
  Qed.

  Lemma rom_index_read : forall g, g < nentries c ->
    rom_read rom (ntypes c + g) = entry (nlen (nth (N.to_nat g) ds [])) (4 * data_word g).
  Proof.
    intros g H. unfold rom_of. rewrite rom_read_app2 by apply type_table_nlen.
    rewrite rom_read_app1 by (rewrite index_table_nlen; exact H).
    apply index_entries_nth. unfold nentries, nlen in H. lia.
  Qed.

  Lemma rom_data_read : forall g j, g < nentries c -> j < nlen (words_of_bytes (nth (N.to_nat g) ds [])) ->
    rom_read rom (data_word g + j) = nth (N.to_nat j) (words_of_bytes (nth (N.to_nat g) ds [])) 0.
  Proof.
    intros g j H Hj. unfold rom_of, data_word. rewrite <- !N.add_assoc.
    rewrite rom_read_app2, rom_read_app2 by (apply type_table_nlen || apply index_table_nlen).
    apply data_words_read; [unfold nentries, nlen, desc in *; lia | exact Hj].
  Qed.

  (* byte k of descriptor number g, read the way SEND_DESCRIPTOR does *)
  Lemma rom_desc_byte : forall g k, g < nentries c -> bytes_ok (nth (N.to_nat g) ds []) ->
    k < nlen (nth (N.to_nat g) ds []) ->
    byte_lane (rom_read rom (data_word g + k / 4)) (k mod 4) = nth (N.to_nat k) (nth (N.to_nat g) ds []) 0.
  Proof.
    intros g k H Hb Hk. rewrite rom_data_read by (exact H || apply word_of_byte_lt, Hk).
    pose proof (N.div_mod k 4 ltac:(discriminate)) as E. pose proof (N.mod_lt k 4 ltac:(discriminate)) as Hl.
    rewrite <- (N2Nat.id (k mod 4)).
    replace (N.to_nat k) with (4 * N.to_nat (k / 4) + N.to_nat (k mod 4))%nat by lia.
    apply words_byte; [exact Hb | lia | unfold nlen in Hk; lia].
  Qed.

  Lemma data_word_bound : forall g, g < nentries c ->
    data_word g + nlen (words_of_bytes (nth (N.to_nat g) ds [])) <= nlen rom.
  Proof.
    intros g H. rewrite rom_len. unfold data_word.
    pose proof (wsum_firstn_nth ds (N.to_nat g) ltac:(unfold nentries, nlen in H; lia)). lia.
  Qed.
End Rom.

Lemma all_descs_nth : forall c ty idxs i, assoc ty c = Some idxs -> i < nlen idxs ->
  entries_before ty c + i < nentries c /\
  nth (N.to_nat (entries_before ty c + i)) (all_descs c) [] = snd (nth (N.to_nat i) idxs (0, [])).
Proof.
  induction c as [|[ty0 idxs0] r IH]; intros ty idxs i H Hi; [discriminate|].
  cbn [assoc entries_before] in *. unfold nentries, all_descs in *. cbn [flat_map fst snd].
  assert (Hm : nlen (map snd idxs0) = nlen idxs0) by (unfold nlen; rewrite map_length; reflexivity).
  rewrite nlen_app, Hm. destruct (ty0 =? ty).
  - injection H as ->. rewrite N.add_0_l. split; [lia|].
    rewrite app_nth1 by (rewrite map_length; unfold nlen in Hi; lia). exact (map_nth snd idxs (0, []) (N.to_nat i)).
  - destruct (IH ty idxs i H Hi) as [H1 H2]. split; [lia|].
    rewrite <- N.add_assoc, <- Hm, nth_app_nlen. exact H2.
Qed.

(* which slot of a type's index table the gateware looks at: descr_idx *)
Fixpoint find_pos (ix : N) (idxs : list (N * desc)) (k : N) : option (N * desc) :=
  match idxs with
  | [] => None
  | (ix', d) :: r => if ix' =? ix then Some (k, d) else find_pos ix r (k + 1)
  end.

Lemma find_pos_assoc : forall idxs ix k, assoc ix idxs = option_map snd (find_pos ix idxs k).
Proof.
  induction idxs as [|[ix' d] r IH]; intros ix k; [reflexivity|].
  cbn [assoc find_pos]. destruct (ix' =? ix); [reflexivity | apply IH].
Qed.

Lemma find_pos_nth : forall idxs ix k j d, find_pos ix idxs k = Some (j, d) ->
  k <= j /\ j - k < nlen idxs /\ nth (N.to_nat (j - k)) idxs (0, []) = (ix, d).
Proof.
  induction idxs as [|[ix' d'] r IH]; intros ix k j d H; [discriminate|].
  cbn [find_pos] in H. unfold nlen in *. cbn [length]. destruct (N.eqb_spec ix' ix).
  - inversion H; subst. rewrite N.sub_diag. repeat split; lia.
  - destruct (IH _ _ _ _ H) as (H1 & H2 & H3). split; [lia|].
    replace (N.to_nat (j - k)) with (S (N.to_nat (j - (k + 1)))) by lia. split; [lia | exact H3].
Qed.

Definition keys_small (idxs : list (N * desc)) : Prop := Forall (fun e => fst e < 256) idxs.
Definition groups_small (c : dcoll) : Prop := Forall (fun p => keys_small (snd p)) c.

Lemma assoc_group : forall idxs ty ty' ix k, ix < 256 -> keys_small idxs ->
  assoc (ix + 256 * ty) (map (fun p : N * (N * desc) => (fst (snd p) + 256 * ty', fst p)) (number_from k idxs))
  = if ty' =? ty then option_map fst (find_pos ix idxs k) else None.
Proof.
  induction idxs as [|[ix' d] r IH]; intros ty ty' ix k Hix Hk; [destruct (ty' =? ty); reflexivity|].
  inversion Hk as [|? ? H0 Hr]; subst. cbn [fst] in H0.
  cbn [number_from map assoc find_pos fst snd]. rewrite IH by assumption.
  destruct (N.eqb_spec (ix' + 256 * ty') (ix + 256 * ty)), (N.eqb_spec ty' ty), (N.eqb_spec ix' ix); reflexivity || lia.
Qed.

(* A table keyed by index + 256 * type that is laid out group by group (the index map: tab = group_map; the bank of
   DescDist.dist_gens): a key is looked up in its type's group. *)
Lemma assoc_by_type : forall (B : Type) (tab : N -> list (N * desc) -> list (N * B)) (look : N -> list (N * desc) -> option B),
  (forall idxs ty ty' ix, ix < 256 -> keys_small idxs ->
     assoc (ix + 256 * ty) (tab ty' idxs) = if ty' =? ty then look ix idxs else None) ->
  forall c lo ty ix, increasing lo c = true -> ix < 256 -> groups_small c ->
  assoc (ix + 256 * ty) (flat_map (fun p => tab (fst p) (snd p)) c) =
  match assoc ty c with Some idxs => look ix idxs | None => None end.
Proof.
  intros B tab look Htab. induction c as [|[ty0 idxs0] r IH]; intros lo ty ix H Hix Hg; [reflexivity|].
  apply increasing_cons in H as [H1 H2]. inversion Hg as [|? ? Hg0 Hgr]; subst.
  cbn [flat_map fst snd assoc]. rewrite assoc_app, Htab by assumption.
  destruct (N.eqb_spec ty0 ty) as [->|NE]; [|apply (IH (ty0 + 1)); assumption].
  destruct (look ix idxs0); [reflexivity|].
  (* the later groups have larger types *)
  rewrite (IH (ty + 1)), (increasing_assoc_below _ r (ty + 1)) by (assumption || lia). reflexivity.
Qed.

Lemma find_pos_direct : forall (idxs : list (N * desc)) lo ix k, increasing lo idxs = true ->
  max_key idxs + 1 <= lo + nlen idxs ->
  match find_pos ix idxs k with
  | Some (j, d) => lo <= ix /\ j = k + (ix - lo)
  | None => ix < lo \/ lo + nlen idxs <= ix
  end.
Proof.
  induction idxs as [|[k0 d0] r IH]; intros lo ix k Hinc Hmax; [cbn; lia|].
  apply increasing_cons in Hinc as [Hlo Hinc].
  (* the first key is lo, since the keys from it on reach max_key *)
  pose proof (max_key_reach _ r k0 d0 Hinc) as Hr. assert (k0 = lo) as -> by lia.
  rewrite max_key_cons in Hmax. unfold nlen in *. cbn [length] in *.
  cbn [find_pos]. destruct (N.eqb_spec lo ix) as [->|NE]; [lia|].
  specialize (IH (lo + 1) ix (k + 1) Hinc ltac:(lia)). destruct (find_pos ix r (k + 1)) as [[j d]|]; lia.
Qed.

Record coll_facts (c : dcoll) : Prop := {
  cf_inc : increasing 0 c = true;
  cf_size : 4 * nlen (rom_of c) < 65536;
  cf_group : forall ty idxs, assoc ty c = Some idxs ->
     increasing 0 idxs = true /\ 1 <= nlen idxs /\ nlen idxs <= 255 /\ keys_small idxs /\
     (forall e, In e idxs -> bytes_ok (snd e)) /\ ty <= max_type c;
  cf_small : groups_small c }.

Lemma group_ok_facts : forall p, group_okb p = true ->
  increasing 0 (snd p) = true /\ 1 <= nlen (snd p) /\ nlen (snd p) <= 255 /\ keys_small (snd p) /\
  (forall e, In e (snd p) -> bytes_ok (snd e)).
Proof.
  intros p H. unfold group_okb in H. repeat (apply andb_true_iff in H as [H ?]).
  repeat split; try assumption || lia.
  - apply Forall_forall. intros e He. pose proof (max_key_ge _ _ e He). lia.
  - intros e He. apply Forall_forall. intros b Hb.
    rewrite forallb_forall in H0. specialize (H0 e He). rewrite forallb_forall in H0. specialize (H0 b Hb). lia.
Qed.

Lemma coll_ok_facts : forall c, coll_okb c = true -> coll_facts c.
Proof.
  intros c H. unfold coll_okb in H. repeat (apply andb_true_iff in H as [H ?]).
  rewrite forallb_forall in H1.
  constructor; try assumption || lia.
  - intros ty idxs Ha. apply assoc_in in Ha. destruct (group_ok_facts _ (H1 _ Ha)) as (G1 & G2 & G3 & G4 & G5).
    repeat split; try assumption.
    exact (max_key_ge _ c _ Ha).
  - apply Forall_forall. intros p Hp. apply (group_ok_facts p (H1 p Hp)).
Qed.

(* the value the gateware uses as descr_idx for a request *)
Definition didx_val (c : dcoll) (value : N) : N :=
  match index_map c with
  | [] => v_index value
  | m => match assoc value m with Some r => trunc 8 r | None => 255 end
  end.

Lemma value_split : forall value, value < 65536 -> value = v_index value + 256 * v_type value /\ v_index value < 256 /\ v_type value < 256.
Proof.
  intros value H. unfold v_index, v_type. rewrite bits_0, bits_spec. change (2 ^ 8) with 256.
  assert (Hq : value / 256 < 256) by (apply N.div_lt_upper_bound; [discriminate | exact H]).
  rewrite (N.mod_small _ _ Hq). rewrite N.add_comm.
  split; [apply N.div_mod; discriminate | split; [apply N.mod_lt; discriminate | exact Hq]].
Qed.

Lemma didx_spec : forall c value, coll_facts c -> value < 65536 ->
  match assoc (v_type value) c with
  | Some idxs => match find_pos (v_index value) idxs 0 with
                 | Some (j, d) => didx_val c value = j
                 | None => nlen idxs <= didx_val c value
                 end
  | None => True
  end.
Proof.
  intros c value F Hv. destruct (value_split value Hv) as (Hsplit & Hix & Hty).
  set (ty := v_type value) in *. set (ix := v_index value) in *.
  destruct (assoc ty c) as [idxs|] eqn:Ea; [|exact I].
  destruct (cf_group c F ty idxs Ea) as (Ginc & Gn1 & Gn255 & Gks & _ & _).
  pose proof (assoc_in _ _ _ _ Ea) as Hin. unfold didx_val, index_map.
  destruct (indirect c) eqn:Eind.
  - (* index map in use *)
    pose proof (assoc_by_type _ group_map _ (fun idxs ty ty' ix => assoc_group idxs ty ty' ix 0)
                  c 0 ty ix (cf_inc c F) Hix (cf_small c F)) as Hm.
    rewrite <- Hsplit, Ea in Hm.
    destruct (flat_map (fun p => group_map (fst p) (snd p)) c) as [|m0 mr] eqn:Efm.
    + (* the map is not empty, since this type has a descriptor *)
      exfalso. destruct idxs as [|e r]; [cbn in Gn1; lia|].
      assert (Hi : In (fst e + 256 * ty, 0) (flat_map (fun p => group_map (fst p) (snd p)) c))
        by (apply in_flat_map; exists (ty, e :: r); split; [exact Hin | left; reflexivity]).
      rewrite Efm in Hi. exact Hi.
    + rewrite Hm. destruct (find_pos ix idxs 0) as [[j d]|] eqn:Ef; cbn [option_map fst]; [|lia].
      destruct (find_pos_nth _ _ _ _ _ Ef) as (_ & Hlt & _). apply trunc_small. change (2 ^ 8) with 256. lia.
  - (* direct addressing: no type needs the index map, so this type's indexes are 0 .. n-1 *)
    assert (Hx : negb (max_key idxs =? nlen idxs - 1) = false).
    { apply not_true_is_false. intro E.
      assert (indirect c = true) by (apply existsb_exists; exists (ty, idxs); split; assumption). congruence. }
    pose proof (find_pos_direct idxs 0 ix 0 Ginc ltac:(lia)) as Hf.
    destruct (find_pos ix idxs 0) as [[j d]|]; lia.
Qed.

Lemma rom_aw_facts : forall c, coll_facts c ->
  nlen (rom_of c) <= 2 ^ N.size (nlen (rom_of c) - 1) /\ N.size (nlen (rom_of c) - 1) <= 14 /\ ntypes c <= nlen (rom_of c).
Proof.
  intros c F. pose proof (cf_size c F) as Hs. split; [|split].
  - pose proof (N.size_gt (nlen (rom_of c) - 1)). lia.
  - apply size_le_of_lt. change (2 ^ 14) with 16384. lia.
  - rewrite rom_len. lia.
Qed.

Lemma max_desc_len_ge : forall c d, In d (all_descs c) -> nlen d <= max_desc_len c.
Proof. intros c. exact (fold_max_ge _ (@nlen N) (all_descs c)). Qed.

Lemma walk_absent : forall c value, coll_facts c -> value < 65536 -> v_type value <= max_type c ->
  find_desc c (v_type value) (v_index value) = None ->
  e_hi (rom_read (rom_of c) (v_type value)) <= didx_val c value.
Proof.
  intros c value F Hv Ht Hf. rewrite rom_type_read by (unfold ntypes; lia). unfold type_entry.
  pose proof (didx_spec c value F Hv) as Hd. unfold find_desc in Hf.
  destruct (assoc (v_type value) c) as [idxs|] eqn:Ea; [|apply N.le_0_l].
  destruct (cf_group c F _ _ Ea) as (_ & Gn1 & Gn255 & _).
  pose proof (cf_size c F) as Hs. pose proof (rom_len c) as HL.
  assert (Hta : table_addr c (v_type value) < 65536).
  { unfold table_addr. pose proof (all_descs_nth c _ idxs 0 Ea ltac:(lia)) as [Hlt _]. lia. }
  rewrite e_hi_entry by lia.
  rewrite (find_pos_assoc idxs _ 0) in Hf. destruct (find_pos (v_index value) idxs 0) as [[j d]|]; [discriminate | exact Hd].
Qed.

Definition data_at (c : dcoll) (B : N) (d : desc) : Prop :=
  nlen d < 65536 /\ 4 * B < 65536 /\ nlen d <= max_desc_len c /\
  forall k, k < nlen d -> B + k / 4 < nlen (rom_of c) /\
                          byte_lane (rom_read (rom_of c) (B + k / 4)) (k mod 4) = nth (N.to_nat k) d 0.

(* n: how many indexes the type has; A: the word address of its index table; B: the word address of the descriptor's
   bytes.  The conjuncts follow the walk: the type-table entry (n, A), the index-table entry (length, B), the data. *)
Lemma walk_present : forall c value d, coll_facts c -> value < 65536 ->
  find_desc c (v_type value) (v_index value) = Some d ->
  exists n A B,
    v_type value <= max_type c /\
    rom_read (rom_of c) (v_type value) = entry n (4 * A) /\ n < 65536 /\ 4 * A < 65536 /\
    didx_val c value < n /\ A + didx_val c value < nlen (rom_of c) /\
    rom_read (rom_of c) (A + didx_val c value) = entry (nlen d) (4 * B) /\ data_at c B d.
Proof.
  intros c value d F Hv Hf. unfold find_desc in Hf.
  destruct (assoc (v_type value) c) as [idxs|] eqn:Ea; [|discriminate].
  destruct (cf_group c F _ _ Ea) as (_ & Gn1 & Gn255 & _ & Gbytes & Gty).
  pose proof (didx_spec c value F Hv) as Hd. rewrite Ea in Hd.
  rewrite (find_pos_assoc idxs _ 0) in Hf.
  destruct (find_pos (v_index value) idxs 0) as [[j d']|] eqn:Ef; [|discriminate].
  injection Hf as ->.
  destruct (find_pos_nth _ _ _ _ _ Ef) as (_ & Hjlt & Hjnth). rewrite N.sub_0_r in Hjlt, Hjnth.
  destruct (all_descs_nth c _ idxs j Ea Hjlt) as [Hg Hgd]. rewrite Hjnth in Hgd. cbn [snd] in Hgd.
  set (g := entries_before (v_type value) c + j) in *.
  pose proof (cf_size c F) as Hs. pose proof (rom_len c) as HL.
  pose proof (data_word_bound c g Hg) as HB. rewrite Hgd in HB.
  pose proof (words_cover d) as Hcov.
  exists (nlen idxs), (ntypes c + entries_before (v_type value) c), (data_word c g).
  rewrite Hd, <- N.add_assoc. fold g.
  rewrite rom_index_read, rom_type_read, Hgd by (assumption || (unfold ntypes; lia)).
  unfold type_entry, table_addr. rewrite Ea.
  repeat split; try (unfold nlen in *; lia).
  - apply max_desc_len_ge. rewrite <- Hgd. apply nth_In. unfold nentries, nlen in Hg. lia.
  - pose proof (word_of_byte_lt d k H). lia.
  - pose proof (rom_desc_byte c g k Hg) as Hb. rewrite Hgd in Hb. apply Hb; [|exact H].
    apply (Gbytes (v_index value, d)). rewrite <- Hjnth. apply nth_In. unfold nlen in Hjlt. lia.
Qed.
