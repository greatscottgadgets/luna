(* TSEmitter (TsEmit.v), property C43: the FSM with its set counter equals the specification machine with one
   position counter (em_refines), and the words the sink takes from the specification machine are
   the positions of the burst plan in order, round and round (sp_taken_from_idle). *)
From Coq Require Import NArith PeanoNat List Bool Lia.
Import ListNotations.
From LunaLib Require Import Netlist Machine BitFacts.
From LunaModel Require Import TsEmit.
Open Scope N_scope.

Section Emit.
  Variable c : em_cfg.
  Let L := e_len c.
  Let T := e_total c.

  Lemma plan_length : length (burst_plan c) = (T * L)%nat.
  Proof.
    unfold burst_plan. fold L T. induction T as [|n IH]; [reflexivity|].
    cbn [repeat concat]. rewrite app_length, seq_length, IH. reflexivity.
  Qed.

  Lemma plan_nth : forall s k, (k < L)%nat -> (s < T)%nat -> nth (s * L + k) (burst_plan c) O = k.
  Proof.
    unfold burst_plan. fold L T. induction T as [|n IH]; intros s k Hk Hs; [lia|].
    cbn [repeat concat]. destruct s as [|s].
    - cbn [Nat.mul Nat.add]. rewrite app_nth1 by (rewrite seq_length; exact Hk).
      apply seq_nth, Hk.
    - replace (S s * L + k)%nat with (length (seq 0 L) + (s * L + k))%nat by (rewrite seq_length; lia).
      rewrite app_nth2_plus. apply IH; lia.
  Qed.

  Hypothesis HL : (1 <= L)%nat.
  Hypothesis HT : (1 <= T)%nat.

  Definition rel (st : em_state) (p : option nat) : Prop :=
    match efsm st, p with
    | IDLE, None => sent st = O
    | WORD k, Some q => (k < L)%nat /\ (sent st < T)%nat /\ q = (sent st * L + k)%nat
    | _, _ => False
    end.

  (* position s * L + k is the plan's last one exactly when both counters are at their ends:
     s * L + k + 1 <= s * L + L <= T * L, with equality only if it holds in both steps *)
  Lemma last_iff : forall s k, (k < L)%nat -> (s < T)%nat ->
    ((S k =? L)%nat && (S s =? T)%nat) = (S (s * L + k) =? T * L)%nat.
  Proof.
    intros s k Hk Hs. apply eq_true_iff_eq. rewrite andb_true_iff, !Nat.eqb_eq.
    clear -Hk Hs. (* keeps HL, HT out of the closed statement *)
    split; [intros [<- <-]; lia | nia].
  Qed.

  Lemma rel_out : forall st p i, rel st p -> em_out c st i = sp_out c p i.
  Proof.
    intros st p i H. unfold rel, em_out, sp_out in *. fold L T.
    destruct (efsm st) as [|k], p as [q|]; try contradiction; [reflexivity|].
    destruct H as (Hk & Hs & ->).
    rewrite plan_nth, plan_length, <- andb_assoc, (last_iff _ _ Hk Hs) by assumption. reflexivity.
  Qed.

  Lemma rel_next : forall st p i, rel st p -> rel (em_next c st i) (sp_next c p i).
  Proof.
    intros st p i H. unfold rel, em_next, sp_next in *. fold L T.
    destruct (efsm st) as [|k] eqn:F, p as [q|]; try contradiction.
    - destruct (i_start i); cbn [efsm sent]; [|exact H]. rewrite H. repeat split; lia.
    - destruct H as (Hk & Hs & ->). rewrite plan_length.
      destruct (i_ready i); [|rewrite F; repeat split; assumption].
      rewrite <- (last_iff _ _ Hk Hs).
      destruct (S k =? L)%nat eqn:A; cbn [andb].
      + apply Nat.eqb_eq in A. destruct (S (sent st) =? T)%nat eqn:B.
        * destruct (i_start i); cbn [efsm sent]; [repeat split; lia | reflexivity].
        * apply Nat.eqb_neq in B. cbn [efsm sent]. repeat split; lia.
      + apply Nat.eqb_neq in A. cbn [efsm sent]. repeat split; lia.
  Qed.

  Theorem em_refines_gen : forall ins st p, rel st p -> run (em_step c) st ins = run (sp_step c) p ins.
  Proof. apply sim_run_all. intros st p i H. split; [apply rel_next | apply rel_out]; exact H. Qed.

  Theorem em_refines : forall ins, run (em_step c) em_init ins = run (sp_step c) None ins.
  Proof. intros. apply em_refines_gen. reflexivity. Qed.

  Definition pos_of (p : option nat) : nat := match p with Some q => q | None => O end.
  Definition pos_ok (p : option nat) : Prop := match p with Some q => (q < T * L)%nat | None => True end.

  Lemma sp_next_pos : forall p i, pos_ok p ->
    pos_ok (sp_next c p i) /\
    pos_of (sp_next c p i) =
      match p with
      | Some q => if i_ready i then (if (S q =? T * L)%nat then O else S q) else q
      | None => O
      end.
  Proof.
    intros p i Hp. unfold sp_next. rewrite plan_length. fold L T.
    assert (H0 : (0 < T * L)%nat) by (apply Nat.mul_pos_pos; assumption).
    destruct p as [q|]; cbn [pos_ok pos_of] in *.
    - destruct (i_ready i); [|exact (conj Hp eq_refl)].
      destruct (Nat.eqb_spec (S q) (T * L)); [destruct (i_start i)|].
      + exact (conj H0 eq_refl).
      + exact (conj I eq_refl).
      + split; [cbn [pos_ok]; lia | reflexivity].
    - destruct (i_start i); [exact (conj H0 eq_refl) | exact (conj I eq_refl)].
  Qed.

  (* the n positions from q on, round a cycle of m *)
  Definition cyc (m q n : nat) : list nat := map (fun k => ((q + k) mod m)%nat) (seq 0 n).

  Lemma cyc_cons : forall m q n, (q < m)%nat ->
    cyc m q (S n) = q :: cyc m (if (S q =? m)%nat then O else S q) n.
  Proof.
    intros m q n Hq. unfold cyc. rewrite <- cons_seq, <- seq_shift. cbn [map]. rewrite map_map. f_equal.
    - rewrite Nat.add_0_r. apply Nat.mod_small, Hq.
    - apply map_ext. intros k. rewrite Nat.add_succ_r, <- Nat.add_succ_l.
      destruct (Nat.eqb_spec (S q) m) as [<-|_]; [|reflexivity].
      rewrite <- (Nat.mul_1_l (S q)) at 1. rewrite Nat.add_comm. apply Nat.mod_add. discriminate.
  Qed.

  (* a burst is never cut short, never extended, and nothing is skipped or repeated *)
  Theorem sp_taken_seq : forall ins p, pos_ok p ->
    sp_taken c p ins = cyc (T * L) (pos_of p) (length (sp_taken c p ins)).
  Proof.
    induction ins as [|i t IH]; intros p Hp; [reflexivity|].
    destruct (sp_next_pos p i Hp) as (Hn & En). specialize (IH _ Hn). rewrite En in IH.
    cbn [sp_taken]. destruct p as [q|]; [destruct (i_ready i)|]; try exact IH.
    cbn [length]. rewrite cyc_cons by exact Hp. f_equal. exact IH.
  Qed.

  (* C43: the k-th word taken is position k mod (T*L) of the plan (by plan_nth, word k mod L of a set) *)
  Corollary sp_taken_from_idle : forall ins,
    sp_taken c None ins = map (fun k => (k mod (T * L))%nat) (seq 0 (length (sp_taken c None ins))).
  Proof. intros. apply (sp_taken_seq ins None I). Qed.
End Emit.

Lemma pack_out_fields : forall v d ct f l dn, d < 4294967296 -> ct < 16 ->
  let o := pack_out v d ct f l dn in
  o_valid o = v /\ o_data o = d /\ o_ctrl o = ct /\ o_first o = f /\ o_last o = l /\ o_done o = dn.
Proof.
  intros v d ct f l dn Hd Hc. cbv zeta. unfold pack_out. rewrite !N.shiftl_mul_pow2.
  set (L := [(1, b2n v); (32, d); (4, ct); (1, b2n f); (1, b2n l); (1, b2n dn)]).
  assert (HL : fields_ok L) by (repeat constructor; try apply b2n_lt2; assumption).
  replace (_ + _ * 2 ^ 39) with (fields_word L) by (cbn [fields_word L]; lia).
  repeat split.
  - exact (testbit_fields_word L 0 v HL eq_refl).
  - exact (bits_fields_word L 1 HL).
  - exact (bits_fields_word L 2 HL).
  - exact (testbit_fields_word L 3 f HL eq_refl).
  - exact (testbit_fields_word L 4 l HL eq_refl).
  - exact (testbit_fields_word L 5 dn HL eq_refl).
Qed.

(* used by the tie to the netlist (props/C43.py): packed states decode back, well-formedness is kept *)
Lemma em_dec_enc : forall L, (L <= 15)%nat -> forall st, em_wf L st -> em_dec (em_enc st) = st.
Proof.
  intros L HL [f s] W. unfold em_wf in W. unfold em_dec, em_enc. cbn [efsm sent] in *.
  rewrite digit_mod, digit_div, Nat2N.id by (destruct f; [reflexivity | lia]).
  destruct f as [|k]; [reflexivity|].
  destruct (N.eqb_spec (N.of_nat k + 1) 0); [lia|]. rewrite N.add_sub, Nat2N.id. reflexivity.
Qed.

Lemma em_wf_step : forall c, (1 <= e_len c)%nat -> forall st i,
  em_wf (e_len c) st -> em_wf (e_len c) (fst (em_step c st i)).
Proof.
  intros c HL st i W. unfold em_wf, em_step, em_next in *. cbn [fst].
  destruct (efsm st) as [|k] eqn:F.
  - destruct (i_start i); cbn [efsm]; [lia | exact I].
  - destruct (i_ready i); [|rewrite F; exact W].
    destruct (S k =? e_len c)%nat eqn:A.
    + destruct (S (sent st) =? e_total c)%nat; [destruct (i_start i)|]; cbn [efsm]; try exact I; lia.
    + apply Nat.eqb_neq in A. cbn [efsm]. lia.
Qed.
