(* C08 -- proofs about Model/C08_AddrCfg.v.  The code-shaped model (request-handler FSM with its expecting_ack
   registers, frozen while the setup packet is not a standard request, plus the device registers) equals the
   four-field specification on every event history in which the setup fields only change together with `received`
   (model_meets_spec, through the simulation relation rel).  On the specification, for histories of any length: a
   register changes only on the ACK of its own status stage (spec_change_only_on_completion), a completed request
   takes effect (spec_takes_effect) exactly once (spec_exactly_once), handshakes of other endpoints' transactions
   change nothing (spec_foreign_handshake).  The packing lemmas serve the tie obligations. *)
From Coq Require Import NArith List Bool Lia.
Import ListNotations.
From LunaLib Require Import BitFacts ListFacts SymWord.
From LunaModel Require Import C08_AddrCfg.
Open Scope N_scope.

Lemma sp_commit_some : forall s e c, sp_commit s e = Some c ->
  e_ack e = true /\ sp_armed s = true /\ e_recv e = false /\ sp_pend s = Some c.
Proof. intros s e c. unfold sp_commit. destruct (e_ack e), (sp_armed s), (e_recv e); cbn; (discriminate || auto). Qed.

Lemma sp_commit_unarmed : forall s e, sp_armed s = false -> sp_commit s e = None.
Proof. intros s e H. unfold sp_commit. rewrite H, andb_false_r. reflexivity. Qed.

Lemma sp_commit_no_ack : forall s e, e_ack e = false -> sp_commit s e = None.
Proof. intros s e H. unfold sp_commit. rewrite H. reflexivity. Qed.

Lemma sp_next_recv : forall s e, e_recv e = true ->
  sp_next s e = mkSpec (classify e) false (if e_reset e then 0 else sp_addr s) (if e_reset e then 0 else sp_cfg s).
Proof. intros s e H. unfold sp_next, sp_commit. rewrite H, andb_false_r. reflexivity. Qed.

Lemma sp_next_commit : forall s e k v, sp_commit s e = Some (k, v) ->
  sp_next s e = mkSpec None false (if e_reset e then 0 else if k then v mod 128 else sp_addr s)
                                  (if e_reset e then 0 else if k then sp_cfg s else v mod 256).
Proof.
  intros s e k v H. destruct (sp_commit_some s e _ H) as (_ & _ & Hr & _).
  unfold sp_next. rewrite H, Hr. destruct k; reflexivity.
Qed.

Lemma sp_next_quiet : forall s e, e_recv e = false -> sp_commit s e = None ->
  sp_next s e = mkSpec (sp_pend s)
                       (match sp_pend s with
                        | Some _ => if e_status e then true else if e_tok e then false else sp_armed s
                        | None => false
                        end)
                       (if e_reset e then 0 else sp_addr s) (if e_reset e then 0 else sp_cfg s).
Proof. intros s e Hr Hc. unfold sp_next. rewrite Hr, Hc. reflexivity. Qed.

(* the state and the expecting_ack register of handle_register_write_request for the address (k = true) /
   the configuration (k = false) *)
Definition wstate (k : bool) : hfsm := if k then H_SET_ADDRESS else H_SET_CONFIGURATION.
Definition h_ea (k : bool) (h : hstate) : bool := if k then h_ea_addr h else h_ea_cfg h.

(* each expecting_ack register is clear outside its own state (in the model of C07: CtlXfer_proofs.flags_inv) *)
Definition ea_inv (h : hstate) : Prop := forall k, h_fsm h <> wstate k -> h_ea k h = false.

Lemma ea_inv_clear : forall f, ea_inv (mkH f false false).
Proof. intros f [] _; reflexivity. Qed.

(* simulation relation; `prev` is the previous event (it holds the current contents of the decoder's registers).
   Without a pending request the handler is idle, or frozen in a register-write state by a non-standard packet. *)
Definition rel (prev : ev) (s : spec_state) (m : mstate) : Prop :=
  sp_addr s = m_addr m /\ sp_cfg s = m_cfg m /\ ea_inv (m_h m) /\
  match sp_pend s with
  | Some (k, v) => h_fsm (m_h m) = wstate k /\ h_ea k (m_h m) = sp_armed s /\
                   e_type prev = TYPE_STANDARD /\ e_value prev = v
  | None => sp_armed s = false /\ (h_fsm (m_h m) = H_OTHER \/ e_type prev <> TYPE_STANDARD)
  end.

Lemma rel_init : rel ev0 sp_init m_init.
Proof. repeat split; auto. apply ea_inv_clear. Qed.

Lemma rel_out : forall prev s m, rel prev s m -> sp_out s = m_out m.
Proof. intros prev s m (Ha & Hc & _). unfold sp_out, m_out. rewrite Ha, Hc. reflexivity. Qed.

Lemma same_fields_eq : forall a b, same_fields a b = true ->
  e_type a = e_type b /\ e_req a = e_req b /\ e_value a = e_value b.
Proof.
  intros a b H. unfold same_fields in H. rewrite !andb_true_iff, !N.eqb_eq in H. tauto.
Qed.

Lemma m_next_hold : forall m e, e_type e <> TYPE_STANDARD \/ (e_recv e = false /\ h_fsm (m_h m) = H_OTHER) ->
  m_next m e = mkM (m_h m) (if e_reset e then 0 else m_addr m) (if e_reset e then 0 else m_cfg m).
Proof.
  intros [[f ea ec] a c] e H. unfold m_next, h_next, h_new_addr, h_new_cfg, h_addr_changed, h_cfg_changed.
  destruct H as [H|[Hr Hf]].
  - apply N.eqb_neq in H. rewrite H. reflexivity.
  - cbn in *. subst f. rewrite Hr, !andb_false_r. destruct (e_type e =? TYPE_STANDARD); reflexivity.
Qed.

Lemma m_next_setup : forall m e, e_type e = TYPE_STANDARD -> e_recv e = true -> ea_inv (m_h m) ->
  m_next m e = mkM (mkH (dispatch (e_req e)) false false)
                   (if e_reset e then 0 else m_addr m) (if e_reset e then 0 else m_cfg m).
Proof.
  intros [[f ea ec] a c] e Ht Hr Hs. pose proof (Hs true) as Ha. pose proof (Hs false) as Hc. cbn in Ha, Hc.
  unfold m_next, h_next, h_new_addr, h_new_cfg, h_addr_changed, h_cfg_changed, ea_next, regwrite.
  rewrite Ht, Hr, !andb_false_r. cbn.
  destruct f; rewrite ?Ha, ?Hc by discriminate; reflexivity.
Qed.

Lemma rel_next : forall prev s m e, rel prev s m -> (e_recv e || same_fields prev e) = true ->
  rel e (sp_next s e) (m_next m e).
Proof.
  intros prev s m e (Ha & Hc & Hs & Hp) Henv.
  destruct (e_recv e) eqn:Hr.
  - rewrite (sp_next_recv s e Hr). unfold rel, classify. cbn [sp_pend sp_armed sp_addr sp_cfg].
    destruct (N.eq_dec (e_type e) TYPE_STANDARD) as [Ht|Ht].
    + rewrite (m_next_setup m e Ht Hr Hs), Ht, N.eqb_refl, Ha, Hc. cbn [m_h m_addr m_cfg].
      split; [reflexivity|]. split; [reflexivity|]. split; [apply ea_inv_clear|]. unfold dispatch.
      destruct (e_req e =? REQ_SET_ADDRESS); [|destruct (e_req e =? REQ_SET_CONFIGURATION)]; cbn; auto.
    + rewrite (m_next_hold m e (or_introl Ht)), (proj2 (N.eqb_neq _ _) Ht), Ha, Hc. cbn. repeat split; auto.
  - (* no setup packet in this cycle: the decoder's registers hold their values *)
    apply same_fields_eq in Henv as (Hty & _ & Hvl).
    destruct (sp_pend s) as [[k v]|] eqn:Ep.
    + (* the pending request's state runs the specification's `armed` logic on its expecting_ack register *)
      destruct Hp as (Hf & He & Htp & Hv). rewrite Hty in Htp. pose proof (Hs (negb k)) as Ho.
      destruct s as [pend armed sa sc], m as [[f ea ec] a c]. cbn in *. subst pend f sa sc v.
      unfold rel, sp_next, sp_commit, m_next, h_next, h_new_addr, h_new_cfg, h_addr_changed, h_cfg_changed, ea_next,
        regwrite.
      rewrite Hr, Htp, Hvl. cbn.
      destruct k; cbn in *; subst; rewrite Ho by discriminate;
        destruct (e_ack e), armed; cbn; (split; [reflexivity|]); (split; [reflexivity|]);
        (split; [intros [] H; cbn in *; congruence|]); auto.
    + destruct Hp as [Harm Hfz].
      rewrite sp_next_quiet, Ep by (try apply sp_commit_unarmed; assumption).
      rewrite m_next_hold by (rewrite <- Hty; tauto).
      unfold rel. cbn. rewrite Ha, Hc, <- Hty. repeat split; auto.
Qed.

Lemma rel_run : forall tr prev s m, rel prev s m -> setup_stable prev tr = true ->
  ev_run m_step m tr = ev_run sp_step s tr /\
  exists prev', rel prev' (sp_run_state s tr) (m_run_state m tr).
Proof.
  induction tr as [|e t IH]; intros prev s m HR Hst; simpl; [eauto|].
  simpl in Hst. apply andb_true_iff in Hst as [He Ht].
  destruct (IH e _ _ (rel_next prev s m e HR He) Ht) as [Ho Hs].
  rewrite (rel_out _ _ _ HR), Ho. auto.
Qed.

Theorem model_meets_spec : forall tr, setup_stable ev0 tr = true ->
  ev_run m_step m_init tr = ev_run sp_step sp_init tr.
Proof. intros tr H. exact (proj1 (rel_run tr ev0 _ _ rel_init H)). Qed.

Theorem model_registers_are_spec_registers : forall tr, setup_stable ev0 tr = true ->
  m_addr (m_run_state m_init tr) = sp_addr (sp_run_state sp_init tr) /\
  m_cfg (m_run_state m_init tr) = sp_cfg (sp_run_state sp_init tr).
Proof.
  intros tr H. destruct (proj2 (rel_run tr ev0 _ _ rel_init H)) as (p & Ha & Hc & _). auto.
Qed.

Definition reg_of (k : bool) (s : spec_state) : N := if k then sp_addr s else sp_cfg s.
Definition val_of (k : bool) (v : N) : N := if k then v mod 128 else v mod 256.

(* sp_run_state is SymWord.tstate, up to conversion *)
Lemma sp_run_state_app : forall a b s, sp_run_state s (a ++ b) = sp_run_state (sp_run_state s a) b.
Proof. exact (tstate_app (fun s e => (sp_next s e, tt))). Qed.

Lemma sp_run_inv : forall (I : spec_state -> Prop) (P : ev -> Prop),
  (forall s e, I s -> P e -> I (sp_next s e)) ->
  forall tr s, I s -> Forall P tr -> I (sp_run_state s tr).
Proof.
  intros I P Hstep. induction tr as [|e t IH]; intros s Hs Hf; [exact Hs|].
  inversion Hf; subst. apply IH; auto.
Qed.

Lemma spec_bus_reset : forall s e, e_reset e = true -> sp_addr (sp_next s e) = 0 /\ sp_cfg (sp_next s e) = 0.
Proof. intros s e H. unfold sp_next. simpl. rewrite H. auto. Qed.

Lemma spec_change_commit : forall k s e, e_reset e = false ->
  reg_of k (sp_next s e) <> reg_of k s ->
  exists v, sp_commit s e = Some (k, v) /\ reg_of k (sp_next s e) = val_of k v.
Proof.
  intros k s e Hr Hne. unfold sp_next, reg_of, val_of in *. simpl in *. rewrite Hr in *.
  destruct (sp_commit s e) as [[[|] v]|]; destruct k; try congruence; exists v; auto.
Qed.

Lemma no_commit_no_change : forall s e, sp_commit s e = None -> e_reset e = false ->
  sp_addr (sp_next s e) = sp_addr s /\ sp_cfg (sp_next s e) = sp_cfg s.
Proof. intros s e Hc Hr. unfold sp_next. rewrite Hc, Hr. auto. Qed.

Lemma spec_no_ack_no_change : forall s e, e_reset e = false -> e_ack e = false ->
  sp_addr (sp_next s e) = sp_addr s /\ sp_cfg (sp_next s e) = sp_cfg s.
Proof. intros s e Hr Ha. exact (no_commit_no_change s e (sp_commit_no_ack s e Ha) Hr). Qed.

Lemma unarmed_step : forall s e, sp_armed s = false -> e_status e = false -> sp_armed (sp_next s e) = false.
Proof.
  intros s e Ha Hs. destruct (e_recv e) eqn:Hr; [rewrite sp_next_recv by exact Hr; reflexivity|].
  rewrite sp_next_quiet by (try apply sp_commit_unarmed; assumption). cbn. rewrite Hs, Ha.
  destruct (sp_pend s), (e_tok e); reflexivity.
Qed.

Lemma token_disarms : forall s e, e_tok e = true -> e_status e = false -> sp_armed (sp_next s e) = false.
Proof.
  intros s e Ht Hs. unfold sp_next. simpl. rewrite Ht, Hs.
  destruct (e_recv e); [reflexivity|]. destruct (sp_commit s e); [reflexivity|]. destruct (sp_pend s); reflexivity.
Qed.

(* handshakes of other endpoints' transactions: no status_requested since the token *)
Theorem spec_foreign_handshake : forall s etok mid e,
  e_tok etok = true -> Forall (fun x => e_status x = false) (etok :: mid) -> e_reset e = false ->
  let s' := sp_run_state s (etok :: mid) in
  sp_addr (sp_next s' e) = sp_addr s' /\ sp_cfg (sp_next s' e) = sp_cfg s'.
Proof.
  intros s etok mid e Ht Hf Hr s'. inversion Hf as [|? ? H1 H2]; subst.
  apply no_commit_no_change; [apply sp_commit_unarmed | exact Hr].
  apply (sp_run_inv _ _ unarmed_step mid (sp_next s etok)); [apply token_disarms; assumption | exact H2].
Qed.

Definition norecv (x : ev) : Prop := e_recv x = false.
Definition notok (x : ev) : Prop := e_tok x = false.

(* the history ends with: the setup packet of the request, no further setup packet; a cycle in which its status
   stage was answered; no token since *)
Definition armed_hist (tr : list ev) (k : bool) (v : N) : Prop :=
  exists pre es mid1 ez mid2, tr = pre ++ es :: mid1 ++ ez :: mid2 /\ e_recv es = true /\ classify es = Some (k, v) /\
    Forall norecv (mid1 ++ ez :: mid2) /\ e_status ez = true /\ Forall notok mid2.

(* with a request pending, the history ends with its setup packet and no further one; if moreover armed, with
   the answer to its status stage and no token since *)
Definition hist_ok (tr : list ev) (s : spec_state) : Prop :=
  match sp_pend s with
  | Some (k, v) =>
      exists pre es mid, tr = pre ++ es :: mid /\ e_recv es = true /\ classify es = Some (k, v) /\ Forall norecv mid /\
        (sp_armed s = true -> exists mid1 ez mid2, mid = mid1 ++ ez :: mid2 /\ e_status ez = true /\ Forall notok mid2)
  | None => sp_armed s = false
  end.

Lemma hist_step : forall tr s e, hist_ok tr s -> hist_ok (tr ++ [e]) (sp_next s e).
Proof.
  intros tr s e H. unfold hist_ok in *. destruct (e_recv e) eqn:Hr.
  - rewrite (sp_next_recv s e Hr). cbn. destruct (classify e) as [[k v]|] eqn:Hc; [|reflexivity].
    exists tr, e, []. repeat split; auto. discriminate.
  - destruct (sp_commit s e) as [[k v]|] eqn:Hc; [rewrite (sp_next_commit s e k v Hc); reflexivity|].
    rewrite (sp_next_quiet s e Hr Hc). cbn. destruct (sp_pend s) as [[k v]|]; [|reflexivity].
    destruct H as (pre & es & mid & -> & H1 & H2 & H3 & Ha). exists pre, es, (mid ++ [e]).
    rewrite <- app_assoc. repeat split; auto using Forall_snoc.
    destruct (e_status e) eqn:Hs; [intros _; exists mid, e, []; auto|].
    destruct (e_tok e) eqn:Ht; [discriminate|]. intro H. destruct (Ha H) as (mid1 & ez & mid2 & -> & H4 & H5).
    exists mid1, ez, (mid2 ++ [e]). rewrite <- app_assoc. auto using Forall_snoc.
Qed.

Lemma hist_run : forall tr pre s, hist_ok pre s -> hist_ok (pre ++ tr) (sp_run_state s tr).
Proof.
  induction tr as [|e t IH]; intros pre s H; simpl; [rewrite app_nil_r; exact H|].
  change (e :: t) with ([e] ++ t). rewrite app_assoc. apply IH, hist_step, H.
Qed.

(* Only on completion. *)
Theorem spec_change_only_on_completion : forall k tr e,
  let s := sp_run_state sp_init tr in
  e_reset e = false -> reg_of k (sp_next s e) <> reg_of k s ->
  e_ack e = true /\ e_recv e = false /\
  exists v, armed_hist tr k v /\ reg_of k (sp_next s e) = val_of k v.
Proof.
  intros k tr e s Hr Hne.
  destruct (spec_change_commit k s e Hr Hne) as (v & Hc & Hv).
  destruct (sp_commit_some s e _ Hc) as (Ha & Harm & Hrc & Hp).
  split; [exact Ha|]. split; [exact Hrc|]. exists v. split; [|exact Hv].
  pose proof (hist_run tr [] sp_init eq_refl) as H. unfold hist_ok in H. fold s in H. rewrite Hp in H.
  destruct H as (pre & es & mid & Htr & H1 & H2 & H3 & H4). destruct (H4 Harm) as (mid1 & ez & mid2 & -> & H5 & H6).
  exists pre, es, mid1, ez, mid2. auto 7.
Qed.

Lemma pending_unarmed_step : forall k v s e, sp_pend s = Some (k, v) /\ sp_armed s = false ->
  e_recv e = false /\ e_status e = false ->
  sp_pend (sp_next s e) = Some (k, v) /\ sp_armed (sp_next s e) = false.
Proof.
  intros k v s e [Hp Ha] [Hr Hs]. rewrite sp_next_quiet by (try apply sp_commit_unarmed; assumption).
  cbn. rewrite Hp, Hs, Ha. destruct (e_tok e); auto.
Qed.

Lemma pending_armed_step : forall k v s e, sp_pend s = Some (k, v) /\ sp_armed s = true ->
  e_recv e = false /\ e_tok e = false /\ e_ack e = false ->
  sp_pend (sp_next s e) = Some (k, v) /\ sp_armed (sp_next s e) = true.
Proof.
  intros k v s e [Hp Ha] (Hr & Ht & Hk). rewrite sp_next_quiet by (try apply sp_commit_no_ack; assumption).
  cbn. rewrite Hp, Ht, Ha. destruct (e_status e); auto.
Qed.

(* Takes effect.  No token between the status answer and the ACK: a lost handshake would be followed by a token. *)
Theorem spec_takes_effect : forall k v s es mid1 ez mid2 ea,
  e_recv es = true -> classify es = Some (k, v) ->
  Forall (fun x => e_recv x = false /\ e_status x = false) mid1 ->
  e_recv ez = false -> e_status ez = true ->
  Forall (fun x => e_recv x = false /\ e_tok x = false /\ e_ack x = false) mid2 ->
  e_ack ea = true -> e_recv ea = false -> e_reset ea = false ->
  let s' := sp_run_state s (es :: mid1 ++ ez :: mid2 ++ [ea]) in
  reg_of k s' = val_of k v /\ sp_pend s' = None.
Proof.
  intros k v s es mid1 ez mid2 ea H1 H2 H3 H4 H5 H6 H7 H8 H9 s'.
  unfold s'. cbn [sp_run_state]. rewrite sp_run_state_app. cbn [sp_run_state]. rewrite sp_run_state_app.
  cbn [sp_run_state]. rewrite (sp_next_recv s es H1), H2. set (s1 := mkSpec _ _ _ _).
  destruct (sp_run_inv _ _ (pending_unarmed_step k v) mid1 s1 (conj eq_refl eq_refl) H3) as [P2 A2].
  set (s2 := sp_run_state s1 mid1) in *.
  rewrite (sp_next_quiet s2 ez H4 (sp_commit_unarmed s2 ez A2)), P2, H5. set (s3 := mkSpec _ _ _ _).
  destruct (sp_run_inv _ _ (pending_armed_step k v) mid2 s3 (conj eq_refl eq_refl) H6) as [P4 A4].
  set (s4 := sp_run_state s3 mid2) in *.
  assert (Hc : sp_commit s4 ea = Some (k, v)) by (unfold sp_commit; rewrite H7, H8, A4; exact P4).
  rewrite (sp_next_commit s4 ea k v Hc), H9. destruct k; split; reflexivity.
Qed.

Lemma nopend_step : forall s e, sp_pend s = None /\ sp_armed s = false -> norecv e ->
  sp_pend (sp_next s e) = None /\ sp_armed (sp_next s e) = false.
Proof.
  intros s e [Hp Ha] Hr. rewrite sp_next_quiet by (try apply sp_commit_unarmed; assumption).
  cbn. rewrite Hp. auto.
Qed.

(* Exactly once. *)
Theorem spec_exactly_once : forall s e c mid e2, sp_commit s e = Some c -> Forall norecv mid ->
  e_recv e2 = false -> e_reset e2 = false ->
  let s' := sp_run_state (sp_next s e) mid in
  sp_addr (sp_next s' e2) = sp_addr s' /\ sp_cfg (sp_next s' e2) = sp_cfg s'.
Proof.
  intros s e [k v] mid e2 Hc Hf Hr2 Hrs s'. apply no_commit_no_change; [apply sp_commit_unarmed | exact Hrs].
  apply (sp_run_inv _ _ nopend_step mid); [rewrite (sp_next_commit s e k v Hc); split; reflexivity | exact Hf].
Qed.

Lemma h_dec_enc : forall h, h_dec (h_enc h) = h.
Proof. intros [[| |] [|] [|]]; reflexivity. Qed.

Lemma rg_dec_enc : forall r, rg_wf r -> rg_dec (rg_enc r) = r.
Proof.
  intros [a c] [Ha _]. unfold rg_dec, rg_enc. cbn [fst snd] in *.
  rewrite digit_mod, digit_div by exact Ha. reflexivity.
Qed.

Lemma reg_next_lt : forall b r c nv rs, r < b -> nv < b -> reg_next r c nv rs < b.
Proof. intros b r c nv rs Hr Hn. unfold reg_next. destruct rs; [lia|]. destruct c; assumption. Qed.

(* the endpoint multiplexer's priority selection of a new register value *)
Lemma mux_lt : forall (ca cb : bool) a b w, a < 2 ^ w -> b < 2 ^ w -> (if ca then a else if cb then b else 0) < 2 ^ w.
Proof. intros ca cb a b w Ha Hb. destruct ca; [exact Ha|]. destruct cb; [exact Hb | apply pow2_pos]. Qed.

Lemma rg_wf_step : forall r i, rg_wf r -> rg_wf (fst (rg_step r i)).
Proof.
  intros r i [Ha Hc]. unfold rg_wf, rg_step. cbn [fst snd].
  split; (apply reg_next_lt; [assumption|]).
  - apply (mux_lt _ _ _ _ 7); apply bits_lt.
  - apply (mux_lt _ _ _ _ 8); apply bits_lt.
Qed.

Lemma rg_wf_init : rg_wf (0, 0).
Proof. split; reflexivity. Qed.
