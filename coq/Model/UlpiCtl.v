(* C24 -- ULPI control registers converge to the requested UTMI settings.

   Hand model of luna/gateware/interface/ulpi.py: ULPIControlTranslator together with its ULPIRegisterWindow
   (the configuration ULPIControlTranslator(register_window=ULPIRegisterWindow(), own_register_window=True)),
   a ULPI PHY seen from the pins (register file + what it does with DIR/NXT/DATA/STP), and the specification.

   The model is the PROPERTY-SATISFYING behaviour (findings/C24-ulpi-control.diff):
     * the register window uses the address / write data it latched when it accepted the request for the whole
       transaction (the code before 7098c90 latched them but then used the live inputs, which the control translator
       re-targets when a second register becomes dirty or the value changes mid-write);
     * the control translator hands the window the requested value itself, and when a write completes it sets the
       shadow of the register that was written to the value that was written (the code before 7098c90 copied its
       write_value register into the shadow of whichever register the If/Elif chain selected at that moment).

   Port packing of the stand-alone target (props/C24.py):
     inputs : bus_idle 0, dir 1, nxt 2, xcvr_select[2] 3..4, term_select 5, op_mode[2] 6..7, suspend 8, id_pullup 9,
              dp_pulldown 10, dm_pulldown 11, chrg_vbus 12, dischrg_vbus 13, use_external_vbus_indicator 14
     outputs: window ulpi_data_out[8] 0..7, ulpi_out_req 8, ulpi_stop 9, window busy 10, done 11, translator busy 12 *)
From Coq Require Import NArith List Bool.
Import ListNotations.
From LunaLib Require Import Netlist Machine.
Open Scope N_scope.

(* ============================== inputs ========================================================== *)
Definition ki_idle (i : N) : bool := N.testbit i 0.
Definition ki_dir (i : N) : bool := N.testbit i 1.
Definition ki_nxt (i : N) : bool := N.testbit i 2.
(* requested Function Control value: Cat(xcvr_select, term_select, op_mode, 0, ~suspend, 0) *)
Definition ki_func (i : N) : N := bits i 3 2 + 4 * bits i 5 1 + 8 * bits i 6 2 + 64 * (1 - bits i 8 1).
(* requested OTG Control value: Cat(id_pullup, dp_pulldown, dm_pulldown, dischrg_vbus, chrg_vbus, 0, 0, use_ext_vbus) *)
Definition ki_otg (i : N) : N :=
  bits i 9 1 + 2 * bits i 10 1 + 4 * bits i 11 1 + 8 * bits i 13 1 + 16 * bits i 12 1 + 128 * bits i 14 1.

Definition FUNC_CTRL : N := 4.    (* register addresses *)
Definition OTG_CTRL : N := 10.
Definition FUNC_RESET : N := 65.  (* 0b01000001: values the PHY's registers hold after reset *)
Definition OTG_RESET : N := 6.    (* 0b00000110 *)

(* ============================== the module ===================================================== *)
Inductive wfsm := W_IDLE | W_START | W_SEND | W_HOLD | W_STOPPING.

Record cw_state := {
  w_fsm : wfsm; w_dout : N; w_oreq : bool; w_stop : bool; w_done : bool;
  w_caddr : N; w_cwrite : N;              (* current_address, current_write *)
  c_cur4 : N; c_cur10 : N; c_busy : bool  (* current_register_value_04 / _0a, translator busy *)
}.
Definition cw_init : cw_state :=
  {| w_fsm := W_IDLE; w_dout := 0; w_oreq := false; w_stop := false; w_done := false; w_caddr := 0; w_cwrite := 0;
     c_cur4 := FUNC_RESET; c_cur10 := OTG_RESET; c_busy := false |}.

Definition w_busy (s : cw_state) : bool := match w_fsm s with W_IDLE => false | _ => true end.

Definition cw_out (s : cw_state) : N :=
  w_dout s + 256 * b2n (w_oreq s) + 512 * b2n (w_stop s) + 1024 * b2n (w_busy s) + 2048 * b2n (w_done s)
  + 4096 * b2n (c_busy s).

(* the If/Elif chain of the control translator: which register (if any) is requested, with which value *)
Definition cw_select (s : cw_state) (f g : N) : option (N * N) :=
  if negb (c_cur4 s =? f) then Some (FUNC_CTRL, f)
  else if negb (c_cur10 s =? g) then Some (OTG_CTRL, g) else None.

Definition cw_next (s : cw_state) (idle dir nxt : bool) (f g : N) : cw_state :=
  let sel := cw_select s f g in
  let request := match sel with Some _ => negb (w_done s) && idle | None => false end in
  let address := match sel with Some (a, _) => a | None => 0 end in
  let wdata := match sel with Some (_, v) => v | None => 0 end in
  (* shadow registers: a finished write updates the shadow of the register that was written *)
  let cur4' := if w_done s && (w_caddr s =? FUNC_CTRL) then w_cwrite s else c_cur4 s in
  let cur10' := if w_done s && (w_caddr s =? OTG_CTRL) then w_cwrite s else c_cur10 s in
  let busy' := request || w_busy s in
  let mk fsm dout oreq stop done caddr cwrite :=
    {| w_fsm := fsm; w_dout := dout; w_oreq := oreq; w_stop := stop; w_done := done;
       w_caddr := caddr; w_cwrite := cwrite; c_cur4 := cur4'; c_cur10 := cur10'; c_busy := busy' |} in
  match w_fsm s with
  | W_IDLE => mk (if request then W_START else W_IDLE) 0 false false false address wdata
  | W_START =>
      if dir then mk W_START (w_dout s) false false false (w_caddr s) (w_cwrite s)
      else mk W_SEND (128 + w_caddr s) true false false (w_caddr s) (w_cwrite s)
  | W_SEND =>
      if dir then mk W_START (w_dout s) false false false (w_caddr s) (w_cwrite s)
      else if nxt then mk W_HOLD (w_cwrite s) true false false (w_caddr s) (w_cwrite s)
      else mk W_SEND (w_dout s) true false false (w_caddr s) (w_cwrite s)
  | W_HOLD =>
      if dir then mk W_START (w_dout s) false false false (w_caddr s) (w_cwrite s)
      else if nxt then mk W_STOPPING 0 true true false (w_caddr s) (w_cwrite s)
      else mk W_HOLD (w_dout s) true false false (w_caddr s) (w_cwrite s)
  | W_STOPPING =>
      if dir then mk W_START (w_dout s) false false false (w_caddr s) (w_cwrite s)
      else mk W_IDLE (w_dout s) false false true (w_caddr s) (w_cwrite s)
  end.

Definition cw_step (s : cw_state) (i : N) : cw_state * N :=
  (cw_next s (ki_idle i) (ki_dir i) (ki_nxt i) (ki_func i) (ki_otg i), cw_out s).

(* ============================== the PHY, seen from the pins ====================================== *)
(* Register-write protocol (ULPI 1.1 3.8.3): with DIR low the PHY takes a command byte in a cycle in which it
   asserts NXT (never in the turn-around cycle after DIR fell), then the data byte in the next cycle with NXT, and
   commits the write when it sees STP.  Raising DIR aborts whatever was in progress.  A transmit command
   (0b01xxxxxx) puts it into transmit until STP.  Only the two registers of interest are tracked; q_other records a
   committed write to any other address. *)
Inductive qphase := QIdle | QTx | QW1 | QW2.
Record phy := { q_ph : qphase; q_pdir : bool; q_addr : N; q_data : N; q_r4 : N; q_r10 : N; q_other : bool }.
Definition phy_init : phy :=
  {| q_ph := QIdle; q_pdir := false; q_addr := 0; q_data := 0; q_r4 := FUNC_RESET; q_r10 := OTG_RESET; q_other := false |}.

Definition is_txcmd_b (d : N) : bool := (64 <=? d) && (d <? 128).
Definition is_regw_b (d : N) : bool := (128 <=? d) && (d <? 192).

(* the committed write of this cycle, if any *)
Definition phy_commit (p : phy) (dir stp : bool) : option (N * N) :=
  match q_ph p with QW2 => if negb dir && stp then Some (q_addr p, q_data p) else None | _ => None end.

Definition phy_step (p : phy) (dir nxt : bool) (bus : N) (stp : bool) : phy :=
  let mk ph a d r4 r10 o := {| q_ph := ph; q_pdir := dir; q_addr := a; q_data := d; q_r4 := r4; q_r10 := r10; q_other := o |} in
  let keep ph := mk ph (q_addr p) (q_data p) (q_r4 p) (q_r10 p) (q_other p) in
  if dir then keep QIdle else
  match q_ph p with
  | QIdle => if nxt && negb (q_pdir p) then
               (if is_regw_b bus then mk QW1 (bus mod 64) (q_data p) (q_r4 p) (q_r10 p) (q_other p)
                else if is_txcmd_b bus then keep QTx else keep QIdle)
             else keep QIdle
  | QTx => keep (if stp then QIdle else QTx)
  | QW1 => if nxt then mk QW2 (q_addr p) bus (q_r4 p) (q_r10 p) (q_other p) else keep QW1
  | QW2 => if stp then
             mk QIdle (q_addr p) (q_data p)
                (if q_addr p =? FUNC_CTRL then q_data p else q_r4 p)
                (if q_addr p =? OTG_CTRL then q_data p else q_r10 p)
                (q_other p || negb ((q_addr p =? FUNC_CTRL) || (q_addr p =? OTG_CTRL)))
           else keep QW2
  end.

(* the model together with the PHY watching its pins *)
Definition sys_step (sp : cw_state * phy) (i : N) : cw_state * phy :=
  let (s, p) := sp in
  (fst (cw_step s i), phy_step p (ki_dir i) (ki_nxt i) (w_dout s) (w_stop s)).
Definition sys_run (sp : cw_state * phy) (tr : list N) : cw_state * phy := fold_left sys_step tr sp.
Definition sys_init : cw_state * phy := (cw_init, phy_init).

(* ============================== the specification ================================================ *)
(* (S1) every write the PHY commits is the one the window was asked for: its address is Function Control or OTG
        Control and its data is the value that was requested for THAT register in the cycle the request was accepted.
        Ghost: greq = (address, requested value) recorded in the cycle the window accepts a request. *)
Definition accepts_request (s : cw_state) (i : N) : option (N * N) :=
  match w_fsm s, cw_select s (ki_func i) (ki_otg i) with
  | W_IDLE, Some av => if negb (w_done s) && ki_idle i then Some av else None
  | _, _ => None
  end.
Definition ghost_next (gq : option (N * N)) (s : cw_state) (i : N) : option (N * N) :=
  match accepts_request s i with Some av => Some av | None => gq end.
Definition requested_of (a : N) (i : N) : option N :=
  if a =? FUNC_CTRL then Some (ki_func i) else if a =? OTG_CTRL then Some (ki_otg i) else None.

(* (S2/S3) quiescence: the window is idle, no completion is being reported, and the translator has nothing to
        ask for; then the PHY's registers hold the requested settings. *)
Definition quiescent (s : cw_state) (i : N) : bool :=
  match w_fsm s with W_IDLE => negb (w_done s) | _ => false end &&
  match cw_select s (ki_func i) (ki_otg i) with None => true | Some _ => false end.

(* ============================== packing for the lock-step obligations ============================= *)
Definition wfsm_code (f : wfsm) : N :=
  match f with W_IDLE => 0 | W_START => 1 | W_SEND => 2 | W_HOLD => 3 | W_STOPPING => 4 end.
Definition wfsm_of (n : N) : wfsm :=
  match n with 0 => W_IDLE | 1 => W_START | 2 => W_SEND | 3 => W_HOLD | _ => W_STOPPING end.
(* fields: fsm 3 bits, oreq, stop, done, busy, then dout, caddr, cwrite, cur4, cur10 (8 bits each) *)
Definition cw_enc (s : cw_state) : N :=
  wfsm_code (w_fsm s) + 8 * b2n (w_oreq s) + 16 * b2n (w_stop s) + 32 * b2n (w_done s) + 64 * b2n (c_busy s)
  + 128 * (w_dout s + 256 * (w_caddr s + 256 * (w_cwrite s + 256 * (c_cur4 s + 256 * c_cur10 s)))).
Definition cw_dec (m : N) : cw_state :=
  let r0 := m / 128 in let r1 := r0 / 256 in let r2 := r1 / 256 in let r3 := r2 / 256 in
  {| w_fsm := wfsm_of (m mod 8); w_oreq := N.testbit m 3; w_stop := N.testbit m 4; w_done := N.testbit m 5;
     c_busy := N.testbit m 6; w_dout := r0 mod 256; w_caddr := r1 mod 256; w_cwrite := r2 mod 256;
     c_cur4 := r3 mod 256; c_cur10 := r3 / 256 |}.
Definition cw_wf (s : cw_state) : Prop :=
  w_dout s < 256 /\ w_caddr s < 64 /\ w_cwrite s < 256 /\ c_cur4 s < 256.

(* ============================== monitors at the pins of UTMITranslator ============================ *)
(* Port layout of the translator target of props/C24.py:
     inputs : data_i[8] 0..7, nxt 8, dir 9, tx_data[8] 10..17, tx_valid 18, op_mode[2] 19..20, xcvr_select[2] 21..22,
              term_select 23, suspend 24, id_pullup 25, dp_pulldown 26, dm_pulldown 27, chrg_vbus 28, dischrg_vbus 29,
              use_external_vbus_indicator 30
     outputs: data_o[8] 0..7, oe 8, stp 9, tx_ready 10, register window busy 11, transmit translator busy 12,
              transmit translator out_req 13, control translator busy 14, translator busy 15                     *)
Record kcyc := { k_dir : bool; k_nxt : bool; k_bus : N; k_stp : bool; k_f : N; k_g : N; k_txv : bool; k_rdy : bool;
                 k_wbusy : bool; k_ttbusy : bool; k_oreq : bool }.
Definition ut_view (io : N * N) : kcyc :=
  let (i, o) := io in
  {| k_dir := N.testbit i 9; k_nxt := N.testbit i 8; k_bus := bits o 0 8; k_stp := N.testbit o 9;
     k_f := bits i 21 2 + 4 * bits i 23 1 + 8 * bits i 19 2 + 64 * (1 - bits i 24 1);
     k_g := bits i 25 1 + 2 * bits i 26 1 + 4 * bits i 27 1 + 8 * bits i 29 1 + 16 * bits i 28 1 + 128 * bits i 30 1;
     k_txv := N.testbit i 18; k_rdy := N.testbit o 10;
     k_wbusy := N.testbit o 11; k_ttbusy := N.testbit o 12; k_oreq := N.testbit o 13 |}.

(* class of the byte the link drives, as the PHY sees it: 0 nothing of interest (or DIR high / turn-around cycle),
   1 transmit command, 2 register-write command *)
Definition k_class (pdir : bool) (c : kcyc) : N :=
  if k_dir c || pdir then 0 else if is_txcmd_b (k_bus c) then 1 else if is_regw_b (k_bus c) then 2 else 0.

(* packing of the PHY observer: ph 0..1, pdir 2, addr 3..8, data 9..16, r4 17..24, r10 25..32, other 33 *)
Definition qph_code (q : qphase) : N := match q with QIdle => 0 | QTx => 1 | QW1 => 2 | QW2 => 3 end.
Definition qph_of (n : N) : qphase := match n with 0 => QIdle | 1 => QTx | 2 => QW1 | _ => QW2 end.
Definition phy_enc (p : phy) : N :=
  qph_code (q_ph p) + 4 * b2n (q_pdir p) + 8 * (q_addr p mod 64) + 512 * (q_data p mod 256)
  + 131072 * (q_r4 p mod 256) + 33554432 * (q_r10 p mod 256) + 8589934592 * b2n (q_other p).
Definition phy_dec (m : N) : phy :=
  {| q_ph := qph_of (bits m 0 2); q_pdir := N.testbit m 2; q_addr := bits m 3 6; q_data := bits m 9 8;
     q_r4 := bits m 17 8; q_r10 := bits m 25 8; q_other := N.testbit m 33 |}.

(* PHY contract at the pins: outside a transaction the PHY raises NXT (DIR low) only in answer to a command that was
   on the bus in the previous cycle; it does not raise DIR between the acknowledgement of a transmit command and STP *)
Definition k_contract (p : phy) (pc : N) (c : kcyc) : bool :=
  match q_ph p with
  | QIdle => implb (negb (k_dir c) && k_nxt c) (negb (pc =? 0))
  | QTx => negb (k_dir c)
  | _ => true
  end.

(* ---- convergence / write-correctness monitor --------------------------------------------------- *)
(* state: PHY observer 0..33 | pc 34..35 | fq 36..43 | gq 44..51 | pf 52..59 | pg 60..67 | pb 68 | ppb 69 | pav 70 |
          sr4 71..78 | sr10 79..86 | started 87 *)
Definition conv_init : N := phy_enc phy_init.
Definition conv_mon_view (view : N * N -> kcyc) (m i o : N) : option (N * bool) :=
  let c := view (i, o) in
  let p := phy_dec (bits m 0 34) in let pc := bits m 34 2 in
  let fq := bits m 36 8 in let gq := bits m 44 8 in let pf := bits m 52 8 in let pg := bits m 60 8 in
  let pb := N.testbit m 68 in let ppb := N.testbit m 69 in let pav := N.testbit m 70 in
  let sr4 := bits m 71 8 in let sr10 := bits m 79 8 in let started := N.testbit m 87 in
  if k_contract p pc c then
    let ok_commit :=
      match phy_commit p (k_dir c) (k_stp c) with
      | Some (a, d) => ((a =? FUNC_CTRL) && (d =? fq)) || ((a =? OTG_CTRL) && (d =? gq))
      | None => true
      end in
    (* the previous cycle was quiescent although a write could have started: registers must match the request *)
    let ok_conv := implb (negb ppb && negb pb && negb (k_wbusy c) && pav) ((sr4 =? pf) && (sr10 =? pg)) in
    let rise := k_wbusy c && negb pb in
    let p' := phy_step p (k_dir c) (k_nxt c) (k_bus c) (k_stp c) in
    let avail := negb (k_txv c) && negb (k_ttbusy c) && started in
    Some (phy_enc p' + N.shiftl (k_class (q_pdir p) c) 34
          + N.shiftl (if rise then pf else fq) 36 + N.shiftl (if rise then pg else gq) 44
          + N.shiftl (k_f c) 52 + N.shiftl (k_g c) 60 + N.shiftl (b2n (k_wbusy c)) 68 + N.shiftl (b2n pb) 69
          + N.shiftl (b2n avail) 70 + N.shiftl (q_r4 p) 71 + N.shiftl (q_r10 p) 79 + N.shiftl 1 87,
          ok_commit && negb (q_other p') && ok_conv)
  else None.
Definition conv_mon := conv_mon_view ut_view.

(* the same monitor on the stand-alone control translator + window (bus_idle is an input there) *)
Definition cw_view (io : N * N) : kcyc :=
  let (i, o) := io in
  {| k_dir := ki_dir i; k_nxt := ki_nxt i; k_bus := bits o 0 8; k_stp := N.testbit o 9; k_f := ki_func i; k_g := ki_otg i;
     k_txv := negb (ki_idle i); k_rdy := false; k_wbusy := N.testbit o 10; k_ttbusy := false; k_oreq := false |}.
Definition cw_conv_mon := conv_mon_view cw_view.

(* ---- arbitration: safety ------------------------------------------------------------------------ *)
(* the register window is never active while the transmitter claims the bus or is inside a packet.
   Assumes the UTMI rule that a transmission, once its command could be offered, is not abandoned:
   out_req & ~busy (waiting for NXT) implies tx_valid. *)
Definition arb_mon (m i o : N) : option (N * bool) :=
  let c := ut_view (i, o) in
  if implb (k_oreq c && negb (k_ttbusy c)) (k_txv c) then
    Some (0, negb (k_wbusy c && (k_oreq c || k_ttbusy c)))
  else None.

(* ---- arbitration: progress under a prompt PHY ---------------------------------------------------- *)
(* Environment: DIR stays low; the PHY answers every command one cycle after it appeared, takes register data in the
   next cycle and transmit data in every cycle; UTMI packets carry at most 2 bytes, are not abandoned, and are
   separated by at least 2 cycles.  Then (K1) a pending transmission has its first byte accepted within K1 cycles,
   and (K2) after K2 cycles without a control change and without transmit requests the translator is quiescent and
   the PHY registers equal the requested settings.
   state: PHY observer 0..33 | pc 34..35 | pf 36..43 | pg 44..51 | txwait 52..57 | quiet 58..63 | nbytes 64..65 |
          gap 66..67 | ptxv 68 | started 69 *)
Definition prog_init : N := phy_enc phy_init + N.shiftl 3 66.
Definition prog_mon (K1 K2 : N) (m i o : N) : option (N * bool) :=
  let c := ut_view (i, o) in
  let p := phy_dec (bits m 0 34) in let pc := bits m 34 2 in
  let pf := bits m 36 8 in let pg := bits m 44 8 in
  let txwait := bits m 52 6 in let quiet := bits m 58 6 in let nbytes := bits m 64 2 in let gap := bits m 66 2 in
  let ptxv := N.testbit m 68 in let started := N.testbit m 69 in
  let exp_nxt := match q_ph p with QIdle => negb (pc =? 0) | QTx => true | QW1 => true | QW2 => false end in
  let utmi_ok :=
    (* no new transmission during the gap; none abandoned; at most 2 bytes *)
    implb (k_txv c && negb ptxv) (2 <=? gap) && implb (negb (k_txv c) && ptxv) (negb (nbytes =? 0)) &&
    implb (k_txv c) (nbytes <? 2) in
  if negb (k_dir c) && eqb (k_nxt c) exp_nxt && utmi_ok then
    let acc := k_txv c && k_rdy c in
    let nbytes' := if k_txv c then (if acc then nbytes + 1 else nbytes) else 0 in
    let txwait' := if k_txv c && (nbytes =? 0) && negb acc then txwait + 1 else 0 in
    let same := (k_f c =? pf) && (k_g c =? pg) && started in
    let quiet' := if negb (k_txv c) && same then N.min (quiet + 1) K2 else 0 in
    let gap' := if k_txv c then 0 else N.min (gap + 1) 3 in
    let p' := phy_step p false (k_nxt c) (k_bus c) (k_stp c) in
    let ok := (txwait' <=? K1) &&
              implb ((K2 <=? quiet) && same) (negb (k_wbusy c) && (q_r4 p =? k_f c) && (q_r10 p =? k_g c)) in
    Some (phy_enc p' + N.shiftl (k_class (q_pdir p) c) 34 + N.shiftl (k_f c) 36 + N.shiftl (k_g c) 44
          + N.shiftl txwait' 52 + N.shiftl quiet' 58 + N.shiftl nbytes' 64 + N.shiftl gap' 66
          + N.shiftl (b2n (k_txv c)) 68 + N.shiftl 1 69, ok)
  else None.
