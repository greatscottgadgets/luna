(* C06 -- proofs about Model/SetupDec.v: the corrected model (c6_step true true) is accepted by the
   specification monitor sm_step on every input history.
   The simulation relation c6_rel has two halves.  The receive path (c6_rx_rel): the tokenizer by C01's td_rel, the
   deserializer with the CRC unit by ds_rel (its CRC bookkeeping against crc16_usb), the timer by IpTimer's rel.
   The decoder FSM: its step agrees with the monitor's reaction to the same strobes (sd_step_agrees).
   From the relation: a SETUP transaction is reported whatever came before (setup_never_missed), `received`
   is sound (received_sound), and the full-speed ACK comes after the inter-packet delay (fs_ack_timing_from). *)
From Coq Require Import NArith PeanoNat List Bool Lia.
Import ListNotations.
From LunaLib Require Import Netlist Bits Machine BitFacts ListFacts ListMem PackN.
From LunaModel Require Import Crc Crc_proofs Handshake Handshake_proofs TokenDet TokenDet_proofs IpTimer IpTimer_proofs SetupDec.
Open Scope N_scope.

Lemma upd_ListMem : forall l k x, upd l k x = ListMem.upd k x l.
Proof. induction l as [|a l IH]; intros [|k] x; cbn [upd ListMem.upd]; congruence. Qed.

Definition bytes_ok (l : list N) : Prop := Forall (fun b => b < 256) l.

Lemma le_bytes_pack : forall l, le_bytes l = pack 256 l.
Proof. induction l as [|b l IH]; [reflexivity|]. cbn [pack]. rewrite <- IH. reflexivity. Qed.

Lemma le_bytes_bound : forall l, bytes_ok l -> le_bytes l < 2 ^ (8 * N.of_nat (length l)).
Proof. intros l H. rewrite le_bytes_pack, N.pow_mul_r. exact (pack_lt 256 l H). Qed.

Lemma utmi_fields : forall i, d_act (c_utmi i) = d_act i /\ d_val (c_utmi i) = d_val i /\ d_dat (c_utmi i) = d_dat i.
Proof.
  intro i. unfold d_act, d_val, d_dat, c_utmi. rewrite !testbit_bits.
  repeat split; [apply andb_true_r | apply andb_true_r | apply bits_bits_low; discriminate].
Qed.

Lemma pk_utmi : forall p i, pk_next p (c_utmi i) = pk_next p i /\ pk_done p (c_utmi i) = pk_done p i.
Proof.
  intros p i. destruct (utmi_fields i) as (A & V & D). unfold pk_next, pk_done. rewrite A, V, D. auto.
Qed.

Lemma crc_step_rx : forall reg (st v : bool) d, d < 256 ->
  fst (crc16mod_step reg (b2n st + 2 * d + 512 * b2n v)) =
  if st then reg_init 16 else if v then crc_update poly16 reg (N2bits 8 d) else reg.
Proof.
  intros reg st v d Hd.
  replace (b2n st + 2 * d + 512 * b2n v) with (fields_word [(1, b2n st); (8, d); (1, b2n v); (8, 0); (1, b2n false)])
    by (cbn [fields_word b2n]; lia).
  rewrite crc16mod_next by (assumption || reflexivity). destruct st, v; reflexivity.
Qed.

(* Crc_proofs.crc16_reg under the name that ds_rel, and so c6_rel, is written with; convertible, and crc16_reg's
   lemmas apply to it as they stand *)
Definition crc_reg_of (bs : list N) : list bool := crc_update poly16 (reg_init 16) (bits_of_units 8 bs).

(* rb = the bytes after the PID, newest first: last_word holds the two newest, last_byte_crc /
   last_word_crc the CRC16 of the bytes before the newest one / the newest two *)
Definition tail_ok (rb : list N) (lw lbc lwc : N) : Prop :=
  match rb with
  | [] => True
  | b2 :: r1 => lw / 256 = b2 /\ lbc = crc16_usb (rev r1) /\
      match r1 with [] => True | b1 :: r0 => lw mod 256 = b1 /\ lwc = crc16_usb (rev r0) end
  end.

Definition ds_doomed (l : list N) : Prop := forall ext, dclass (l ++ ext) = D0.

Definition ds_shape (ds : ds_state) : Prop :=
  length (ds_buf ds) = 10%nat /\ bytes_ok (ds_buf ds) /\ length (ds_pkt ds) = 8%nat /\ bytes_ok (ds_pkt ds) /\
  ds_lw ds < 65536.

(* the deserializer (corrected: fa = true) against the byte list of the packet in progress *)
Definition ds_rel (ds : ds_state) (reg : list bool) (p : option (list N)) : Prop :=
  match ds_f ds with
  | DS_IDLE => p = None
  | DS_READ_PID => p = Some []
  | DS_CAPTURE => exists pid rb, p = Some (pid :: rev rb) /\ data_pid pid = true /\ (length rb <= 10)%nat /\
       ds_pos ds = N.of_nat (length rb) /\ firstn (length rb) (ds_buf ds) = rev rb /\
       reg = crc_reg_of (rev rb) /\ tail_ok rb (ds_lw ds) (ds_lbc ds) (ds_lwc ds)
  | DS_IRRELEVANT => exists l, p = Some l /\ ds_doomed l
  end.

(* what new_packet / length / packet show in the cycle after a packet of class dn completed *)
Definition strobe_facts (dn : dstat) (dnew : bool) (dlen : N) (dpkt : list N) : Prop :=
  match dn with
  | D0 => dnew = false
  | D8 pl => dnew = true /\ dlen = 8 /\ dpkt = pl
  | Dx => dnew = true /\ dlen <> 8
  | Dq => dnew = true -> dlen <> 8
  end.

Lemma ds_shape_init : ds_shape (ds_init 8).
Proof. unfold ds_shape, ds_init, bytes_ok. cbn. repeat split; try lia; repeat constructor. Qed.

Lemma div256_lt : forall lw, lw < 65536 -> lw / 256 < 256.
Proof. intros lw H. apply N.div_lt_upper_bound; [discriminate | exact H]. Qed.

Lemma ds_shape_step : forall fa ds act val d crc, d < 256 -> ds_shape ds -> ds_shape (ds_step fa 8 4 4 ds act val d crc).
Proof.
  intros fa [f ap pos buf lw lbc lwc nw pid pkt len] act val d crc Hd (Hbl & Hbb & Hpl & Hpb & Hlw).
  cbn [ds_buf ds_pkt ds_lw] in *.
  unfold ds_step, ds_shape. destruct f; cbn [ds_f ds_pos ds_buf ds_pkt ds_lw ds_lwc];
    [repeat split; assumption | destruct (negb act), val, (data_pid d); repeat split; assumption | | repeat split; assumption].
  split; [destruct (val && (pos <? N.of_nat 8 + 2)); [rewrite upd_ListMem, upd_length|]; exact Hbl|].
  split; [destruct (val && (pos <? N.of_nat 8 + 2)); [rewrite upd_ListMem; apply upd_Forall|]; assumption|].
  split; [destruct (negb act && (lwc =? lw)); [rewrite firstn_length, Hbl; reflexivity | exact Hpl]|].
  split; [destruct (negb act && (lwc =? lw)); [apply Forall_firstn|]; assumption|].
  destruct (val && (pos <? N.of_nat 8 + 2)); [|exact Hlw].
  pose proof (div256_lt lw Hlw) as Q. revert Q. generalize (lw / 256). lia.
Qed.

Lemma dclass_long : forall p body, (11 <= length body)%nat -> dclass (p :: body) = D0.
Proof.
  intros p body H. unfold dclass. destruct (data_pid p); [|reflexivity]. cbn [negb].
  pose proof (rev_length body) as L. destruct (rev body) as [|hi [|lo rp]]; cbn [length] in L; try lia.
  rewrite rev_length. replace (Nat.leb (length rp) 8) with false; [reflexivity|].
  symmetry. apply Nat.leb_gt. lia.
Qed.

Lemma dclass_nondata : forall p body, data_pid p = false -> dclass (p :: body) = D0.
Proof. intros p body H. unfold dclass. rewrite H. reflexivity. Qed.

Lemma ds_doomed_snoc : forall l b, ds_doomed l -> ds_doomed (l ++ [b]).
Proof. intros l b H ext. rewrite <- app_assoc. apply H. Qed.

Lemma tail_ok_push : forall rb lw lbc lwc d, lw < 65536 -> tail_ok rb lw lbc lwc ->
  tail_ok (d :: rb) (lw / 256 + 256 * d) (crc16_usb (rev rb)) lbc.
Proof.
  intros rb lw lbc lwc d Hlw T. pose proof (div256_lt lw Hlw) as Q.
  cbn [tail_ok]. split; [apply digit_div; exact Q|]. split; [reflexivity|].
  destruct rb as [|b1 r0]; [exact I|]. destruct T as (T1 & T2 & _).
  split; [rewrite digit_mod by exact Q; exact T1 | exact T2].
Qed.

(* the packet ends: the comparison last_word_crc == last_word is the CRC check of dclass when two bytes follow
   the payload; with fewer it compares stale registers, but then the length shown is 14 or 15 *)
Lemma capture_end : forall dp rb buf lw lbc lwc len pkt,
  data_pid dp = true -> (length rb <= 10)%nat -> firstn (length rb) buf = rev rb -> tail_ok rb lw lbc lwc ->
  strobe_facts (dclass (dp :: rev rb)) (lwc =? lw)
    (if lwc =? lw then (N.of_nat (length rb) + 2 ^ 4 - 2) mod 2 ^ 4 else len)
    (if lwc =? lw then firstn 8 buf else pkt).
Proof.
  intros dp rb buf lw lbc lwc len pkt DP Hlen Hfst Htail.
  unfold dclass. rewrite DP, rev_involutive. cbn [negb].
  destruct rb as [|hi [|lo rp]]; [intros ->; discriminate | intros ->; discriminate |].
  destruct Htail as (T1 & _ & T2 & T3). cbn [length] in *.
  assert (Elw : lw = lo + 256 * hi) by (rewrite <- T1, <- T2, N.add_comm; apply N.div_mod; discriminate).
  rewrite rev_length, <- Elw, <- T3.
  replace (Nat.leb (length rp) 8) with true by (symmetry; apply Nat.leb_le; lia). cbn [andb].
  destruct (lwc =? lw); [|reflexivity].
  replace (N.of_nat (S (S (length rp))) + 2 ^ 4 - 2) with (N.of_nat (length rp) + 2 ^ 4 * 1) by lia.
  rewrite digit_mod by lia.
  destruct (Nat.eqb_spec (length rp) 8) as [L8|L8]; [|split; [reflexivity | lia]].
  rewrite L8. split; [reflexivity|]. split; [reflexivity|].
  rewrite L8 in Hfst. change (S (S 8)) with 10%nat in Hfst.
  replace (firstn 8 buf) with (firstn 8 (firstn 10 buf)) by apply firstn_firstn.
  rewrite Hfst. cbn [rev]. rewrite <- app_assoc. apply firstn_app_l. rewrite rev_length. exact L8.
Qed.

Ltac ds_simp := cbn [ds_f ds_pos ds_buf ds_lw ds_lbc ds_lwc ds_new ds_pkt ds_len negb andb orb pk_next pk_done] in *.

Lemma ds_rel_step : forall ds reg p i, ds_shape ds -> ds_rel ds reg p ->
  let ds' := ds_step true 8 4 4 ds (d_act i) (d_val i) (d_dat i) (crc_out reg) in
  let reg' := fst (crc16mod_step reg (b2n (match ds_f ds with DS_READ_PID => true | _ => false end)
                                      + 2 * d_dat i + 512 * b2n (d_val i))) in
  ds_rel ds' reg' (pk_next p i) /\
  strobe_facts (match pk_done p i with Some pkt => dclass pkt | None => D0 end) (ds_new ds') (ds_len ds') (ds_pkt ds').
Proof.
  intros [f ap pos buf lw lbc lwc nw pid pkt len] reg p i (Hbl & _ & _ & _ & Hlw) Hrel.
  pose proof (d_dat_bound i) as Hd. rewrite (crc_step_rx _ _ _ _ Hd).
  unfold ds_rel in Hrel. unfold ds_step, ds_rel. ds_simp.
  destruct f.
  - (* IDLE *) subst p. ds_simp. destruct (d_act i); split; reflexivity.
  - (* READ_PID *) subst p. ds_simp.
    destruct (d_act i); ds_simp; [|split; reflexivity].
    destruct (d_val i); [|split; reflexivity].
    destruct (data_pid (d_dat i)) eqn:DP; ds_simp; (split; [|reflexivity]).
    + exists (d_dat i), []. cbn [rev app length firstn tail_ok]. repeat split; auto. lia.
    + exists [d_dat i]. split; [reflexivity|]. intro ext. apply dclass_nondata. exact DP.
  - (* CAPTURE *) destruct Hrel as (dp & rb & -> & DP & Hlen & -> & Hfst & -> & Htail). ds_simp.
    change (N.of_nat 8 + 2) with 10.
    destruct (d_act i); ds_simp.
    + split; [|reflexivity].
      destruct (d_val i); ds_simp; [|exists dp, rb; auto 10].
      destruct (N.ltb_spec (N.of_nat (length rb)) 10) as [LT|GE].
      * replace (10 <=? N.of_nat (length rb)) with false by (symmetry; apply N.leb_gt; exact LT).
        exists dp, (d_dat i :: rb). cbn [rev length app].
        split; [reflexivity|]. split; [exact DP|]. split; [lia|].
        split; [rewrite N.mod_small by (change (2 ^ 4) with 16; lia); lia|].
        split; [rewrite Nat2N.id, upd_ListMem, firstn_upd_snoc, Hfst by lia; reflexivity|].
        split; [symmetry; apply crc16_reg_snoc|].
        exact (tail_ok_push _ _ _ _ _ Hlw Htail).
      * replace (10 <=? N.of_nat (length rb)) with true by (symmetry; apply N.leb_le; exact GE).
        exists ((dp :: rev rb) ++ [d_dat i]). split; [reflexivity|]. intro ext.
        cbn [app]. apply dclass_long. rewrite !app_length, rev_length. cbn [length]. lia.
    + rewrite orb_true_r. split; [reflexivity|]. exact (capture_end _ _ _ _ _ _ _ _ DP Hlen Hfst Htail).
  - (* IRRELEVANT *) destruct Hrel as (l & -> & Hl). ds_simp.
    destruct (d_act i); ds_simp.
    + split; [|reflexivity].
      destruct (d_val i); [exists (l ++ [d_dat i]); split; [reflexivity | apply ds_doomed_snoc; exact Hl] | exists l; auto].
    + split; [reflexivity|]. specialize (Hl []). rewrite app_nil_r in Hl. rewrite Hl. reflexivity.
Qed.

(* the decoder FSM's state, from the monitor's ACK delay in progress (wt) and armed status *)
Definition sd_inv (f : sd_fsm) (wt : option N) (ar : arm) : Prop :=
  match wt with
  | Some _ => f = SD_DELAY
  | None => match ar with A_no => f = SD_IDLE | A_yes => f = SD_READ_DATA
                        | A_q => f = SD_IDLE \/ f = SD_READ_DATA end
  end.

(* the ACK delay the monitor's reaction starts from, as in sm_step: a full-speed delay has begun iff a setup
   request that was left open (Rq) is in fact being reported *)
Definition wt_of (rx : rexp) (recv : bool) (sp : N) (wt : option N) : option N :=
  match rx with Rq _ => if recv && (sp =? 1) then Some 0 else wt | _ => wt end.

(* What one step of the decoder, d = (state, received, setup bytes, ack), and the monitor's reaction r to the
   same strobes have to do with each other.  sp = bus speed, e = the elapsed time the timer shows,
   setup / dpkt = the bytes held by the decoder / offered by the deserializer. *)
Definition sd_agrees (sp e : N) (setup dpkt : list N) (dnew : bool) (dn : dstat)
    (d : sd_fsm * bool * list N * bool) (r : arm * option N * rexp * option bool * bool) : Prop :=
  let '(f', recv', setup', ack) := d in
  let '(ar', wt', rx', exp_ack, quiet) := r in
  let wte' := wt_of rx' recv' sp wt' in
  match exp_ack with Some b => ack = b | None => True end /\
  match rx' with
  | R0 => recv' = false
  | R1 pl => dn = D8 pl /\ recv' = true /\ setup' = pl
  | Rq pl => dn = D8 pl /\ (recv' = true -> setup' = pl)
  end /\
  setup' = (if recv' then dpkt else setup) /\
  sd_inv f' wte' ar' /\
  match wte' with
  | Some k => quiet = true /\ sp_next e dnew = k /\ k <= 10 /\ sp = 1
  | None => True
  end.

Lemma sd_agrees_quiet : forall sp e setup dpkt dnew dn f' ar', sd_inv f' None ar' ->
  sd_agrees sp e setup dpkt dnew dn (f', false, setup, false) (ar', None, R0, Some false, false).
Proof. intros. cbn [sd_agrees wt_of]. repeat split. assumption. Qed.

Ltac sd_simp := cbn [sd_step sm_react snd andb orb N.eqb Pos.eqb].

(* The hypotheses are what c6_rel gives about the signals the decoder reads in this cycle: sp HIGH or FULL (the monitor's
   check), tx_allowed as the timer at e shows it, hs from sp, the FSM state, a delay in progress as the timer counts it,
   the deserializer's strobes for dn, no token strobe next to a delivered packet, a D8 packet only with 12 <= e. *)
Lemma sd_step_agrees : forall f setup ntok stok dnew dlen dpkt tx hs sp e wt ar dn,
  sp = 0 \/ sp = 1 ->
  tx = (if sp =? 0 then e =? 1 else e =? 10) -> hs = (sp =? 0) ->
  sd_inv f wt ar ->
  (forall k, wt = Some k -> e = k /\ k <= 10 /\ dn = D0 /\ sp = 1) ->
  strobe_facts dn dnew dlen dpkt ->
  (dn <> D0 -> ntok = false) ->
  (forall pl, dn = D8 pl -> 12 <= e) ->
  let d := sd_step true f setup ntok stok dnew dlen dpkt tx hs in
  sd_agrees sp e setup dpkt dnew dn d (sm_react sp wt ar dn ntok stok (snd d)).
Proof.
  intros f setup ntok stok dnew dlen dpkt tx hs sp e wt ar dn Hsp -> -> Hinv Hwt Hst Hx He d. subst d.
  assert (H8 : forall pl, dn = D8 pl -> ntok = false /\ (if sp =? 0 then e =? 1 else e =? 10) = false).
  { intros pl E. split; [apply Hx; rewrite E; discriminate|]. specialize (He pl E).
    destruct (sp =? 0); apply N.eqb_neq; lia. }
  assert (Hlen : dnew = true -> dn = Dx \/ dn = Dq -> (dlen =? 8) = false).
  { intros -> [-> | ->]; apply N.eqb_neq; [apply Hst | apply Hst; reflexivity]. }
  destruct wt as [k|]; [|destruct ar; cbn [sd_inv] in Hinv].
  - (* SD_DELAY *)
    destruct (Hwt k eq_refl) as (-> & Hk & -> & ->). cbn [sd_inv] in Hinv. subst f.
    cbn [strobe_facts] in Hst. subst dnew. sd_simp.
    destruct (k =? 10) eqn:K; cbn [sd_agrees wt_of andb sd_inv]; repeat split.
    apply N.eqb_neq in K. lia.
  - (* SD_IDLE *)
    subst f. sd_simp. apply sd_agrees_quiet. destruct (stok && ntok); reflexivity.
  - (* SD_READ_DATA *)
    subst f. destruct dn as [|pl| |]; cbn [strobe_facts] in Hst.
    + subst dnew. sd_simp. apply sd_agrees_quiet. destruct (ntok && negb stok); reflexivity.
    + destruct Hst as (-> & -> & ->). destruct (H8 pl eq_refl) as [-> ->]. sd_simp.
      destruct Hsp as [-> | ->]; cbn [sd_agrees wt_of N.eqb Pos.eqb andb sd_inv]; repeat split; discriminate.
    + destruct Hst as (-> & _). sd_simp. rewrite Hlen by auto. apply sd_agrees_quiet. reflexivity.
    + rewrite Hx by discriminate. sd_simp.
      destruct dnew; [rewrite Hlen by auto|]; apply sd_agrees_quiet; cbn [sd_inv]; auto.
  - (* a cut-off data packet has left it open whether the decoder is still armed: SD_IDLE or SD_READ_DATA *)
    destruct dn as [|pl| |]; cbn [strobe_facts] in Hst.
    + subst dnew. destruct Hinv as [-> | ->]; sd_simp; apply sd_agrees_quiet;
        destruct ntok, stok; cbn [andb negb sd_inv]; auto.
    + destruct Hst as (-> & -> & ->). destruct (H8 pl eq_refl) as [-> ->].
      destruct Hinv as [-> | ->]; sd_simp; rewrite ?andb_false_r;
        destruct Hsp as [-> | ->]; cbn [sd_agrees wt_of N.eqb Pos.eqb andb sd_inv]; repeat split; discriminate.
    + destruct Hst as (-> & _). rewrite Hx by discriminate.
      destruct Hinv as [-> | ->]; sd_simp; [rewrite andb_false_r | rewrite Hlen by auto]; apply sd_agrees_quiet; reflexivity.
    + rewrite Hx by discriminate. destruct Hinv as [-> | ->]; sd_simp.
      * rewrite andb_false_r. apply sd_agrees_quiet. cbn [sd_inv]. auto.
      * destruct dnew; [rewrite Hlen by auto|]; apply sd_agrees_quiet; cbn [sd_inv]; auto.
Qed.

Definition speed_of (m : sm_state) : N := match m_sp m with Some x => x | None => 0 end.
(* wt_of for a monitor state alone, with the speed read from m_sp: c6_rel has no current input to take it from.  Only
   m_rx = Rq looks at the speed, and there c6_rel says it is known: wt_eff m recv is wt_of (m_rx m) recv sp (m_wt m) at
   the speed sp of the cycle (Ewt in c6_step_agrees) *)
Definition wt_eff (m : sm_state) (recv : bool) : option N :=
  match m_rx m with Rq _ => if recv && (speed_of m =? 1) then Some 0 else m_wt m | _ => m_wt m end.

(* The receive path (tokenizer, deserializer with its CRC unit and strobes, timer: rel is IpTimer_proofs.rel) against
   the packet in progress fst tsp, the class dn of the packet that completed in the previous cycle, and the elapsed
   time e since the deserializer last signalled a packet (IpTimer's specification state).
   The two bounds on e: the timer restarts on new_packet only, which no cycle inside a packet shows (dn = D0 there), so
   a packet with bytes l so far has run for at least |l| cycles since; a D8 packet has 11 bytes, so its strobe comes
   with 12 <= e, past both instants of tx_allowed (e = 1, e = 10) counted from the packet before (H8 in sd_step_agrees).
   Last clause: a delivered data packet is no token (data_pid_not_token). *)
Definition c6_rx_rel (s : c6_state) (tsp : tsp_state) (dn : dstat) (e : N) : Prop :=
  td_rel true (c_td s) tsp /\ td_wf (c_td s) /\
  ds_shape (c_ds s) /\ ds_rel (c_ds s) (c_crc s) (fst tsp) /\
  strobe_facts dn (ds_new (c_ds s)) (ds_len (c_ds s)) (ds_pkt (c_ds s)) /\
  rel 640 (c_tmr s) e /\
  (forall l, fst tsp = Some l -> N.of_nat (length l) <= e) /\
  (forall pl, dn = D8 pl -> 12 <= e) /\
  (fst tsp <> None -> dn = D0) /\
  (dn <> D0 -> t_new_token (snd tsp) = false).

(* The relation between the corrected model, the monitor state and the elapsed time e.  Its first ten clauses are
   c6_rx_rel s (m_tsp m) (m_dn m) e written out (c6_rel_rx).  Then the decoder: the setup register holds 8 bytes;
   `received` and the register are what m_rx expects of this cycle (with Rq, which leaves `received` open, the speed is
   known); while `received` is low the register shows the fields m_fl the monitor expects; the speed is unset, HIGH or
   FULL; the FSM state is sd_inv of the monitor's delay and armed status; while a delay is counted (wt_eff = Some k) the
   timer shows it, e = k <= 10, the speed is FULL and neither a packet nor a token strobe is showing; nor is one showing
   in a cycle in which a request is, or may be, reported (m_rx <> R0).  c6_rel_step uses neither this last clause nor the
   token strobe of the one before; they are there for armed_of_token: when a token is signalled nothing is pending. *)
Definition c6_rel (s : c6_state) (m : sm_state) (e : N) : Prop :=
  td_rel true (c_td s) (m_tsp m) /\ td_wf (c_td s) /\
  ds_shape (c_ds s) /\ ds_rel (c_ds s) (c_crc s) (fst (m_tsp m)) /\
  strobe_facts (m_dn m) (ds_new (c_ds s)) (ds_len (c_ds s)) (ds_pkt (c_ds s)) /\
  rel 640 (c_tmr s) e /\
  (forall l, fst (m_tsp m) = Some l -> N.of_nat (length l) <= e) /\
  (forall pl, m_dn m = D8 pl -> 12 <= e) /\
  (fst (m_tsp m) <> None -> m_dn m = D0) /\
  (m_dn m <> D0 -> t_new_token (snd (m_tsp m)) = false) /\
  length (c_setup s) = 8%nat /\ bytes_ok (c_setup s) /\
  match m_rx m with
  | R0 => c_recv s = false
  | R1 pl => c_recv s = true /\ c_setup s = pl
  | Rq pl => (c_recv s = true -> c_setup s = pl) /\ m_sp m <> None
  end /\
  (c_recv s = false -> le_bytes (c_setup s) = m_fl m) /\
  (m_sp m = None \/ m_sp m = Some 0 \/ m_sp m = Some 1) /\
  sd_inv (c_f s) (wt_eff m (c_recv s)) (m_ar m) /\
  (forall k, wt_eff m (c_recv s) = Some k ->
             e = k /\ k <= 10 /\ m_dn m = D0 /\ t_new_token (snd (m_tsp m)) = false /\ m_sp m = Some 1) /\
  (m_rx m <> R0 -> m_dn m = D0 /\ t_new_token (snd (m_tsp m)) = false).

Lemma c6_rel_rx : forall s m e, c6_rel s m e -> c6_rx_rel s (m_tsp m) (m_dn m) e.
Proof. intros s m e (A1 & A2 & A3 & A4 & A5 & A6 & A7 & A8 & A9 & A10 & _). unfold c6_rx_rel. auto 12. Qed.

Lemma c6_rel_speed : forall s m e sp, c6_rel s m e -> m_sp m = Some sp -> sp = 0 \/ sp = 1.
Proof.
  intros s m e sp (_ & _ & _ & _ & _ & _ & _ & _ & _ & _ & _ & _ & _ & _ & RSP & _) Hsp.
  rewrite Hsp in RSP. destruct RSP as [H|[H|H]]; inversion H; auto.
Qed.

Lemma c6_rel_recv : forall s m e, c6_rel s m e ->
  match m_rx m with
  | R0 => c_recv s = false
  | R1 pl => c_recv s = true /\ c_setup s = pl
  | Rq pl => (c_recv s = true -> c_setup s = pl) /\ m_sp m <> None
  end.
Proof. intros s m e (_ & _ & _ & _ & _ & _ & _ & _ & _ & _ & _ & _ & RR & _). exact RR. Qed.

Lemma c6_rel_init : c6_rel c6_init sm_init 0.
Proof.
  unfold c6_rel, c6_init, sm_init, wt_eff. cbn [c_td c_crc c_tmr c_ds c_f c_recv c_setup m_tsp m_dn m_ar m_wt m_rx m_fl m_sp].
  split; [apply td_rel_init|]. split; [apply td_wf_init|]. split; [apply ds_shape_init|].
  split; [reflexivity|]. split; [reflexivity|]. split; [apply rel_init with (w := 10); reflexivity|].
  repeat split; discriminate || congruence || auto. repeat constructor.
Qed.

Definition c6_sd (s : c6_state) (i : N) : sd_fsm * bool * list N * bool :=
  sd_step true (c_f s) (c_setup s) (t_new_token (td_regs (c_td s))) (t_pid (td_regs (c_td s)) =? 13)
          (ds_new (c_ds s)) (ds_len (c_ds s)) (ds_pkt (c_ds s)) (tx_allowed_at (c_tmr s) (c_speed i)) (c_speed i =? 0).

Lemma c6_step_eq : forall s i, c6_step true true s i =
  ({| c_td := fst (td_step true (c_td s) (c_utmi i));
      c_crc := fst (crc16mod_step (c_crc s) (b2n (match ds_f (c_ds s) with DS_READ_PID => true | _ => false end)
                                             + 2 * d_dat i + 512 * b2n (d_val i)));
      c_tmr := ip_next 640 10 (c_tmr s) (ds_new (c_ds s));
      c_ds := ds_step true 8 4 4 (c_ds s) (d_act i) (d_val i) (d_dat i) (crc_out (c_crc s));
      c_f := fst (fst (fst (c6_sd s i))); c_recv := snd (fst (fst (c6_sd s i))); c_setup := snd (fst (c6_sd s i)) |},
   c6_out s (snd (c6_sd s i))).
Proof.
  intros s i. unfold c6_step, c6_sd. destruct (sd_step _ _ _ _ _ _ _ _ _ _) as [[[f' recv'] setup'] ack]. reflexivity.
Qed.

Lemma c6_out_fields : forall s m e ack, c6_rel s m e ->
  let o := c6_out s ack in
  o_recv o = c_recv s /\ o_flds o = le_bytes (c_setup s) /\ o_ack o = ack /\ o_endp o = t_ep (td_regs (c_td s)).
Proof.
  intros s m e ack (_ & (_ & _ & _ & _ & Hep & _) & _ & _ & _ & _ & _ & _ & _ & _ & SL & SB & _) o.
  pose proof (le_bytes_bound _ SB) as Hfl. rewrite SL in Hfl.
  set (L := [(1, b2n (c_recv s)); (64, le_bytes (c_setup s)); (1, b2n ack); (4, t_ep (td_regs (c_td s)))]).
  assert (HL : fields_ok L) by (repeat constructor; cbn [fst snd]; try apply b2n_lt2; assumption).
  assert (E : o = fields_word L) by (subst o L; unfold c6_out; cbn [fields_word]; lia).
  rewrite E. unfold o_recv. rewrite <- N.bit0_odd.
  split; [exact (testbit_fields_word L 0 _ HL eq_refl)|]. split; [exact (bits_fields_word L 1 HL)|].
  split; [exact (testbit_fields_word L 2 _ HL eq_refl) | exact (bits_fields_word L 3 HL)].
Qed.

Lemma tx_allowed_spec : forall c e sp, rel 640 c e -> sp = 0 \/ sp = 1 ->
  tx_allowed_at c sp = if sp =? 0 then e =? 1 else e =? 10.
Proof.
  intros c e sp H Hsp. unfold tx_allowed_at, c6_tbl.
  rewrite (rel_strobes 640 10 (tbl_60 false) (tbl_60_ok false) eq_refl c e sp H).
  assert (O : forall x y z, N.odd (b2n x + 2 * b2n y + 4 * b2n z) = x).
  { intros. replace (b2n x + 2 * b2n y + 4 * b2n z) with (b2n x + 2 * (b2n y + 2 * b2n z)) by lia. apply odd_b2n_add_2. }
  destruct Hsp as [-> | ->]; apply O.
Qed.

Lemma data_pid_not_token : forall filt a p body, data_pid p = true -> classify filt a (p :: body) = EvNone.
Proof.
  intros filt a p body DP. apply (not_a_token_byte data_pid false); [reflexivity | repeat constructor | exact DP].
Qed.

Lemma dclass_not_D0_data : forall pkt, dclass pkt <> D0 -> exists p body, pkt = p :: body /\ data_pid p = true.
Proof.
  intros [|p body] H; [exfalso; apply H; reflexivity|]. exists p, body. split; [reflexivity|].
  destruct (data_pid p) eqn:DP; [reflexivity|]. exfalso. apply H. apply dclass_nondata. exact DP.
Qed.

Lemma dclass_D8_length : forall pkt pl, dclass pkt = D8 pl -> length pkt = 11%nat.
Proof.
  intros [|p body] pl H; [discriminate|]. unfold dclass in H. destruct (negb (data_pid p)); [discriminate|].
  pose proof (rev_length body) as L. destruct (rev body) as [|hi [|lo rp]]; try discriminate.
  destruct (Nat.leb (length (rev rp)) 8 && (crc16_usb (rev rp) =? lo + 256 * hi)); [|discriminate].
  destruct (Nat.eqb (length (rev rp)) 8) eqn:E; [|discriminate]. apply Nat.eqb_eq in E.
  rewrite rev_length in E. cbn [length] in *. lia.
Qed.

Lemma tsp_step_utmi : forall tsp i, fst (tsp_step true tsp (c_utmi i)) =
  (pk_next (fst tsp) i,
   apply_event (match pk_done (fst tsp) i with Some pkt => classify true (t_address (c_utmi i)) pkt | None => EvNone end)
               (snd tsp)).
Proof.
  intros [p r] i. cbn [tsp_step fst snd]. unfold tok_event_of. destruct (pk_utmi p i) as [-> ->]. reflexivity.
Qed.

Lemma c6_rx_rel_step : forall s tsp dn e i, c6_rx_rel s tsp dn e ->
  c6_rx_rel (fst (c6_step true true s i)) (fst (tsp_step true tsp (c_utmi i)))
         (match pk_done (fst tsp) i with Some pkt => dclass pkt | None => D0 end) (sp_next e (ds_new (c_ds s))).
Proof.
  intros s [p r] dn e i (RT & RW & RS & RD & RF & RE & RL & R12 & RP & RX).
  destruct (td_rel_step true _ _ (c_utmi i) RT) as [RT' _].
  destruct (ds_rel_step _ _ _ i RS RD) as (RD' & RF').
  rewrite c6_step_eq. rewrite tsp_step_utmi in *. unfold c6_rx_rel. cbn [fst snd c_td c_crc c_tmr c_ds] in *.
  assert (Hrun : p <> None -> sp_next e (ds_new (c_ds s)) = e + 1).
  { intro Hp. rewrite (RP Hp) in RF. cbn [strobe_facts] in RF. rewrite RF. reflexivity. }
  split; [exact RT'|]. split; [apply td_wf_step; exact RW|].
  split; [apply ds_shape_step; [apply d_dat_bound | exact RS]|].
  split; [exact RD'|]. split; [exact RF'|]. split; [apply rel_next; [reflexivity | exact RE]|].
  split.
  { intros l Hl. apply pk_next_length in Hl. destruct p as [l0|]; [|subst l; apply N.le_0_l].
    rewrite Hrun by discriminate. specialize (RL l0 eq_refl). lia. }
  split.
  { intros pl Hd. destruct (pk_done p i) as [pkt|] eqn:D; [|discriminate]. apply pk_done_inv in D as [-> _].
    apply dclass_D8_length in Hd. rewrite Hrun by discriminate. specialize (RL pkt eq_refl). lia. }
  split.
  { intro Hp. destruct (pk_done p i) as [pkt|] eqn:D; [|reflexivity]. apply pk_done_inv in D as [_ D]. congruence. }
  intro Hd. destruct (pk_done p i) as [pkt|]; [|reflexivity].
  destruct (dclass_not_D0_data pkt Hd) as (q & body & -> & DP). rewrite data_pid_not_token by exact DP. reflexivity.
Qed.

(* `injection` / `inversion` on an equation sm_step m i o = Some (m', ok) do not return in reasonable time *)
Lemma some_pair_inj : forall (A B : Type) (a a' : A) (b b' : B), Some (a, b) = Some (a', b') -> a = a' /\ b = b'.
Proof. intros A B a a' b b' H. split; congruence. Qed.

Lemma sm_step_inv : forall m i o m' ok, sm_step m i o = Some (m', ok) ->
  let sp := c_speed i in
  let r := snd (m_tsp m) in
  let done := pk_done (fst (m_tsp m)) i in
  let exp_fl := match m_rx m with R0 => m_fl m | R1 pl | Rq pl => if o_recv o then le_bytes pl else m_fl m end in
  exists ar' wt' rx' exp_ack quiet,
    (forall x, m_sp m = Some x -> x = sp) /\ (sp = 0 \/ sp = 1) /\
    sm_react sp (wt_of (m_rx m) (o_recv o) sp (m_wt m)) (m_ar m) (m_dn m) (t_new_token r) (t_pid r =? 13) (o_ack o)
      = (ar', wt', rx', exp_ack, quiet) /\
    (quiet = true -> done = None) /\
    m' = {| m_tsp := fst (tsp_step true (m_tsp m) (c_utmi i));
            m_dn := match done with Some pkt => dclass pkt | None => D0 end;
            m_ar := ar'; m_wt := wt'; m_rx := rx'; m_fl := exp_fl; m_sp := Some sp |} /\
    ok = (match m_rx m with R0 => negb (o_recv o) | R1 _ => o_recv o | Rq _ => true end) && (o_flds o =? exp_fl)
         && (match exp_ack with Some b => Bool.eqb (o_ack o) b | None => true end) && (o_endp o =? t_ep r).
Proof.
  intros m i o m' ok H sp r done exp_fl. unfold sm_step in H.
  set (sp0 := match m_sp m with Some x => x | None => c_speed i end) in H.
  destruct (negb ((c_speed i =? sp0) && (sp0 <=? 1))) eqn:EV; [discriminate|].
  apply negb_false_iff, andb_true_iff in EV as [EV1 EV2]. apply N.eqb_eq in EV1. apply N.leb_le in EV2.
  assert (Hm : forall x, m_sp m = Some x -> x = sp) by (intros x Hx; subst sp0; rewrite Hx in EV1; symmetry; exact EV1).
  (* from here on sp0 is only the speed of this cycle (EV1) *)
  clearbody sp0. subst sp0. fold sp r done exp_fl (wt_of (m_rx m) (o_recv o) sp (m_wt m)) in H.
  destruct (sm_react sp (wt_of (m_rx m) (o_recv o) sp (m_wt m)) (m_ar m) (m_dn m) (t_new_token r) (t_pid r =? 13) (o_ack o))
    as [[[[ar' wt'] rx'] exp_ack] quiet] eqn:Hre.
  destruct (quiet && match done with Some _ => true | None => false end) eqn:Q; [discriminate|].
  apply some_pair_inj in H as [<- <-]. exists ar', wt', rx', exp_ack, quiet.
  split; [exact Hm|]. split; [lia|]. split; [reflexivity|]. split; [|split; reflexivity].
  intros ->. destruct done; [discriminate Q | reflexivity].
Qed.

Lemma c6_step_agrees : forall s m e i,
  c6_rel s m e -> (forall x, m_sp m = Some x -> x = c_speed i) -> c_speed i = 0 \/ c_speed i = 1 ->
  sd_agrees (c_speed i) e (c_setup s) (ds_pkt (c_ds s)) (ds_new (c_ds s)) (m_dn m) (c6_sd s i)
    (sm_react (c_speed i) (wt_of (m_rx m) (c_recv s) (c_speed i) (m_wt m))
              (m_ar m) (m_dn m) (t_new_token (snd (m_tsp m))) (t_pid (snd (m_tsp m)) =? 13) (snd (c6_sd s i))).
Proof.
  intros s m e i ([Hregs _] & _ & _ & _ & RF & RE & _ & R12 & _ & RX & _ & _ & RR & _ & _ & RI & RK & _) Hm Hsp.
  assert (Ewt : wt_of (m_rx m) (c_recv s) (c_speed i) (m_wt m) = wt_eff m (c_recv s)).
  { unfold wt_eff, speed_of. destruct (m_rx m) as [|pl|pl]; try reflexivity.
    destruct RR as [_ Hn]. destruct (m_sp m) as [x|]; [rewrite (Hm x eq_refl); reflexivity | congruence]. }
  rewrite Ewt, <- Hregs in *. unfold c6_sd. apply sd_step_agrees; try assumption.
  - apply tx_allowed_spec; assumption.
  - reflexivity.
  - intros k Hk. destruct (RK k Hk) as (A1 & A2 & A3 & A4 & A5). rewrite (Hm 1 A5). auto.
Qed.

Lemma c6_rel_step : forall s m e i m' ok,
  c6_rel s m e -> sm_step m i (snd (c6_step true true s i)) = Some (m', ok) ->
  ok = true /\ c6_rel (fst (c6_step true true s i)) m' (sp_next e (ds_new (c_ds s))).
Proof.
  intros s m e i m' ok R H.
  pose proof (c6_rx_rel_step _ _ _ _ i (c6_rel_rx _ _ _ R)) as RX'. rewrite c6_step_eq in *. cbn [fst snd] in H |- *.
  apply sm_step_inv in H as (ar' & wt' & rx' & exp_ack & quiet & Hm & Hsp & Hre & Hq & -> & ->).
  destruct (c6_out_fields s m e (snd (c6_sd s i)) R) as (O1 & O2 & O3 & O4). rewrite O1, O2, O3, O4 in *.
  pose proof (c6_step_agrees s m e i R Hm Hsp) as G. rewrite Hre in G.
  destruct (c6_sd s i) as [[[f' recv'] setup'] ack]. cbn [fst snd] in *.
  destruct G as (Gack & Grx & Gsetup & Ginv & Gk).
  destruct R as ([Hregs _] & _ & RS & _ & _ & _ & _ & _ & RP & _ & SL & SB & RR & RFL & _).
  assert (Ev : match m_rx m with R0 => negb (c_recv s) | R1 _ => c_recv s | Rq _ => true end = true /\
               match m_rx m with R0 => m_fl m | R1 pl | Rq pl => if c_recv s then le_bytes pl else m_fl m end
               = le_bytes (c_setup s)).
  { destruct (m_rx m) as [|pl|pl].
    - rewrite RR. split; [reflexivity | symmetry; apply RFL, RR].
    - destruct RR as [-> ->]. split; reflexivity.
    - destruct RR as [RR _]. destruct (c_recv s); [rewrite RR | rewrite RFL]; split; reflexivity. }
  destruct Ev as [Ev ->]. split.
  { rewrite Ev, Hregs, !N.eqb_refl. destruct exp_ack as [b|]; [subst b; rewrite Bool.eqb_reflx|]; reflexivity. }
  assert (Hidle : pk_done (fst (m_tsp m)) i = None ->
            match pk_done (fst (m_tsp m)) i with Some pkt => dclass pkt | None => D0 end = D0 /\
            t_new_token (snd (fst (tsp_step true (m_tsp m) (c_utmi i)))) = false)
    by (intro D; rewrite tsp_step_utmi, D; split; reflexivity).
  destruct RX' as (A1 & A2 & A3 & A4 & A5 & A6 & A7 & A8 & A9 & A10).
  unfold c6_rel. cbn [c_td c_crc c_tmr c_ds c_f c_recv c_setup m_tsp m_dn m_ar m_wt m_rx m_fl m_sp] in *.
  repeat (split; [assumption|]).
  split; [subst setup'; destruct recv'; [apply RS | exact SL]|].
  split; [subst setup'; destruct recv'; [apply RS | exact SB]|].
  split; [destruct rx'; [exact Grx | apply Grx | split; [apply Grx | discriminate]]|].
  split; [intros ->; subst setup'; reflexivity|].
  split; [destruct Hsp as [-> | ->]; auto|].
  split; [exact Ginv|].
  split.
  { intros k Hk. change (wt_eff _ recv') with (wt_of rx' recv' (c_speed i) wt') in Hk.
    rewrite Hk in Gk. destruct Gk as (-> & Ge & Gk10 & ->). destruct (Hidle (Hq eq_refl)). auto. }
  intro Hrx. apply Hidle.
  assert (Hd8 : exists pl, m_dn m = D8 pl) by (destruct rx'; [congruence | exists pl; apply Grx | exists pl; apply Grx]).
  destruct Hd8 as [pl Hd8]. destruct (fst (m_tsp m)); [|reflexivity]. rewrite RP in Hd8 by discriminate. discriminate.
Qed.

(* C06: every run of the corrected model is accepted by the specification monitor. *)
Theorem c6_accepts_from : forall tr s m e, c6_rel s m e ->
  sm_accepts m (combine tr (run (c6_step true true) s tr)) = true.
Proof.
  induction tr as [|i tr IH]; intros s m e R; [reflexivity|].
  rewrite run_cons. cbn [combine sm_accepts].
  destruct (sm_step m i (snd (c6_step true true s i))) as [[m' ok]|] eqn:Em; [|reflexivity].
  destruct (c6_rel_step _ _ _ _ _ _ R Em) as [-> R']. exact (IH _ _ _ R').
Qed.

Theorem c6_accepts : forall tr, sm_accepts sm_init (combine tr (run (c6_step true true) c6_init tr)) = true.
Proof. intro tr. eapply c6_accepts_from. apply c6_rel_init. Qed.

Lemma c6_joint_cons : forall s m i t r, c6_joint s m (i :: t) = Some r ->
  exists m1 ok, sm_step m i (snd (c6_step true true s i)) = Some (m1, ok) /\
                c6_joint (fst (c6_step true true s i)) m1 t = Some r.
Proof.
  intros s m i t r H. cbn [c6_joint] in H. destruct (c6_step true true s i) as [s1 o]. cbn [fst snd].
  destruct (sm_step m i o) as [[m1 ok]|]; [exists m1, ok; split; [reflexivity | exact H] | discriminate].
Qed.

Lemma c6_joint_app : forall a b s m,
  c6_joint s m (a ++ b) = match c6_joint s m a with Some (s', m') => c6_joint s' m' b | None => None end.
Proof.
  induction a as [|i a IH]; intros b s m; [reflexivity|].
  cbn [app c6_joint]. destruct (c6_step true true s i) as [s' o]. destruct (sm_step m i o) as [[m' ok]|]; [apply IH | reflexivity].
Qed.

Lemma c6_joint_rel : forall tr s m e s' m', c6_rel s m e -> c6_joint s m tr = Some (s', m') ->
  (exists e', c6_rel s' m' e') /\ s' = run_state (c6_step true true) s tr.
Proof.
  induction tr as [|i tr IH]; intros s m e s' m' R H.
  - inversion H; subst. split; [eauto | reflexivity].
  - apply c6_joint_cons in H as (m1 & ok & Em & H).
    destruct (c6_rel_step _ _ _ _ _ _ R Em) as [_ R']. exact (IH _ _ _ _ _ R' H).
Qed.

(* A cycle of the model and the monitor computed forwards, when the monitor is not waiting for `received` to tell
   whether a request is being reported (m_rx is not Rq) and its reaction to the cycle is known. *)
Lemma joint_step : forall s m e i sp ar' wt' rx' exp_ack quiet,
  c6_rel s m e -> m_sp m = Some sp -> c_speed i = sp -> (forall pl, m_rx m <> Rq pl) ->
  let o := snd (c6_step true true s i) in
  sm_react sp (m_wt m) (m_ar m) (m_dn m) (t_new_token (snd (m_tsp m))) (t_pid (snd (m_tsp m)) =? 13) (o_ack o)
    = (ar', wt', rx', exp_ack, quiet) ->
  (quiet = true -> pk_done (fst (m_tsp m)) i = None) ->
  exists m', c6_rel (fst (c6_step true true s i)) m' (sp_next e (ds_new (c_ds s))) /\
    m_tsp m' = fst (tsp_step true (m_tsp m) (c_utmi i)) /\
    m_dn m' = match pk_done (fst (m_tsp m)) i with Some pkt => dclass pkt | None => D0 end /\
    m_ar m' = ar' /\ m_wt m' = wt' /\ m_rx m' = rx' /\ m_sp m' = Some sp /\
    match exp_ack with Some b => o_ack o = b | None => True end.
Proof.
  intros s m e i sp ar' wt' rx' exp_ack quiet R Hsp Hspeed Hrx o Hre Hq.
  assert (Ew : forall w, match m_rx m with Rq _ => w | _ => m_wt m end = m_wt m).
  { intro w. destruct (m_rx m) as [| |pl] eqn:E; [reflexivity | reflexivity | destruct (Hrx pl eq_refl)]. }
  eassert (Em : sm_step m i o = Some _).
  { unfold sm_step. rewrite Hsp, Hspeed, N.eqb_refl, Ew, Hre.
    replace (sp <=? 1) with true by (destruct (c6_rel_speed _ _ _ _ R Hsp) as [-> | ->]; reflexivity). cbn [andb negb].
    replace (quiet && _) with false by (destruct quiet; [rewrite Hq by reflexivity|]; reflexivity).
    reflexivity. }
  destruct (c6_rel_step _ _ _ _ _ _ R Em) as [Hok R'].
  eexists. split; [exact R'|]. cbn [m_tsp m_dn m_ar m_wt m_rx m_sp]. repeat split.
  rewrite !andb_true_iff in Hok. destruct Hok as [[_ Hok] _].
  destruct exp_ack; [apply Bool.eqb_prop; exact Hok | exact I].
Qed.

(* nothing is pending in the monitor, and a SETUP token for this device is being signalled or was the last
   token event *)
Definition armed_inv (m : sm_state) : Prop :=
  m_wt m = None /\ m_rx m = R0 /\ m_dn m = D0 /\
  (t_new_token (snd (m_tsp m)) = true -> t_pid (snd (m_tsp m)) = 13) /\
  (t_new_token (snd (m_tsp m)) = false -> m_ar m = A_yes).

Lemma armed_of_token : forall s m e, c6_rel s m e ->
  t_new_token (snd (m_tsp m)) = true -> t_pid (snd (m_tsp m)) = 13 -> armed_inv m.
Proof.
  intros s m e (_ & _ & _ & _ & _ & _ & _ & _ & _ & RX & _ & _ & _ & _ & _ & _ & RK & RQ) Hnt Hpid.
  assert (Hdn : m_dn m = D0).
  { destruct (m_dn m) eqn:E; [reflexivity| | |]; rewrite RX in Hnt by discriminate; discriminate. }
  assert (Hrx : m_rx m = R0).
  { destruct (m_rx m) eqn:E; [reflexivity| |]; destruct RQ as [_ Q]; try discriminate; rewrite Q in Hnt; discriminate. }
  assert (Hwt : m_wt m = None).
  { destruct (m_wt m) as [k|] eqn:E; [|reflexivity].
    assert (W : wt_eff m (c_recv s) = Some k) by (unfold wt_eff; rewrite Hrx; exact E).
    destruct (RK k W) as (_ & _ & _ & Q & _). rewrite Q in Hnt. discriminate. }
  unfold armed_inv. repeat split; auto. intro Q. rewrite Q in Hnt. discriminate.
Qed.

Lemma armed_step : forall s m e i sp, c6_rel s m e -> armed_inv m -> m_sp m = Some sp -> c_speed i = sp ->
  exists m', c6_rel (fst (c6_step true true s i)) m' (sp_next e (ds_new (c_ds s))) /\
    fst (m_tsp m') = pk_next (fst (m_tsp m)) i /\
    m_dn m' = match pk_done (fst (m_tsp m)) i with Some pkt => dclass pkt | None => D0 end /\
    m_ar m' = A_yes /\ m_wt m' = None /\ m_rx m' = R0 /\ m_sp m' = Some sp /\
    (pk_done (fst (m_tsp m)) i = None -> armed_inv m').
Proof.
  intros s m e i sp R (Kw & Kr & Kd & Kt & Ka) Hsp Hspeed.
  assert (Ere : sm_react sp (m_wt m) (m_ar m) (m_dn m) (t_new_token (snd (m_tsp m))) (t_pid (snd (m_tsp m)) =? 13)
                  (o_ack (snd (c6_step true true s i))) = (A_yes, None, R0, Some false, false)).
  { rewrite Kw, Kd. unfold sm_react. destruct (t_new_token (snd (m_tsp m))).
    - rewrite (Kt eq_refl). destruct (m_ar m); reflexivity.
    - rewrite (Ka eq_refl). reflexivity. }
  destruct (joint_step s m e i sp _ _ _ _ _ R Hsp Hspeed ltac:(rewrite Kr; discriminate) Ere ltac:(discriminate))
    as (m' & R' & T & D & A & W & X & P & _).
  rewrite tsp_step_utmi in T. exists m'. rewrite T. do 7 (split; [assumption || reflexivity|]).
  intro Hd. rewrite Hd in D, T. unfold armed_inv. rewrite T. cbn [snd apply_event t_new_token]. repeat split; auto. discriminate.
Qed.

Lemma armed_cycles : forall cs s m e sp,
  c6_rel s m e -> armed_inv m -> m_sp m = Some sp -> Forall (fun i => c_speed i = sp) cs ->
  no_done (fst (m_tsp m)) cs ->
  exists m' e', c6_rel (run_state (c6_step true true) s cs) m' e' /\ armed_inv m' /\ m_sp m' = Some sp /\
                fst (m_tsp m') = fold_left pk_next cs (fst (m_tsp m)).
Proof.
  induction cs as [|i cs IH]; intros s m e sp R K Hsp Hall Hnd; [exists m, e; auto|].
  inversion Hall as [|? ? Hi Hcs]; subst. destruct Hnd as [Hd Hnd]. cbn [run_state fold_left].
  destruct (armed_step s m e i _ R K Hsp eq_refl) as (m1 & R1 & T & _ & _ & _ & _ & P & K1).
  rewrite <- T in *. exact (IH _ _ _ _ R1 (K1 Hd) P Hcs Hnd).
Qed.

Lemma setup_data_stage : forall s m e sp gap runc pl y1 y2,
  c6_rel s m e -> m_sp m = Some sp ->
  t_new_token (snd (m_tsp m)) = true -> t_pid (snd (m_tsp m)) = 13 -> fst (m_tsp m) = None ->
  Forall (fun i => d_act i = false) gap -> Forall (fun i => d_act i = true) runc -> runc <> [] ->
  dclass (run_bytes runc) = D8 pl -> d_act y1 = false ->
  Forall (fun i => c_speed i = sp) (gap ++ runc) -> c_speed y1 = sp -> c_speed y2 = sp ->
  let s1 := fst (c6_step true true (run_state (c6_step true true) s (gap ++ runc)) y1) in
  o_ack (snd (c6_step true true s1 y2)) = (sp =? 0) /\
  exists m2 e2, c6_rel (fst (c6_step true true s1 y2)) m2 e2 /\ m_wt m2 = (if sp =? 0 then None else Some 0) /\
                m_rx m2 = R1 pl /\ m_sp m2 = Some sp /\ fst (m_tsp m2) = pk_next None y2.
Proof.
  intros s m e sp gap runc pl y1 y2 R Hsp Hnt Hpid Hp Hgap Hrun Hne Hd8 Hy1 Hspeed S1 S2 s1.
  assert (Hnd : no_done (fst (m_tsp m)) (gap ++ runc)) by (rewrite Hp; apply no_done_gap_run; assumption).
  destruct (armed_cycles _ _ _ _ _ R (armed_of_token _ _ _ R Hnt Hpid) Hsp Hspeed Hnd) as (m0 & e0 & Rel0 & K0 & Hsp0 & Hp0).
  rewrite Hp, fold_left_app, fold_pk_gap, fold_pk_run in Hp0 by assumption.
  destruct (armed_step _ m0 e0 y1 sp Rel0 K0 Hsp0 S1) as (m1 & Rel1 & T1 & D1 & A1 & W1 & X1 & P1 & _). fold s1 in Rel1.
  rewrite Hp0 in T1, D1. cbn [pk_done pk_next] in T1, D1. rewrite Hy1 in T1, D1. rewrite Hd8 in D1.
  destruct (joint_step s1 m1 _ y2 sp A_no (if sp =? 0 then None else Some 0) (R1 pl) (Some (sp =? 0)) (sp =? 1) Rel1 P1 S2)
    as (m2 & Rel2 & T2 & _ & _ & W2 & X2 & P2 & Hack).
  { rewrite X1. discriminate. }
  { rewrite W1, A1, D1. reflexivity. }
  { intros _. rewrite T1. reflexivity. }
  split; [exact Hack|]. exists m2. eexists. split; [exact Rel2|]. rewrite T2, tsp_step_utmi, T1. auto.
Qed.

Lemma reported_shown : forall s m e pl i, c6_rel s m e -> m_rx m = R1 pl ->
  o_recv (snd (c6_step true true s i)) = true /\ o_flds (snd (c6_step true true s i)) = le_bytes pl.
Proof.
  intros s m e pl i R X. rewrite c6_step_eq. cbn [snd].
  destruct (c6_out_fields s m e (snd (c6_sd s i)) R) as (O1 & O2 & _).
  pose proof (c6_rel_recv _ _ _ R) as RR. rewrite X in RR. destruct RR as [RRa RRb].
  rewrite O1, O2, RRa, RRb. auto.
Qed.

(* In the current cycle a SETUP token for this device is being signalled (new_token with pid SETUP; by C01 that is
   exactly: a well-formed SETUP token packet with the device's address completed in the previous cycle).  Nothing is
   assumed about the history that led to (s, m). *)
Theorem setup_reported_from : forall s m e sp gap runc pl y1 y2 y3,
  c6_rel s m e -> m_sp m = Some sp ->
  t_new_token (snd (m_tsp m)) = true -> t_pid (snd (m_tsp m)) = 13 -> fst (m_tsp m) = None ->
  Forall (fun i => d_act i = false) gap -> Forall (fun i => d_act i = true) runc -> runc <> [] ->
  dclass (run_bytes runc) = D8 pl -> d_act y1 = false ->
  Forall (fun i => c_speed i = sp) (gap ++ runc ++ [y1; y2; y3]) ->
  let outs := run (c6_step true true) s (gap ++ runc ++ [y1; y2; y3]) in
  let n := (length gap + length runc)%nat in
  o_ack (nth (n + 1) outs 0) = (sp =? 0) /\
  o_recv (nth (n + 2) outs 0) = true /\ o_flds (nth (n + 2) outs 0) = le_bytes pl.
Proof.
  intros s m e sp gap runc pl y1 y2 y3 R Hsp Hnt Hpid Hp Hgap Hrun Hne Hd8 Hy1 Hspeed outs n.
  rewrite app_assoc in Hspeed. apply Forall_app in Hspeed as [Hsp_cs Hsp_y].
  apply Forall_cons_iff in Hsp_y as [S1 Hsp_y]. apply Forall_cons_iff in Hsp_y as [S2 _].
  destruct (setup_data_stage _ _ _ _ _ _ pl y1 y2 R Hsp Hnt Hpid Hp Hgap Hrun Hne Hd8 Hy1 Hsp_cs S1 S2)
    as (A & m2 & e2 & Rel2 & _ & X2 & _).
  subst outs n. rewrite app_assoc, <- app_length, !run_nth_app, !run_cons.
  split; [exact A | exact (reported_shown _ _ _ _ y3 Rel2 X2)].
Qed.

Lemma sm_step_tsp : forall m i o m' ok, sm_step m i o = Some (m', ok) ->
  m_tsp m' = fst (tsp_step true (m_tsp m) (c_utmi i)) /\ m_sp m' = Some (c_speed i).
Proof.
  intros m i o m' ok H. apply sm_step_inv in H as (ar' & wt' & rx' & ea & q & _ & _ & _ & _ & -> & _). split; reflexivity.
Qed.

Lemma joint_tsp : forall h s m s' m', c6_joint s m h = Some (s', m') ->
  m_tsp m' = run_state (tsp_step true) (m_tsp m) (map c_utmi h).
Proof.
  induction h as [|i h IH]; intros s m s' m' H; [inversion H; reflexivity|].
  apply c6_joint_cons in H as (m1 & ok & Em & H). cbn [map run_state].
  rewrite (IH _ _ _ _ H). destruct (sm_step_tsp _ _ _ _ _ Em) as [E _]. rewrite E. reflexivity.
Qed.

Lemma joint_speed : forall h x s m s' m', c6_joint s m (h ++ [x]) = Some (s', m') -> m_sp m' = Some (c_speed x).
Proof.
  intros h x s m s' m' H. rewrite c6_joint_app in H. destruct (c6_joint s m h) as [[s0 m0]|]; [|discriminate].
  apply c6_joint_cons in H as (m1 & ok & Em & H). inversion H; subst. apply (sm_step_tsp _ _ _ _ _ Em).
Qed.

(* "A preceding corrupted, aborted or unrelated packet never causes a later valid SETUP transaction to be
   missed." *)
Theorem setup_never_missed : forall h0 x tok a ep sp gap runc pl y1 y2 y3,
  let h := h0 ++ [x] in
  c6_env h = true ->
  pkt_in_progress (map c_utmi h0) = Some tok -> d_act x = false ->
  classify true (t_address (c_utmi x)) tok = EvToken PID_SETUP a ep ->
  Forall (fun i => d_act i = false) gap -> Forall (fun i => d_act i = true) runc -> runc <> [] ->
  dclass (run_bytes runc) = D8 pl -> d_act y1 = false ->
  Forall (fun i => c_speed i = sp) (h ++ gap ++ runc ++ [y1; y2; y3]) ->
  let outs := run (c6_step true true) c6_init (h ++ gap ++ runc ++ [y1; y2; y3]) in
  let n := (length h + length gap + length runc)%nat in
  o_ack (nth (n + 1) outs 0) = (sp =? 0) /\
  o_recv (nth (n + 2) outs 0) = true /\ o_flds (nth (n + 2) outs 0) = le_bytes pl.
Proof.
  intros h0 x tok a ep sp gap runc pl y1 y2 y3 h Henv Htok Hx Hcl Hgap Hrun Hne Hd8 Hy1 Hspeed outs n.
  unfold c6_env in Henv. destruct (c6_joint c6_init sm_init h) as [[s m]|] eqn:J; [|discriminate].
  destruct (c6_joint_rel _ _ _ _ _ _ c6_rel_init J) as [[e R] Es].
  apply Forall_app in Hspeed as [Hsp_h Hsp_rest].
  assert (Hsp : m_sp m = Some sp).
  { rewrite (joint_speed _ _ _ _ _ _ J). apply Forall_app in Hsp_h as [_ Hsp_x].
    apply Forall_cons_iff in Hsp_x as [-> _]. reflexivity. }
  pose proof (joint_tsp _ _ _ _ _ J) as Etsp. change (m_tsp sm_init) with tsp_init in Etsp.
  rewrite tsp_state_after in Etsp.
  assert (Eregs : snd (m_tsp m) = apply_event (EvToken PID_SETUP a ep) (regs_after true (map c_utmi h0))).
  { rewrite Etsp. cbn [snd]. subst h. rewrite map_app. cbn [map]. rewrite regs_after_snoc.
    rewrite Htok, tok_event_of_done, Hcl by (rewrite (proj1 (utmi_fields x)); exact Hx). reflexivity. }
  assert (Hnt : t_new_token (snd (m_tsp m)) = true) by (rewrite Eregs; reflexivity).
  assert (Hpid : t_pid (snd (m_tsp m)) = 13) by (rewrite Eregs; reflexivity).
  assert (Hp : fst (m_tsp m) = None).
  { rewrite Etsp. cbn [fst]. apply (tsp_new_token_idle true). rewrite Etsp in Hnt. exact Hnt. }
  destruct (setup_reported_from s m e sp gap runc pl y1 y2 y3 R Hsp Hnt Hpid Hp Hgap Hrun Hne Hd8 Hy1 Hsp_rest)
    as (A & B & C).
  subst outs n. rewrite <- !Nat.add_assoc, !(run_nth_app _ _ h), <- Es, !Nat.add_assoc. auto.
Qed.

Lemma sm_react_rx : forall sp wt ar dn ntok stok ack,
  match snd (fst (fst (sm_react sp wt ar dn ntok stok ack))) with
  | R0 => True
  | R1 pl | Rq pl => dn = D8 pl /\ ar <> A_no
  end.
Proof.
  intros. unfold sm_react.
  destruct wt as [k|]; [destruct (k =? 10) | destruct ar, dn; try destruct (sp =? 0); try destruct ack];
    cbn [fst snd]; try exact I; split; reflexivity || discriminate.
Qed.

Lemma sm_step_rx : forall m i o m' ok, sm_step m i o = Some (m', ok) ->
  match m_rx m' with R0 => True | R1 pl | Rq pl => m_dn m = D8 pl /\ m_ar m <> A_no end.
Proof.
  intros m i o m' ok H. apply sm_step_inv in H as (ar' & wt' & rx' & ea & q & _ & _ & Hre & _ & -> & _).
  apply (f_equal (fun re => snd (fst (fst re)))) in Hre. cbn [fst snd m_rx] in *. rewrite <- Hre. apply sm_react_rx.
Qed.

Theorem received_sound : forall h i s m s' m',
  c6_joint c6_init sm_init h = Some (s, m) -> c6_joint c6_init sm_init (h ++ [i]) = Some (s', m') ->
  c_recv s' = true -> exists pl, m_dn m = D8 pl /\ m_ar m <> A_no /\ c_setup s' = pl.
Proof.
  intros h i s m s' m' J J' Hr. rewrite c6_joint_app, J in J'.
  apply c6_joint_cons in J' as (m1 & ok & Em & J'). inversion J'; subst s' m1.
  destruct (c6_joint_rel _ _ _ _ _ _ c6_rel_init J) as [[e R] _].
  destruct (c6_rel_step _ _ _ _ _ _ R Em) as [_ R'].
  pose proof (sm_step_rx _ _ _ _ _ Em) as P. pose proof (c6_rel_recv _ _ _ R') as RR.
  destruct (m_rx m') as [|pl|pl].
  - rewrite RR in Hr. discriminate.
  - exists pl. destruct RR as [_ ->]. tauto.
  - exists pl. destruct RR as [RR _]. rewrite (RR Hr). tauto.
Qed.

Lemma delay_step : forall s m e k i,
  c6_rel s m e -> m_wt m = Some k -> (forall pl, m_rx m <> Rq pl) -> m_sp m = Some 1 -> c_speed i = 1 ->
  (k <> 10 -> pk_done (fst (m_tsp m)) i = None) ->
  exists m', c6_rel (fst (c6_step true true s i)) m' (sp_next e (ds_new (c_ds s))) /\
    o_ack (snd (c6_step true true s i)) = (k =? 10) /\
    m_wt m' = (if k =? 10 then None else Some (k + 1)) /\ m_rx m' = R0 /\ m_sp m' = Some 1 /\
    fst (m_tsp m') = pk_next (fst (m_tsp m)) i.
Proof.
  intros s m e k i R Hw Hrx Hsp Hspeed Hq.
  destruct (joint_step s m e i 1 A_no (if k =? 10 then None else Some (k + 1)) R0
              (Some (k =? 10)) (negb (k =? 10)) R Hsp Hspeed Hrx)
    as (m' & R' & T & _ & _ & W & X & P & Hack).
  { rewrite Hw. unfold sm_react. destruct (k =? 10); reflexivity. }
  { intro Q. apply Hq. apply N.eqb_neq. destruct (k =? 10); [discriminate Q | reflexivity]. }
  exists m'. rewrite T, tsp_step_utmi. auto 10.
Qed.

Lemma delay_cycles : forall cs s m e k,
  c6_rel s m e -> m_wt m = Some k -> (forall pl, m_rx m <> Rq pl) -> m_sp m = Some 1 ->
  Forall (fun i => c_speed i = 1) cs -> no_done (fst (m_tsp m)) cs -> k + N.of_nat (length cs) = 10 ->
  Forall (fun o => o_ack o = false) (run (c6_step true true) s cs) /\
  exists m' e', c6_rel (run_state (c6_step true true) s cs) m' e' /\ m_wt m' = Some 10 /\
                (forall pl, m_rx m' <> Rq pl) /\ m_sp m' = Some 1.
Proof.
  induction cs as [|i cs IH]; intros s m e k R Hw Hrx Hsp Hall Hnd Hk.
  - cbn [length] in Hk. split; [constructor|]. exists m, e. cbn [run_state].
    split; [exact R|]. split; [rewrite Hw; f_equal; lia|]. split; assumption.
  - apply Forall_cons_iff in Hall as [Hi Hcs]. destruct Hnd as [Hd Hnd]. cbn [length] in Hk.
    destruct (delay_step s m e k i R Hw Hrx Hsp Hi (fun _ => Hd)) as (m1 & R1 & Hack & W & X & P & T).
    replace (k =? 10) with false in * by (symmetry; apply N.eqb_neq; lia).
    rewrite run_cons. cbn [run_state]. rewrite <- T in Hnd.
    destruct (IH _ m1 _ (k + 1) R1 W ltac:(intros pl; rewrite X; discriminate) P Hcs Hnd ltac:(lia)) as [F E].
    split; [constructor; assumption | exact E].
Qed.

(* C06, full speed: the 12th cycle after rx_active fell (rx_active falls in cycle n; in n+1 the deserializer signals
   the packet, which restarts the timer: its counter reads 0 in n+2 and 10, that is 2 bit times, in n+12). *)
Theorem fs_ack_timing_from : forall s m e gap runc pl y1 y2 zs z,
  c6_rel s m e -> m_sp m = Some 1 ->
  t_new_token (snd (m_tsp m)) = true -> t_pid (snd (m_tsp m)) = 13 -> fst (m_tsp m) = None ->
  Forall (fun i => d_act i = false) gap -> Forall (fun i => d_act i = true) runc -> runc <> [] ->
  dclass (run_bytes runc) = D8 pl -> d_act y1 = false ->
  Forall (fun i => d_act i = false) (y2 :: zs) -> length zs = 10%nat ->
  Forall (fun i => c_speed i = 1) (gap ++ runc ++ [y1; y2] ++ zs ++ [z]) ->
  let outs := run (c6_step true true) s (gap ++ runc ++ [y1; y2] ++ zs ++ [z]) in
  let n := (length gap + length runc)%nat in
  o_ack (nth (n + 1) outs 0) = false /\
  (forall j, (j < 10)%nat -> o_ack (nth (n + 2 + j) outs 0) = false) /\
  o_ack (nth (n + 12) outs 0) = true.
Proof.
  intros s m e gap runc pl y1 y2 zs z R Hsp Hnt Hpid Hp Hgap Hrun Hne Hd8 Hy1 Hidle Hlen Hspeed outs n.
  rewrite app_assoc in Hspeed. apply Forall_app in Hspeed as [Hsp_cs Hsp_r].
  apply Forall_cons_iff in Hsp_r as [S1 Hsp_r]. apply Forall_cons_iff in Hsp_r as [S2 Hsp_r].
  apply Forall_app in Hsp_r as [Hsp_zs Hsp_z]. apply Forall_cons_iff in Hsp_z as [S3 _].
  apply Forall_cons_iff in Hidle as [Hy2 Hzs].
  destruct (setup_data_stage _ _ _ _ _ _ pl y1 y2 R Hsp Hnt Hpid Hp Hgap Hrun Hne Hd8 Hy1 Hsp_cs S1 S2)
    as (A & m2 & e2 & R2 & W2 & X2 & P2 & Hp2).
  cbn [pk_next] in Hp2. rewrite Hy2 in Hp2.
  assert (Hnd2 : no_done (fst (m_tsp m2)) zs) by (rewrite Hp2, <- (app_nil_r zs); apply no_done_gap_run; auto).
  destruct (delay_cycles zs _ m2 e2 0 R2 W2 ltac:(intros q; rewrite X2; discriminate) P2 Hsp_zs Hnd2 ltac:(rewrite Hlen; reflexivity))
    as (F & m3 & e3 & R3 & W3 & X3 & P3).
  destruct (delay_step _ m3 e3 10 z R3 W3 X3 P3 S3 ltac:(congruence)) as (_ & _ & Az & _).
  subst outs n. rewrite app_assoc, <- app_length.
  split; [|split].
  - rewrite run_nth_app. cbn [app]. rewrite !run_cons. exact A.
  - intros j Hj. rewrite <- Nat.add_assoc, run_nth_app. change (2 + j)%nat with (length [y1; y2] + j)%nat.
    rewrite run_nth_app, run_app, app_nth1 by (rewrite run_length; lia).
    rewrite Forall_forall in F. apply F, nth_In. rewrite run_length. lia.
  - rewrite run_nth_app. change 12%nat with (length [y1; y2] + 10)%nat. rewrite run_nth_app, <- Hlen, <- (Nat.add_0_r (length zs)).
    rewrite run_nth_app, run_cons. exact Az.
Qed.

Theorem c6_sweep_sound : forall gstep ginit w mk, c6_sweep_eq gstep ginit w mk = true ->
  forall x, x < 2 ^ N.of_nat w -> run gstep ginit (mk x) = run (c6_step true true) c6_init (mk x).
Proof.
  intros gstep ginit w mk H x Hx. unfold c6_sweep_eq in H.
  pose proof (forall_bits_sound w _ H x Hx) as E. cbv beta in E. apply list_eqb_eq in E. exact E.
Qed.
