(* TransactionPacketGenerator (TpGen.v), property C45: the code-shaped machine equals the specification machine
   (tp_refines), which sends exactly one header per accepted request, in order (sp_exactly_once),
   offers it until the header queue takes it (sp_offers), and whose header carries the request's
   fields (header_fields). *)
From Coq Require Import NArith List Bool Lia.
Import ListNotations.
From LunaLib Require Import Netlist Machine BitFacts.
From LunaModel Require Import TpGen.
Open Scope N_scope.

(* the specification's state is a function of the code's *)
Definition serving (st : tp_state) : option request :=
  match fsm st with DISPATCH => None | SEND k => Some (latched k st) end.

Lemma serving_next : forall st i, sp_next (serving st) i = serving (tp_next st i).
Proof.
  intros. unfold serving, tp_next, sp_next. destruct (fsm st); cbn [fsm].
  - destruct (strobe_kind i); reflexivity.
  - destruct (i_hsready i); reflexivity.
Qed.

Lemma serving_out : forall st i, tp_out st i = sp_out (serving st) i.
Proof. intros. unfold tp_out, serving. destruct (fsm st); reflexivity. Qed.

Theorem tp_refines_gen : forall ins st, run tp_step st ins = run sp_step (serving st) ins.
Proof.
  intros ins st. apply (sim_run_all tp_step sp_step (fun st p => p = serving st)); [|reflexivity].
  intros a _ i ->. split; [apply serving_next | apply serving_out].
Qed.

Theorem tp_refines : forall ins, run tp_step tp_init ins = run sp_step None ins.
Proof. intros. apply tp_refines_gen. Qed.

Lemma o_fields : forall r d v h,
  o_ready (pack_out r d v h) = r /\ o_done (pack_out r d v h) = d /\
  o_valid (pack_out r d v h) = v /\ o_header (pack_out r d v h) = h.
Proof.
  intros r d v h. unfold o_ready, o_done, o_valid, o_header, pack_out.
  set (L := [(1, b2n r); (1, b2n d); (1, b2n v)]).
  assert (HL : fields_ok L) by (repeat constructor; apply b2n_lt2).
  replace (_ + 8 * h) with (fields_under L h) by (cbn [fields_under L]; lia).
  rewrite N.bit0_odd, !N.testbit_odd, !N.shiftr_div_pow2. repeat split.
  - apply odd_b2n_add_2.
  - exact (fields_under_flag L h 1 d HL eq_refl).
  - exact (fields_under_flag L h 2 v HL eq_refl).
  - exact (fields_under_rest L h HL).
Qed.

Definition pend (p : option request) : list request := match p with Some r => [r] | None => [] end.

(* rest: the header of a request accepted but not yet sent when the trace ends *)
Theorem sp_exactly_once : forall ins p,
  let ios := combine ins (run sp_step p ins) in
  exists rest, (length rest <= 1)%nat /\
    map encode (pend p ++ requests_of ios) = packets_of ios ++ rest.
Proof.
  induction ins as [|i t IH]; intros p.
  - destruct p; cbn; eexists; (split; [|reflexivity]); cbn; lia.
  - cbn [run sp_step combine]. cbn [requests_of packets_of].
    destruct p as [r|]; cbn [sp_out sp_next pend].
    + destruct (o_fields false (i_hsready i) true (encode r)) as (R & _ & V & Hh).
      rewrite R, V, Hh. cbn [andb].
      destruct (i_hsready i).
      * destruct (IH None) as (rest & L & E). exists rest. split; [exact L|].
        cbn [pend app] in E. cbn [app map]. rewrite E. reflexivity.
      * exact (IH (Some r)).
    + destruct (o_fields true false false 0) as (R & _ & V & _).
      rewrite R, V. cbn [andb].
      destruct (strobe_kind i) as [k|]; [exact (IH (Some (req_of k i))) | exact (IH None)].
Qed.

Theorem tp_exactly_once : forall ins,
  let ios := combine ins (run tp_step tp_init ins) in
  exists rest, (length rest <= 1)%nat /\ map encode (requests_of ios) = packets_of ios ++ rest.
Proof. intros ins. cbv zeta. rewrite tp_refines. exact (sp_exactly_once ins None). Qed.

(* a pending request is offered in every cycle until the queue takes it, and `done` marks that cycle *)
Theorem sp_offers : forall p i,
  o_valid (sp_out p i) = negb (o_ready (sp_out p i)) /\
  o_done (sp_out p i) = o_valid (sp_out p i) && i_hsready i /\
  (forall r, p = Some r -> o_header (sp_out p i) = encode r).
Proof.
  intros p i. destruct p as [r|]; cbn [sp_out].
  - destruct (o_fields false (i_hsready i) true (encode r)) as (R & D & V & Hh). rewrite R, D, V.
    repeat split. intros r' E. inversion E; subst. exact Hh.
  - destruct (o_fields true false false 0) as (R & D & V & Hh). rewrite R, D, V.
    repeat split. intros r' E. discriminate.
Qed.

Definition req_wf (r : request) : Prop := q_addr r < 128 /\ q_seq r < 32.

Lemma req_of_wf : forall k i, req_wf (req_of k i).
Proof. intros. split; apply bits_lt. Qed.

(* The 64 header bits a request sets, field by field (DW0 then DW1; (2, 0) and (4, 0) are reserved
   bits).  Direction is set in NRDY/ERDY packets; every packet but NRDY announces one packet. *)
Definition hdr_layout (r : request) : list (N * N) :=
  [(5, TP_TYPE); (20, 0); (7, q_addr r);
   (4, subtype_code (q_kind r)); (2, 0);
   (1, b2n (match q_kind r with ACK => q_retry r | _ => false end));
   (1, b2n (match q_kind r with NRDY | ERDY => true | _ => false end));
   (4, q_ep r mod 16); (4, 0);
   (5, match q_kind r with NRDY => 0 | _ => 1 end);
   (5, match q_kind r with ACK => q_seq r | _ => 0 end)].

Lemma encode_layout : forall r, encode r = fields_word (hdr_layout r).
Proof.
  intros r. unfold encode, enc_dw0, enc_dw1, hdr_layout, TP_TYPE.
  rewrite bits_0, !N.shiftl_mul_pow2. change (2 ^ 4) with 16. generalize (q_ep r mod 16). intros e.
  destruct (q_kind r); cbn [fields_word subtype_code b2n]; [destruct (q_retry r); cbn [b2n]| | |]; lia.
Qed.

Lemma hdr_layout_ok : forall r, req_wf r -> fields_ok (hdr_layout r).
Proof.
  intros r (Ha & Hs).
  repeat constructor; cbn [fst snd]; try apply b2n_lt2; try exact Ha;
    try (destruct (q_kind r); (reflexivity || exact Hs)).
  apply N.mod_lt. discriminate.
Qed.

Theorem header_fields : forall r, req_wf r ->
  h_type (encode r) = TP_TYPE /\ h_route (encode r) = 0 /\ h_addr (encode r) = q_addr r /\
  h_subtype (encode r) = subtype_code (q_kind r) /\ h_ep (encode r) = q_ep r mod 16 /\
  (q_kind r = ACK -> h_retry (encode r) = q_retry r /\ h_seq (encode r) = q_seq r).
Proof.
  intros r Hr. rewrite encode_layout. pose proof (hdr_layout_ok r Hr) as HL. repeat apply conj.
  - exact (bits_fields_word _ 0 HL).
  - exact (bits_fields_word _ 1 HL).
  - exact (bits_fields_word _ 2 HL).
  - exact (bits_fields_word _ 3 HL).
  - exact (bits_fields_word _ 7 HL).
  - intros K. split.
    + etransitivity; [exact (testbit_fields_word _ 5 _ HL eq_refl) | rewrite K; reflexivity].
    + etransitivity; [exact (bits_fields_word _ 10 HL) | cbn [hdr_layout nth snd]; rewrite K; reflexivity].
Qed.

Lemma strobe_kind_single : forall i,
  (i_ack i = true /\ i_stall i = false /\ i_nrdy i = false /\ i_erdy i = false -> strobe_kind i = Some ACK) /\
  (i_ack i = false /\ i_stall i = true /\ i_nrdy i = false /\ i_erdy i = false -> strobe_kind i = Some STALL) /\
  (i_ack i = false /\ i_stall i = false /\ i_nrdy i = true /\ i_erdy i = false -> strobe_kind i = Some NRDY) /\
  (i_ack i = false /\ i_stall i = false /\ i_nrdy i = false /\ i_erdy i = true -> strobe_kind i = Some ERDY) /\
  (i_ack i = false /\ i_stall i = false /\ i_nrdy i = false /\ i_erdy i = false -> strobe_kind i = None).
Proof.
  intros i. unfold strobe_kind. repeat split; intros (A & B & C & D); rewrite A, B, C, D; reflexivity.
Qed.

(* used by the tie to the netlist (props/C45.py): packed states decode back, well-formedness is kept *)
Lemma fsm_of_code : forall f, fsm_of (fsm_code f) = f.
Proof. intros [|[]]; reflexivity. Qed.
Lemma fsm_code_lt : forall f, fsm_code f < 8.
Proof. intros [|[]]; reflexivity. Qed.

Lemma tp_dec_enc : forall st, tp_wf st -> tp_dec (tp_enc st) = st.
Proof.
  intros [f e r s a] (He & Hs). cbn [l_ep l_seq] in *. unfold tp_dec, tp_enc. cbn [fsm l_ep l_retry l_seq l_addr].
  set (L := [(3, fsm_code f); (7, e); (1, b2n r); (5, s)]).
  assert (HL : fields_ok L) by (repeat constructor; [apply fsm_code_lt | exact He | apply b2n_lt2 | exact Hs]).
  change (_ + 8 * _) with (fields_under L a). f_equal.
  - rewrite <- (fsm_of_code f). f_equal. apply digit_mod, fsm_code_lt.
  - exact (fields_under_digit L a 1 HL).
  - exact (fields_under_flag L a 2 r HL eq_refl).
  - exact (fields_under_digit L a 3 HL).
  - exact (fields_under_rest L a HL).
Qed.

Lemma tp_wf_step : forall st i, tp_wf st -> tp_wf (fst (tp_step st i)).
Proof.
  intros st i H. unfold tp_wf, tp_step, tp_next. cbn [fst].
  destruct (fsm st); cbn [l_ep l_seq]; [split; apply bits_lt | exact H].
Qed.

Lemma tp_wf_init : tp_wf tp_init.
Proof. split; reflexivity. Qed.
