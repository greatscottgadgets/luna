(* C22 -- ULPI receive translation: hand models of luna/gateware/interface/ulpi.py
     * ULPIRxEventDecoder (stand-alone module), and
     * the receive path of UTMITranslator (rx_active / rx_valid / rx_data registers + the event decoder),
   and the specification "the UTMI receive stream reports exactly the PHY's packet bytes; RxActive follows
   the PHY's RxCmds and DIR; line state / VBUS flags equal the most recent RxCmd".

   The receive-path model is the PROPERTY-SATISFYING behaviour (see findings/C22-*.diff):
     - RxActive is taken from the RxCmd in the cycle the RxCmd is on the bus (the code before fcdd29f went through the
       registered rx_start/rx_stop strobes, one cycle later, and lost a data byte that follows the RxCmd at once);
     - RxCmds are sampled unless a register READ is in progress (the code before add8ec4 also ignored them while a
       register WRITE is pending or in progress).  UTMITranslator never reads, so here: always.

   Port packing (see props/C22.py).
   Decoder target.  inputs : data_i[8] 0..7, dir 8, nxt 9, register_operation_in_progress 10
                    outputs: last_rx_command[8] 0..7, line_state[2] 8..9, vbus_valid 10, session_valid 11,
                             session_end 12, rx_active 13, rx_error 14, host_disconnect 15, id_digital 16,
                             rx_start 17, rx_stop 18
   Translator target. inputs : data_i[8] 0..7, nxt 8, dir 9, (transmit / control inputs above)
                    outputs: rx_active 0, rx_valid 1, rx_data[8] 2..9   -- the UTMI receive word read by the
                             packet models (Handshake.d_act / d_val / d_dat) --
                             line_state[2] 10..11, vbus_valid 12, session_valid 13, session_end 14, rx_error 15,
                             host_disconnect 16, id_digital 17, last_rx_command[8] 18..25                      *)
From Coq Require Import NArith List Bool.
Import ListNotations.
From LunaLib Require Import Netlist Machine.
From LunaModel Require Import Handshake.
Open Scope N_scope.

(* ---- RxCmd fields (ULPI 1.1 table 3.8.1.2), packed as the status outputs: line_state[2], vbus_valid,
        session_valid, session_end, rx_error, host_disconnect, id_digital (8 bits) ---- *)
Definition rxcmd_active (c : N) : bool := N.testbit c 4.
Definition rxcmd_status (c : N) : N :=
  bits c 0 2 + 4 * b2n (bits c 2 2 =? 3) + 8 * b2n (bits c 2 2 =? 2) + 16 * b2n (bits c 2 2 =? 0)
  + 32 * b2n (bits c 4 2 =? 3) + 64 * b2n (bits c 4 2 =? 2) + 128 * b2n (N.testbit c 6).

(* ================================ ULPIRxEventDecoder ============================================ *)
Definition di_data (i : N) : N := bits i 0 8.
Definition di_dir (i : N) : bool := N.testbit i 8.
Definition di_nxt (i : N) : bool := N.testbit i 9.
Definition di_regop (i : N) : bool := N.testbit i 10.

Record dec_state := { e_dd : bool (* direction_delayed *); e_last : N (* last_rx_command *);
                      e_start : bool; e_stop : bool }.
Definition dec_init : dec_state := {| e_dd := false; e_last := 0; e_start := false; e_stop := false |}.

(* an RxCmd is on the bus: DIR high for more than one cycle, NXT low, no register operation *)
Definition rxcmd_now (pd dir nxt regop : bool) : bool := pd && dir && negb nxt && negb regop.

Definition dec_out (s : dec_state) : N :=
  e_last s + 256 * (bits (rxcmd_status (e_last s)) 0 5)
  + 8192 * b2n (rxcmd_active (e_last s)) + 16384 * (bits (rxcmd_status (e_last s)) 5 3)
  + 131072 * b2n (e_start s) + 262144 * b2n (e_stop s).

Definition dec_step (s : dec_state) (i : N) : dec_state * N :=
  let sample := rxcmd_now (e_dd s) (di_dir i) (di_nxt i) (di_regop i) in
  let a := rxcmd_active (e_last s) in let a' := rxcmd_active (di_data i) in
  ({| e_dd := di_dir i;
      e_last := if sample then di_data i else e_last s;
      e_start := sample && negb a && a';
      e_stop := sample && a && negb a' |}, dec_out s).

(* decoder specification: the most recent RxCmd of a history (0 before the first one) *)
Fixpoint last_rxcmd (pd : bool) (last : N) (h : list N) : N :=
  match h with
  | [] => last
  | i :: t => last_rxcmd (di_dir i)
                (if rxcmd_now pd (di_dir i) (di_nxt i) (di_regop i) then di_data i else last) t
  end.

Definition dec_enc (s : dec_state) : N :=
  b2n (e_dd s) + 2 * b2n (e_start s) + 4 * b2n (e_stop s) + 8 * e_last s.
Definition dec_dec (m : N) : dec_state :=
  {| e_dd := N.testbit m 0; e_start := N.testbit m 1; e_stop := N.testbit m 2; e_last := m / 8 |}.
Definition dec_wf (s : dec_state) : Prop := e_last s < 256.

(* ================================ receive path of UTMITranslator ================================ *)
Definition ri_data (i : N) : N := bits i 0 8.
Definition ri_nxt (i : N) : bool := N.testbit i 8.
Definition ri_dir (i : N) : bool := N.testbit i 9.

Record rx_state := { r_pd : bool (* past_dir = direction_delayed *); r_act : bool; r_val : bool; r_dat : N;
                     r_last : N }.
Definition rx_init : rx_state := {| r_pd := false; r_act := false; r_val := false; r_dat := 0; r_last := 0 |}.

Definition rx_out (s : rx_state) : N :=
  b2n (r_act s) + 2 * b2n (r_val s) + 4 * r_dat s + 1024 * rxcmd_status (r_last s) + 262144 * r_last s.

Definition rx_step (s : rx_state) (i : N) : rx_state * N :=
  let dir := ri_dir i in let nxt := ri_nxt i in
  let cmd := rxcmd_now (r_pd s) dir nxt false in
  let a' := rxcmd_active (ri_data i) in
  ({| r_pd := dir;
      r_act := if negb dir || (cmd && negb a') then false
               else if (negb (r_pd s) && dir && nxt) || (cmd && a') then true
               else r_act s;
      r_val := nxt && r_act s;
      r_dat := ri_data i;
      r_last := if cmd then ri_data i else r_last s |}, rx_out s).

(* ---- specification, PHY side ------------------------------------------------------------------ *)
(* What the PHY presented, read off DIR / NXT / DATA alone.  State: DIR of the previous cycle and the bytes of
   the receive in progress.  A receive starts when DIR rises together with NXT, or with an RxCmd whose
   RxActive bit is set; it ends when DIR falls or with an RxCmd whose RxActive bit is clear; its bytes are
   DATA in the cycles with DIR and NXT high after the start.  (RxCmds and turn-around cycles carry no data.) *)
Definition phy_next (st : bool * option (list N)) (i : N) : bool * option (list N) :=
  let (pd, cur) := st in
  let dir := ri_dir i in let nxt := ri_nxt i in
  let cmd := rxcmd_now pd dir nxt false in let a' := rxcmd_active (ri_data i) in
  (dir,
   match cur with
   | Some l => if negb dir || (cmd && negb a') then None
               else if dir && nxt then Some (l ++ [ri_data i]) else Some l
   | None => if dir && ((negb pd && nxt) || (cmd && a')) then Some [] else None
   end).
Definition phy_done (st : bool * option (list N)) (i : N) : option (list N) :=
  match snd st, snd (phy_next st i) with
  | Some l, None => Some l
  | _, _ => None
  end.
Fixpoint phy_packets (st : bool * option (list N)) (h : list N) : list (list N) :=
  match h with
  | [] => []
  | i :: t => match phy_done st i with
              | Some l => l :: phy_packets (phy_next st i) t
              | None => phy_packets (phy_next st i) t
              end
  end.
Definition phy0 : bool * option (list N) := (false, None).

(* the most recent RxCmd (translator: no register reads) *)
Fixpoint phy_last_rxcmd (pd : bool) (last : N) (h : list N) : N :=
  match h with
  | [] => last
  | i :: t => phy_last_rxcmd (ri_dir i) (if rxcmd_now pd (ri_dir i) (ri_nxt i) false then ri_data i else last) t
  end.

(* ULPI bus turn-around: in the cycle in which DIR falls NXT is low (the PHY has released the bus; it cannot
   be presenting data).  The only assumption on the PHY. *)
Fixpoint turnaround_ok (pd : bool) (h : list N) : bool :=
  match h with
  | [] => true
  | i :: t => negb (pd && negb (ri_dir i) && ri_nxt i) && turnaround_ok (ri_dir i) t
  end.

(* ---- specification, UTMI side: Handshake.packets_from (a packet is a maximal rx_active run; its bytes are
        rx_data in the rx_valid cycles of the run other than its first) applied to the output words ---- *)
Definition utmi_packets (outs : list N) : list (list N) := packets_from None outs.

(* status outputs / last RxCmd of an output word *)
Definition o_status (o : N) : N := bits o 10 8.
Definition o_lastcmd (o : N) : N := bits o 18 8.
Definition o_active (o : N) : bool := N.testbit o 0.

(* packing for the lock-step obligations *)
Definition rx_enc (s : rx_state) : N :=
  b2n (r_pd s) + 2 * b2n (r_act s) + 4 * b2n (r_val s) + 8 * r_dat s + 2048 * r_last s.
Definition rx_dec (m : N) : rx_state :=
  {| r_pd := N.testbit m 0; r_act := N.testbit m 1; r_val := N.testbit m 2; r_dat := bits m 3 8;
     r_last := m / 2048 |}.
Definition rx_wf (s : rx_state) : Prop := r_dat s < 256 /\ r_last s < 256.
