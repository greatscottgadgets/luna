(* C25 -- the usb-domain half of the transmit pipeline (GwPhy.txu) in closed loop with a UTMI driver emits
   SYNC and the bit-stuffed bytes, raises tx_ready once per byte, and is quiet again afterwards.

   Everything is phrased with `sends s q outs nr`: from state s, with the bytes q still to be handed over, the
   fit stream is outs and then silence, tx_ready is up in nr cycles, all of q gets taken and the state is quiet
   again.  One cycle of the loop prepends one element to outs (sends_cons), so the phases of a packet (start, SYNC,
   data bits, stall cycles, end) are one lemma each and compose by `apply`. *)
From Coq Require Import NArith List Bool Lia PeanoNat.
Import ListNotations.
From LunaLib Require Import Bits.
From LunaModel Require Import GwPhyCodec GwPhyCodec_proofs GwPhy.
Open Scope N_scope.

Lemma tx_loop_length : forall g s q, length (tx_loop 8 s q g) = length g.
Proof. induction g as [|gd g IH]; intros; cbn [tx_loop length]; [reflexivity | rewrite IH; reflexivity]. Qed.

Definition mkU (f : txfsm) (sp gr r p : N) (gt : bool) (c : N) : txu :=
  {| u_fsm := f; u_sp := sp; u_gray := gr; u_sh := {| sh_reg := r; sh_pos := p; sh_get := gt |}; u_bs := c |}.
Definition mkD (r p : N) (gt : bool) (c : N) : txu := mkU TxData 0 3 r p gt c.
Definition mkS (sp : N) (sh : txsh) (bs : N) : txu := {| u_fsm := TxSync; u_sp := sp; u_gray := 1; u_sh := sh; u_bs := bs |}.

Definition out3 (s : txu) (oe : bool) : bool * bool * bool := (u_fit_dat s, u_fit_oe s, u_ready s oe).

Lemma out_quiet : forall s oe, txu_quiet s -> out3 s oe = (false, false, false).
Proof.
  intros s oe (_ & Hsp & Hg & _). unfold out3, u_fit_dat, u_fit_oe, u_ready, u_state_data, u_state_sync. rewrite Hsp.
  destruct Hg as [-> | ->]; reflexivity.
Qed.

Lemma txsh_next_reg_lt : forall W sh d en cl, sh_reg sh < 2 ^ W -> sh_reg (txsh_next W sh d en cl) < 2 ^ W.
Proof.
  intros W [r p gt] d en cl Hr. cbn [sh_reg] in Hr. unfold txsh_next, txsh_empty. cbn [sh_reg sh_pos].
  assert (d mod 2 ^ W < 2 ^ W) by (apply N.mod_lt, N.pow_nonzero; discriminate).
  assert (r / 2 < 2 ^ W) by (apply N.div_lt_upper_bound; lia).
  destruct cl, en, (bit0 p); first [assumption | lia].
Qed.

Lemma txbs_next_le : forall c d, c <= 6 -> txbs_next c d <= 6.
Proof. intros c d H. unfold txbs_next. destruct (N.eqb_spec c 6); [lia|]. destruct d; lia. Qed.

Lemma onehot8_cases : forall p, onehot8 p = true ->
  p = 1 \/ p = 2 \/ p = 4 \/ p = 8 \/ p = 16 \/ p = 32 \/ p = 64 \/ p = 128.
Proof.
  intros p H. unfold onehot8 in H. repeat (apply orb_true_iff in H; destruct H as [H|H]);
    apply N.eqb_eq in H; subst; tauto.
Qed.

Lemma txsh_next_onehot : forall sh d en cl, onehot8 (sh_pos sh) = true -> onehot8 (sh_pos (txsh_next 8 sh d en cl)) = true.
Proof.
  intros [r p gt] d en cl Hp. cbn [sh_pos] in Hp. destruct cl; [reflexivity|]. destruct en; [|exact Hp].
  apply onehot8_cases in Hp. destruct Hp as [->|[->|[->|[->|[->|[->|[->| ->]]]]]]]; reflexivity.
Qed.

Lemma txu_quiet_idle : forall s gd, txu_quiet s -> txu_quiet (txu_next 8 s gd false).
Proof.
  intros s gd (Hf & Hsp & Hg & Hp & Hr & Hb). unfold txu_next. rewrite Hf, Hsp. change (N.testbit 0 1) with false.
  unfold txu_quiet. cbn [u_fsm u_sp u_gray u_sh u_bs].
  repeat split; auto using txsh_next_onehot, (txsh_next_reg_lt 8), txbs_next_le.
Qed.

Lemma txu_init_quiet : txu_quiet txu_init.
Proof. unfold txu_quiet, txu_init. cbn. repeat split; auto; lia. Qed.

Definition sends (s : txu) (q : list N) (outs : list (bool * bool)) (nr : nat) : Prop :=
  forall g, (length outs <= length g)%nat ->
  map fit_of (tx_loop 8 s q g) = outs ++ repeat (false, false) (length g - length outs)
  /\ length (filter rdy_of (tx_loop 8 s q g)) = nr
  /\ snd (tx_loop_end 8 s q g) = []
  /\ txu_quiet (fst (tx_loop_end 8 s q g)).

Lemma sends_nil : forall s, txu_quiet s -> sends s [] [] 0.
Proof.
  intros s Hq g _. cbn [app length]. rewrite Nat.sub_0_r. revert s Hq.
  induction g as [|gd g IH]; intros s Hq; [cbn; auto|].
  destruct (IH _ (txu_quiet_idle s gd Hq)) as (I1 & I2 & I3 & I4). pose proof (out_quiet s false Hq) as Ho.
  injection Ho as Od Oe Or.
  cbn [tx_loop tx_loop_end drv_oe drv_data map filter length repeat]. rewrite Od, Oe, Or.
  unfold fit_of at 1, rdy_of at 1. cbn [fst snd]. rewrite I1. auto.
Qed.

(* whatever is on tx_data while tx_valid is low (gd) may end up in the state, hence the quantifier *)
Lemma sends_cons : forall s q d e r outs nr, out3 s (drv_oe q) = (d, e, r) ->
  (forall gd, sends (txu_next 8 s (drv_data q gd) (drv_oe q)) (if r then tl q else q) outs nr) ->
  sends s q ((d, e) :: outs) ((if r then 1 else 0) + nr).
Proof.
  intros s q d e r outs nr Ho Hn [|gd g] Hlen; cbn [length] in Hlen; [lia|].
  injection Ho as Hd He Hr. destruct (Hn gd g ltac:(lia)) as (H1 & H2 & H3 & H4).
  cbn [tx_loop tx_loop_end map filter]. rewrite Hd, He, Hr. unfold fit_of at 1, rdy_of at 1. cbn [fst snd].
  rewrite H1. split; [reflexivity|]. split; [|split; assumption].
  destruct r; cbn [length]; rewrite H2; reflexivity.
Qed.

Lemma out_stall : forall f r p gt oe, out3 (mkU f 0 3 r p gt 6) oe = (false, true, false).
Proof. intros. unfold out3, u_fit_dat, u_ready. cbn. rewrite !andb_false_r. reflexivity. Qed.

Lemma next_stall : forall r p gt data oe, txu_next 8 (mkD r p gt 6) data oe = mkD r p gt 0.
Proof. intros. unfold txu_next. cbn. rewrite andb_false_r. reflexivity. Qed.

Lemma next_last : forall r p gt data oe, txu_next 8 (mkU TxLast 0 3 r p gt 6) data oe = mkU TxIdle 0 2 r p gt 0.
Proof. reflexivity. Qed.

Lemma quiet_after : forall r c gt, r < 256 -> c <= 6 -> txu_quiet (mkU TxIdle 0 2 r 128 gt c).
Proof. intros. unfold txu_quiet, mkU. cbn. repeat split; try assumption; auto. Qed.

(* In the data phase the shifter holds the remaining bits l of the current byte (its one-hot position register
   marks the last one), the stuffer has counted n ones; in the cycle after a load (gt) the byte is still the
   head of the driver's queue. *)
Definition posN (k : nat) : N := 2 ^ N.of_nat (k - 1).
Definition dst (l : list bool) (gt : bool) (n : nat) : txu := mkD (bits2N l) (posN (length l)) gt (N.of_nat n).
Definition qof (gt : bool) (l : list bool) (rest : list N) : list N := if gt then bits2N l :: rest else rest.
Definition bit_fits : list bool -> list (bool * bool) := map (fun b => (b, true)).
Lemma bit_fits_app : forall a b, bit_fits (a ++ b) = bit_fits a ++ bit_fits b.
Proof. intros. apply map_app. Qed.

Lemma posN_SS : forall k, N.odd (posN (S (S k))) = false /\ posN (S (S k)) / 2 = posN (S k).
Proof.
  intro k. unfold posN. replace (S (S k) - 1)%nat with (S k) by lia. replace (S k - 1)%nat with k by lia.
  rewrite Nat2N.inj_succ, N.pow_succ_r'. split.
  - rewrite N.odd_mul. reflexivity.
  - rewrite N.mul_comm, N.div_mul by discriminate. reflexivity.
Qed.
Lemma bits2N_byte_bits : forall b, b < 256 -> bits2N (byte_bits b) = b.
Proof.
  intros b H. rewrite <- (byte_of_bits_byte_bits b H) at 2. unfold byte_bits, byte_of_bits, b2N. cbn [bits2N].
  rewrite N.mul_0_r, N.add_0_r. reflexivity.
Qed.

(* the stuffer's count in the specification's terms; at 6 the next cycle is the stuffed 0 *)
Definition ones_after (n : nat) (x : bool) : nat := if x then S n else 0%nat.
Definition stuffc (n : nat) (l : list bool) : list bool := if Nat.eqb n 6 then false :: stuff 0 l else stuff n l.

Lemma ones_after_le : forall n x, (n <= 5)%nat -> (ones_after n x <= 6)%nat.
Proof. intros n x H. unfold ones_after. destruct x; lia. Qed.
Lemma stuff_cons : forall n x t, stuff n (x :: t) = x :: stuffc (ones_after n x) t.
Proof. intros n x t. unfold stuffc, ones_after. destruct x; cbn [stuff Nat.eqb]; [destruct (Nat.eqb n 5)|]; reflexivity. Qed.
Lemma stuffc_stuff : forall n l, (n <= 5)%nat -> stuffc n l = stuff n l.
Proof. intros n l H. unfold stuffc. destruct (Nat.eqb_spec n 6); [lia | reflexivity]. Qed.

Lemma out_dst : forall x l gt n oe, (n <= 5)%nat -> out3 (dst (x :: l) gt n) oe = (x, true, gt && oe).
Proof.
  intros x l gt n oe Hn. assert (E6 : N.of_nat n =? 6 = false) by (apply N.eqb_neq; lia).
  unfold out3, u_fit_dat, u_fit_oe, u_ready, u_state_data, u_state_sync, u_stall, txbs_stall, txsh_data, bit0, dst, mkD, mkU.
  cbn [u_gray u_sh u_bs u_sp sh_reg sh_get]. rewrite E6, odd_bits2N. cbn. destruct x, gt; reflexivity.
Qed.

Lemma next_dst : forall x l gt n data oe, (n <= 5)%nat ->
  txu_next 8 (dst (x :: l) gt n) data oe =
  let c' := N.of_nat (ones_after n x) in
  match l with
  | _ :: _ => dst l false (ones_after n x)
  | [] => if oe then mkD (data mod 256) 128 true c'
          else if c' =? 6 then mkU TxLast 0 3 (data mod 256) 128 true c' else mkU TxIdle 0 2 (data mod 256) 128 true c'
  end.
Proof.
  intros x l gt n data oe Hn.
  assert (E6 : N.of_nat n =? 6 = false) by (apply N.eqb_neq; lia).
  assert (C : (if x then N.of_nat n + 1 else 0) = N.of_nat (ones_after n x)) by (destruct x; cbn [ones_after]; lia).
  assert (W : txbs_will_stall (N.of_nat n) x = (N.of_nat (ones_after n x) =? 6)).
  { unfold txbs_will_stall, ones_after. destruct x; [rewrite andb_true_r | apply andb_false_r].
    destruct (N.eqb_spec (N.of_nat n) 5), (N.eqb_spec (N.of_nat (S n)) 6); try reflexivity; lia. }
  unfold txu_next, dst, mkD, mkU, u_stall, txbs_stall, txsh_next, txsh_empty, txsh_data, txbs_next, bit0.
  cbn [u_fsm u_sp u_gray u_sh u_bs sh_reg sh_pos sh_get]. rewrite odd_bits2N, W, E6, C. change (N.testbit 0 1) with false.
  destruct l as [|y l].
  - change (N.odd (posN (length [x]))) with true. destruct oe; reflexivity.
  - destruct (posN_SS (length l)) as [Hp0 Hp2]. cbn [length]. rewrite Hp0, Hp2, <- N.div2_div, div2_bits2N, andb_false_r. reflexivity.
Qed.

Lemma sends_stall : forall l gt q outs nr,
  sends (dst l gt 0) q outs nr -> sends (dst l gt 6) q ((false, true) :: outs) nr.
Proof.
  intros l gt q outs nr H. apply (sends_cons _ _ false true false); [apply out_stall|].
  intro gd. unfold dst. change (N.of_nat 6) with 6. rewrite next_stall. exact H.
Qed.

Lemma sends_shift : forall x y l gt n rest outs nr, (n <= 5)%nat ->
  sends (dst (y :: l) false (ones_after n x)) rest outs nr ->
  sends (dst (x :: y :: l) gt n) (qof gt (x :: y :: l) rest) ((x, true) :: outs) ((if gt then 1 else 0) + nr).
Proof.
  intros x y l gt n rest outs nr Hn H. apply sends_cons.
  - rewrite out_dst by exact Hn. destruct gt; reflexivity.
  - intro gd. rewrite next_dst by exact Hn. destruct gt; exact H.
Qed.

Lemma sends_load : forall x n nb rest outs nr, (n <= 5)%nat -> nb < 256 ->
  sends (mkD nb 128 true (N.of_nat (ones_after n x))) (nb :: rest) outs nr ->
  sends (dst [x] false n) (nb :: rest) ((x, true) :: outs) nr.
Proof.
  intros x n nb rest outs nr Hn Hnb H. apply (sends_cons _ _ x true false); [apply out_dst, Hn|].
  intro gd. rewrite next_dst by exact Hn. cbn [drv_oe drv_data]. rewrite (N.mod_small nb 256 Hnb). exact H.
Qed.

Lemma sends_last_bit : forall x n, (n <= 5)%nat -> sends (dst [x] false n) [] (bit_fits (stuff n [x])) 0.
Proof.
  intros x n Hn. pose proof (ones_after_le n x Hn) as Hc.
  rewrite stuff_cons. apply (sends_cons _ _ x true false); [apply out_dst, Hn|].
  intro gd. rewrite next_dst by exact Hn. cbn [drv_oe drv_data]. cbv zeta.
  assert (Hgd : gd mod 256 < 256) by (apply N.mod_lt; discriminate).
  unfold stuffc. destruct (Nat.eqb_spec (ones_after n x) 6) as [E | Hne].
  - rewrite E. change (N.of_nat 6 =? 6) with true. cbv iota.
    apply (sends_cons _ _ false true false); [apply out_stall|]. intro gd'. change (N.of_nat 6) with 6. rewrite next_last.
    apply sends_nil, quiet_after; [exact Hgd | discriminate].
  - replace (N.of_nat (ones_after n x) =? 6) with false by (symmetry; apply N.eqb_neq; lia).
    apply sends_nil, quiet_after; [exact Hgd | lia].
Qed.

(* within a byte, given what its last bit does.  Hlast speaks of gt = false only, hence the premise on gt: with a single
   bit left in the cycle after a load the shifter would load the same byte again, still the head of the queue; a byte
   just loaded has eight bits. *)
Lemma data_bits : forall rest,
  (forall x n, (n <= 5)%nat -> sends (dst [x] false n) rest (bit_fits (stuff n (x :: bits_of_bytes rest))) (length rest)) ->
  forall l gt n, l <> [] -> (gt = true -> (2 <= length l)%nat) -> (n <= 6)%nat ->
  sends (dst l gt n) (qof gt l rest) (bit_fits (stuffc n (l ++ bits_of_bytes rest))) ((if gt then 1 else 0) + length rest).
Proof.
  intros rest Hlast. induction l as [|x l IH]; intros gt n Hne Hgt Hn; [congruence|].
  assert (H5 : forall m, (m <= 5)%nat ->
            sends (dst (x :: l) gt m) (qof gt (x :: l) rest) (bit_fits (stuff m ((x :: l) ++ bits_of_bytes rest)))
                  ((if gt then 1 else 0) + length rest)).
  { intros m Hm. destruct l as [|y l].
    - destruct gt; [specialize (Hgt eq_refl); cbn in Hgt; lia|]. exact (Hlast x m Hm).
    - cbn [app]. rewrite stuff_cons. apply sends_shift; [exact Hm|].
      apply (IH false (ones_after m x)); [discriminate | discriminate | apply ones_after_le, Hm]. }
  unfold stuffc. destruct (Nat.eqb_spec n 6) as [-> | Hn6].
  - apply sends_stall, H5. lia.
  - apply H5. lia.
Qed.

(* a byte just loaded, in the terms of the data phase *)
Lemma sends_byte : forall b n rest outs nr, b < 256 ->
  sends (dst (byte_bits b) true n) (qof true (byte_bits b) rest) outs nr -> sends (mkD b 128 true (N.of_nat n)) (b :: rest) outs nr.
Proof. intros b n rest outs nr Hb H. unfold dst, qof in H. rewrite (bits2N_byte_bits b Hb) in H. exact H. Qed.

(* from a byte just loaded to the end of the packet *)
Lemma data_phase : forall rest, Forall (fun b => b < 256) rest -> forall b n, b < 256 -> (n <= 6)%nat ->
  sends (mkD b 128 true (N.of_nat n)) (b :: rest) (bit_fits (stuffc n (bits_of_bytes (b :: rest)))) (S (length rest)).
Proof.
  induction 1 as [|nb rest Hnb _ IH]; intros b n Hb Hn;
    (apply sends_byte, data_bits; [exact Hb | intros x m Hm | discriminate | intros _; cbn; lia | exact Hn]).
  - exact (sends_last_bit x m Hm).
  - rewrite stuff_cons. apply sends_load; [exact Hm | exact Hnb |]. apply IH; [exact Hnb | apply ones_after_le, Hm].
Qed.

(* The SYNC phase: sync_pulse is a one-hot 8-bit shift register whose bit 0 is the SYNC one. *)
Lemma out_sync : forall sp sh bs oe, out3 (mkS sp sh bs) oe = (bit0 sp, true, false).
Proof. intros. unfold out3, u_fit_dat, u_fit_oe, u_ready, u_state_data, u_state_sync, mkS. cbn. reflexivity. Qed.

Lemma step_sync : forall sp sh bs d oe,
  txu_next 8 (mkS sp sh bs) d oe =
  let sh' := txsh_next 8 sh d (negb (txbs_stall bs)) (N.testbit sp 1) in
  let bs' := if N.testbit sp 1 then 0 else txbs_next bs (txsh_data sh) in
  if bit0 sp then {| u_fsm := TxData; u_sp := sp / 2; u_gray := 3; u_sh := sh'; u_bs := bs' |}
  else mkS (sp / 2) sh' bs'.
Proof. reflexivity. Qed.

(* first cycle of a packet: the FSM leaves IDLE; the shifter and the stuffer hold garbage *)
Lemma sends_start : forall s q outs nr, txu_quiet s -> q <> [] ->
  (forall sh bs, sends (mkS 128 sh bs) q outs nr) -> sends s q ((false, false) :: outs) nr.
Proof.
  intros s q outs nr Hq Hne H. destruct q as [|b q]; [congruence|].
  apply (sends_cons _ _ false false false); [apply out_quiet, Hq|].
  intro gd. destruct Hq as (Hf & Hsp & _). unfold txu_next. rewrite Hf, Hsp. apply H.
Qed.

Lemma sends_sync_zero : forall sp q outs nr,
  (forall sh bs, sends (mkS sp sh bs) q outs nr) -> forall sh bs, sends (mkS (2 * sp) sh bs) q ((false, true) :: outs) nr.
Proof.
  intros sp q outs nr H sh bs.
  assert (Hodd : bit0 (2 * sp) = false) by (unfold bit0; rewrite N.odd_mul; reflexivity).
  apply (sends_cons _ _ false true false); [rewrite out_sync, Hodd; reflexivity|].
  intro gd. rewrite step_sync. cbv zeta. rewrite Hodd, N.mul_comm, N.div_mul by discriminate. apply H.
Qed.

(* the last SYNC zero (sync_pulse = 2) clears shifter and stuffer; with the SYNC one (sync_pulse = 1) the cleared,
   enabled shifter loads the first byte *)
Lemma sends_sync_end : forall b rest outs nr, b < 256 ->
  sends (mkD b 128 true 0) (b :: rest) outs nr ->
  forall sh bs, sends (mkS 2 sh bs) (b :: rest) ((false, true) :: (true, true) :: outs) nr.
Proof.
  intros b rest outs nr Hb H sh bs.
  apply (sends_cons _ _ false true false); [apply out_sync|]. intro gd.
  rewrite step_sync. cbv zeta. change (N.testbit 2 1) with true. change (bit0 2) with false. change (2 / 2) with 1. cbv iota.
  apply (sends_cons _ _ true true false); [apply out_sync|]. intro gd'.
  rewrite step_sync. cbn [drv_data drv_oe]. unfold txsh_next, txsh_empty, txsh_data, txbs_stall, txbs_next. cbn [sh_reg sh_pos sh_get].
  change (2 ^ 8) with 256. rewrite (N.mod_small b 256 Hb). exact H.
Qed.

Lemma sends_sync : forall s b rest outs nr, txu_quiet s -> b < 256 ->
  sends (mkD b 128 true 0) (b :: rest) outs nr -> sends s (b :: rest) ((false, false) :: bit_fits sync_bits ++ outs) nr.
Proof.
  intros s b rest outs nr Hq Hb H. apply sends_start; [exact Hq | discriminate |].
  change 128 with (2 * (2 * (2 * (2 * (2 * (2 * 2)))))). do 6 apply sends_sync_zero.
  apply sends_sync_end; [exact Hb | exact H].
Qed.

Definition phase_body (bs : list N) : list (bool * bool) :=
  match bs with
  | [] => []
  | _ => (false, false) :: bit_fits (sync_bits ++ stuff 0 (bits_of_bytes bs))
  end.

Theorem tx_phase_usb : forall s bs, txu_quiet s -> Forall (fun b => b < 256) bs -> sends s bs (phase_body bs) (length bs).
Proof.
  intros s bs Hq Hall. destruct Hall as [|b rest Hb Hrest]; [apply sends_nil, Hq|].
  unfold phase_body. rewrite bit_fits_app. apply sends_sync; [exact Hq | exact Hb|].
  rewrite <- (stuffc_stuff 0) by lia. exact (data_phase rest Hrest b 0%nat Hb ltac:(lia)).
Qed.

Theorem tx_packet_usb : forall s bs g,
  txu_quiet s -> bs <> [] -> Forall (fun b => b < 256) bs ->
  let body := (false, false) :: map (fun b => (b, true)) (sync_bits ++ stuff 0 (bits_of_bytes bs)) in
  (length body <= length g)%nat ->
  map fit_of (tx_loop 8 s bs g) = body ++ repeat (false, false) (length g - length body)
  /\ length (filter rdy_of (tx_loop 8 s bs g)) = length bs
  /\ snd (tx_loop_end 8 s bs g) = []
  /\ txu_quiet (fst (tx_loop_end 8 s bs g)).
Proof.
  intros s bs g Hq Hne Hall. destruct bs as [|b rest]; [congruence|]. exact (tx_phase_usb s (b :: rest) Hq Hall g).
Qed.

(* a concrete run (non-vacuity): garbage in shifter and stuffer, two bytes, long runs of ones *)
Example tx_packet_usb_ex :
  let s := mkU TxIdle 0 2 127 4 true 4 in
  map fit_of (tx_loop 8 s [195; 255] (repeat 255 40)) =
  (false, false) :: map (fun b => (b, true)) (sync_bits ++ stuff 0 (bits_of_bytes [195; 255])) ++ repeat (false, false) 14.
Proof. vm_compute. reflexivity. Qed.
