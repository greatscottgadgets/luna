(* C37 / C38 -- proofs about Model/HdrRx.v.  The raw receiver model stands in the relation raw_rel to the declarative
   header parser with its CRC verdict, and so reports the same in every cycle.  The bookkeeping model stands in the
   relation core_inv to the specification monitor: the monitor's numbers are the model's registers, its queue is the
   ring of header buffers between read and write pointer.  Every step in which the partner keeps its rules preserves
   core_inv and passes the monitor's check, so every trace is accepted, also for the composed receiver at the level
   of the sink (C37: raw_meets_spec, core_meets_spec, hr_meets_spec, sp_fifo; C38: restart_is_fresh).  The cyclic
   windows and ring buffers are used by Model/PktTx_proofs.v as well.  Last comes what the lock-step ties ask of the
   packed model state: core_mrun, core_dec_enc and core_wf_*. *)
From Coq Require Import NArith List Bool Lia.
Import ListNotations.
From LunaLib Require Import Netlist Bits Machine ListMem PackN ListFacts.
From LunaModel Require Import Crc Crc_proofs HdrRx.
From LunaModel Require LinkCommand LinkCommand_proofs.
Open Scope N_scope.

Definition crc_reg (ds : list N) : list bool := crc_update poly16h (reg_init 16) (bits_of_units 32 ds).

Lemma crc_reg_snoc : forall ds d, crc_update poly16h (crc_reg ds) (N2bits 32 d) = crc_reg (ds ++ [d]).
Proof. intros. symmetry. apply crc_update_snoc. Qed.

Lemma crc_out_reg : forall ds, crc_out (crc_reg ds) = crc16_hdr ds.
Proof. reflexivity. Qed.

(* The raw receiver is at the stage of the parser: the words collected so far (the parser lists them newest first)
   are in the data registers and the CRC-16 register has been advanced over them. *)
Definition raw_rel (r : raw) (x : rsx) : Prop :=
  x_new x = r_new r /\ x_pkt x = r_pkt r /\
  match x_p x with
  | RS_HUNT => r_fsm r = WAIT_HPSTART
  | RS_COLLECT ws =>
      r_fsm r = RECV (length ws) /\ r_crc r = crc_reg (rev ws) /\
      match ws with
      | [] => True
      | [d0] => r_dw0 r = d0
      | [d1; d0] => r_dw0 r = d0 /\ r_dw1 r = d1
      | [d2; d1; d0] => r_dw0 r = d0 /\ r_dw1 r = d1 /\ r_dw2 r = d2
      | _ => False
      end
  | RS_VERDICT d0 d1 d2 d3 =>
      r_fsm r = CHECK /\ r_crc r = crc_reg [d0; d1; d2] /\ r_crc5 r = crc5_usb (bits d3 16 11) /\
      r_dw0 r = d0 /\ r_dw1 r = d1 /\ r_dw2 r = d2 /\ r_dw3 r = d3
  end.

Lemma raw_rel_init : raw_rel raw_init rsx_init.
Proof. repeat split. Qed.

Definition raw_outs (r : raw) (e : N) : bool * bool * bool * N := (r_new r, raw_bad r, raw_badseq r e, r_pkt r).
Definition rsx_outs (x : rsx) (e : N) : bool * bool * bool * N := (x_new x, rsx_bad x, rsx_badseq x e, x_pkt x).

Lemma raw_rel_outs : forall r x e, raw_rel r x -> raw_outs r e = rsx_outs x e /\ raw_good r e = rsx_good x e.
Proof.
  intros r x e (Hn & Hp & H). unfold raw_outs, rsx_outs. rewrite Hn, Hp.
  unfold raw_bad, raw_good, raw_badseq, rsx_bad, rsx_good, rsx_badseq, raw_in_check.
  destruct (x_p x) as [|ws|d0 d1 d2 d3].
  - rewrite H. auto.
  - destruct H as [-> _]. auto.
  - destruct H as (-> & Hc & H5 & _ & _ & _ & H3). cbn [andb].
    replace (raw_crc_bad r) with (negb (hdr_crc_ok d0 d1 d2 d3)).
    + rewrite H3, negb_involutive. auto.
    + unfold raw_crc_bad, hdr_crc_ok. rewrite H3, Hc, H5, crc_out_reg, negb_andb.
      rewrite (N.eqb_sym (crc5_usb _)), (N.eqb_sym (crc16_hdr _)). reflexivity.
Qed.

Lemma raw_rel_step : forall r x w e, raw_rel r x -> raw_rel (raw_step r w e) (rsx_step x w e).
Proof.
  intros r x w e Hrel. destruct (raw_rel_outs r x e Hrel) as [_ Hg]. destruct Hrel as (_ & Hp & H).
  unfold raw_rel, raw_step, rsx_step. cbn [x_new x_pkt x_p r_new r_pkt r_fsm r_dw0 r_dw1 r_dw2 r_dw3 r_crc r_crc5].
  rewrite Hg, <- Hp. unfold rsx_good. split; [reflexivity|].
  destruct (x_p x) as [|ws|d0 d1 d2 d3]; cbn [rs_next].
  - rewrite H. split; [reflexivity|]. destruct (is_hpstart w); repeat split.
  - destruct H as (-> & -> & H). split; [reflexivity|].
    destruct ws as [|a [|b [|c [|d ws]]]]; try contradiction; cbn [length Nat.eqb andb rev app];
      (destruct (w_valid w); [rewrite ?crc_reg_snoc|]); cbn [length rev app]; intuition.
  - destruct H as (-> & _ & _ & -> & -> & -> & ->). repeat split.
Qed.

Fixpoint raw_trace (r : raw) (ws : list (word * N)) : list (bool * bool * bool * N) :=
  match ws with [] => [] | (w, e) :: t => raw_outs r e :: raw_trace (raw_step r w e) t end.
Fixpoint rsx_trace (x : rsx) (ws : list (word * N)) : list (bool * bool * bool * N) :=
  match ws with [] => [] | (w, e) :: t => rsx_outs x e :: rsx_trace (rsx_step x w e) t end.

Theorem raw_refines : forall ws r x, raw_rel r x -> raw_trace r ws = rsx_trace x ws.
Proof.
  induction ws as [|[w e] t IH]; intros r x H; [reflexivity|]. cbn [raw_trace rsx_trace].
  f_equal; [apply raw_rel_outs, H | apply IH, raw_rel_step, H].
Qed.

Corollary raw_meets_spec : forall ws, raw_trace raw_init ws = rsx_trace rsx_init ws.
Proof. intro ws. apply raw_refines, raw_rel_init. Qed.

Lemma mod_distinct : forall m a d, 0 < d -> d < m -> a mod m <> (a + d) mod m.
Proof.
  intros m a d H0 Hd. rewrite <- (N.add_mod_idemp_l a d) by lia.
  pose proof (N.mod_lt a m) as Hr. set (r := a mod m) in *.
  destruct (N.lt_ge_cases (r + d) m) as [H|H].
  - rewrite N.mod_small by exact H. lia.
  - replace (r + d) with (r + d - m + 1 * m) by lia. rewrite N.mod_add, N.mod_small by lia. lia.
Qed.

(* window m base k = the k consecutive residues base, base + 1, ... modulo m.  The occupied slots of a header ring
   buffer are such a window over the buffer indices (from the read to the write pointer), and so are the sequence
   numbers of the headers in it. *)
Definition window (m base : N) (k : nat) : list N := map (fun j => (base + N.of_nat j) mod m) (seq 0 k).

Lemma window_fresh : forall m base k, N.of_nat k < m -> ~ In ((base + N.of_nat k) mod m) (window m base k).
Proof.
  intros m base k Hk H. apply in_map_iff in H as (j & E & Hj). apply in_seq in Hj.
  replace (base + N.of_nat k) with (base + N.of_nat j + (N.of_nat k - N.of_nat j)) in E by lia.
  revert E. apply mod_distinct; lia.
Qed.

Section Window.
  Variable m : N.
  Hypothesis Hm : 0 < m.

  Lemma window_length : forall base k, length (window m base k) = k.
  Proof. intros. unfold window. rewrite map_length. apply seq_length. Qed.

  Lemma window_nth : forall base k j, (j < k)%nat -> nth j (window m base k) 0 = (base + N.of_nat j) mod m.
  Proof.
    intros base k j H. unfold window.
    rewrite (nth_indep _ 0 ((base + N.of_nat 0) mod m)) by (rewrite map_length, seq_length; exact H).
    rewrite (map_nth (fun j => (base + N.of_nat j) mod m)), seq_nth by exact H. reflexivity.
  Qed.

  Lemma window_head : forall base k, window m base (S k) = base mod m :: window m ((base + 1) mod m) k.
  Proof.
    intros. unfold window. cbn [seq map]. rewrite N.add_0_r. f_equal.
    rewrite <- seq_shift, map_map. apply map_ext. intro j.
    rewrite N.add_mod_idemp_l by lia. f_equal. lia.
  Qed.

  Lemma window_snoc : forall base k, window m base (S k) = window m base k ++ [(base + N.of_nat k) mod m].
  Proof. intros. unfold window. rewrite seq_S, map_app. reflexivity. Qed.

  Lemma window_end_step : forall base len (push pop : bool), b2n pop <= len ->
    ((if pop then (base + 1) mod m else base) + (len + b2n push - b2n pop)) mod m =
    (if push then ((base + len) mod m + 1) mod m else (base + len) mod m).
  Proof.
    intros base len push pop H.
    destruct pop, push; cbn [b2n] in *; rewrite ?N.add_mod_idemp_l by lia; f_equal; lia.
  Qed.

  Lemma window_step : forall base len (push pop : bool), b2n pop <= len ->
    window m (if pop then (base + 1) mod m else base) (N.to_nat (len + b2n push - b2n pop)) =
    (if pop then tl (window m base (N.to_nat len)) else window m base (N.to_nat len)) ++
    (if push then [(base + len) mod m] else []).
  Proof.
    intros base len push pop H.
    assert (E : N.to_nat (len + b2n push - b2n pop) =
                let k := if pop then pred (N.to_nat len) else N.to_nat len in if push then S k else k)
      by (destruct pop, push; cbn [b2n] in *; lia).
    rewrite E. clear E. cbv zeta. destruct pop; cbn [b2n] in H.
    - destruct (N.to_nat len) as [|k] eqn:Ek; [lia|].
      rewrite (window_head base k). cbn [tl pred]. destruct push.
      + rewrite window_snoc, N.add_mod_idemp_l by lia. do 3 f_equal. lia.
      + symmetry. apply app_nil_r.
    - destruct push.
      + rewrite window_snoc, N2Nat.id. reflexivity.
      + symmetry. apply app_nil_r.
  Qed.
End Window.

Lemma bidx_small : forall n x, x < n -> bidx n x = N.to_nat x.
Proof. intros. unfold bidx. f_equal. lia. Qed.

Definition ring (n : N) (b : list N) (r : N) (k : nat) : list N :=
  map (fun x => nth (N.to_nat x) b 0) (window n r k).

(* the list q is held in the n-entry buffer b between the read pointer r and the write pointer w (len entries);
   fifo_nth and fifo_step address the buffer the way the models do (bidx, and pidx of Model/PktTx.v) *)
Definition fifo_ok (n : N) (b : list N) (r w len : N) (q : list N) : Prop :=
  length b = N.to_nat n /\ r < n /\ len <= n /\ w = (r + len) mod n /\ q = ring n b r (N.to_nat len).

Section Fifo.
  Variable n : N.
  Hypothesis Hn0 : 0 < n.

  Lemma fifo_empty : forall b, length b = N.to_nat n -> fifo_ok n b 0 0 0 [].
  Proof. intros b H. repeat split; try assumption; lia. Qed.

  Lemma fifo_length : forall b r w len q, fifo_ok n b r w len q -> N.of_nat (length q) = len.
  Proof. intros b r w len q (_ & _ & _ & _ & ->). unfold ring. rewrite map_length, window_length. apply N2Nat.id. Qed.

  Lemma fifo_nth : forall b r w len q j, fifo_ok n b r w len q -> j < len ->
    nth (N.to_nat j) q 0 = nth (bidx n ((r + j) mod n)) b 0.
  Proof.
    intros b r w len q j (_ & _ & _ & _ & ->) Hj. unfold ring.
    rewrite (nth_indep _ 0 (nth (N.to_nat 0) b 0)) by (rewrite map_length, window_length; lia).
    rewrite (map_nth (fun x => nth (N.to_nat x) b 0)), window_nth, N2Nat.id by lia.
    rewrite bidx_small by (apply N.mod_lt; lia). reflexivity.
  Qed.

  Lemma fifo_step : forall b r w len q (push pop : bool) v, fifo_ok n b r w len q ->
    len + b2n push <= n -> b2n pop <= len ->
    fifo_ok n (if push then upd (bidx n w) v b else b) (if pop then (r + 1) mod n else r)
            (if push then (w + 1) mod n else w) (len + b2n push - b2n pop)
            ((if pop then tl q else q) ++ (if push then [v] else [])).
  Proof.
    intros b r w len q push pop v (Hlen & Hr & Hl & -> & ->) Hpush Hpop. unfold fifo_ok.
    pose proof (N.mod_lt (r + 1) n) as Hr'. pose proof (N.mod_lt (r + len) n) as Hw. rewrite bidx_small by lia.
    split; [destruct push; [rewrite upd_length|]; exact Hlen|].
    split; [destruct pop; lia|].
    split; [lia|].
    split; [symmetry; apply window_end_step; assumption|].
    symmetry. unfold ring. rewrite window_step, map_app by assumption. f_equal.
    - transitivity (map (fun x => nth (N.to_nat x) b 0) (if pop then tl (window n r (N.to_nat len)) else window n r (N.to_nat len)));
        [|destruct pop; [apply map_tl | reflexivity]].
      (* a push writes slot (r + len) mod n, which is none of the len < n occupied ones (window_fresh) *)
      destruct push; [cbn [b2n] in Hpush | reflexivity]. apply map_ext_in. intros x Hx. apply nth_upd_other.
      intro E. apply N2Nat.inj in E. subst x. apply (window_fresh n r (N.to_nat len)); [lia|].
      rewrite N2Nat.id. destruct pop; [|exact Hx]. destruct (window n r (N.to_nat len)); [destruct Hx | right; exact Hx].
    - destruct push; [|reflexivity]. cbn [map]. f_equal. apply nth_upd_same. lia.
  Qed.
End Fifo.

Lemma narrow : forall w W v, w <= W -> v < 2 ^ w -> v < 2 ^ W.
Proof. intros w W v Hw Hv. apply N.lt_le_trans with (2 ^ w); [exact Hv | apply pow2_le_mono, Hw]. Qed.

Lemma mod_pow2_lt : forall w W x, w <= W -> x mod 2 ^ w < 2 ^ W.
Proof. intros w W x Hw. apply (narrow w W _ Hw), N.mod_lt, pow2_nz. Qed.

Lemma inc_lt : forall w x, inc w x < 2 ^ w.
Proof. intros. apply mod_pow2_lt, N.le_refl. Qed.
Lemma dec_lt : forall w x, dec w x < 2 ^ w.
Proof. intros. apply mod_pow2_lt, N.le_refl. Qed.

Lemma inc_small : forall w x, x + 1 < 2 ^ w -> inc w x = x + 1.
Proof. intros. apply N.mod_small. assumption. Qed.
Lemma dec_small : forall w x, 0 < x -> x < 2 ^ w -> dec w x = x - 1.
Proof. intros w x. exact (sub1_mod x (2 ^ w)). Qed.

Lemma b2n_le : forall (b : bool) x, (b = true -> 0 < x) -> b2n b <= x.
Proof. intros [] x H; cbn [b2n]; [specialize (H eq_refl)|]; lia. Qed.

Lemma updown_val : forall w x up dn, x < 2 ^ w -> b2n dn <= x + b2n up -> x + b2n up < 2 ^ w + b2n dn ->
  updown w x up dn = x + b2n up - b2n dn.
Proof.
  intros w x up dn Hx Hd Hu. unfold updown.
  destruct up, dn; cbn [andb negb b2n] in *; rewrite ?inc_small, ?dec_small by lia; lia.
Qed.

Lemma req_cmd_lt : forall down s, fst (req_cmd down s) < 16 /\ snd (req_cmd down s) < 16.
Proof.
  intros down s. unfold req_cmd, keepalive_cmd.
  destruct (fsm s), down; split; try reflexivity; apply N.mod_lt; discriminate.
Qed.

(* the link command word of this file is the one of Model/LinkCommand.v (C35), whose CRC-5 is written as XOR equations *)
Lemma lc_data_same : forall cmd sub, lc_data cmd sub = LinkCommand.lc_data cmd sub.
Proof.
  intros. unfold lc_data, lc_word, LinkCommand.lc_data, LinkCommand.lc_word, LinkCommand.lc_word_of, LinkCommand.lc_payload.
  rewrite LinkCommand_proofs.crc5_par_usb. reflexivity.
Qed.

Lemma lc_data_fields : forall cmd sub, cmd < 16 -> sub < 16 ->
  bits (lc_data cmd sub) 7 4 = cmd /\ bits (lc_data cmd sub) 0 4 = sub.
Proof. intros cmd sub Hc Hs. rewrite lc_data_same. apply (LinkCommand_proofs.lc_roundtrip cmd sub Hc Hs). Qed.

Lemma restart_false : forall i, restart i = false -> i_en i = true /\ i_rst i = false.
Proof. intros i H. unfold restart in H. destruct (i_en i), (i_rst i); try discriminate H; auto. Qed.

Lemma consume_filled : forall s i, b2n (consume s i) <= filled s.
Proof. intros s i. unfold consume, qvalid. destruct (N.ltb_spec 0 (filled s)), (i_qrdy i); cbn [andb b2n]; lia. Qed.

Section Sim.
  Variables n pw cw sw : N.
  Variable down : bool.
  Hypothesis Hn : n = 2 ^ pw.
  Hypothesis Hcw : n < 2 ^ cw.
  Hypothesis Hpw4 : pw <= 4.
  Hypothesis Hsw4 : sw <= 4.

  (* Model/PktTx_proofs.v applies nbuf_pos and inc_pw to n pw Hn *)
  Lemma nbuf_pos : 0 < n. Proof using Hn. rewrite Hn. apply pow2_pos. Qed.
  Lemma inc_pw : forall x, inc pw x = (x + 1) mod n.
  Proof using Hn. intros. unfold inc. rewrite Hn. reflexivity. Qed.
  Lemma nbuf_le16 : n <= 16. Proof. rewrite Hn. exact (pow2_le_mono pw 4 Hpw4). Qed.
  Lemma seq_le16 : 2 ^ sw <= 16. Proof. exact (pow2_le_mono sw 4 Hsw4). Qed.

  Notation step := (core_step n pw cw sw down).

  Definition core_agree (s : core) (g : sp_state) : Prop :=
    s_exp g = expd s /\ s_ign g = ign s /\ s_ackowed g = acks s /\ s_nextack g = nack s /\
    s_credowed g = credits s /\ s_nextcred g = ncred s /\ s_lbadowed g = lbad s.

  Definition gen_ok (s : core) : Prop :=
    gen s = G_IDLE \/ (fsm s <> DISPATCH /\ (lcmd s, lsub s) = req_cmd down s).

  Definition owed_ok (s : core) : Prop :=
    match fsm s with
    | SEND_ACKS => 1 <= acks s
    | ISSUE_CREDITS => 1 <= credits s
    | SEND_LBAD => lbad s = true
    | _ => True
    end.

  (* until the advertisement has been sent nothing else happens; in DISPATCH (only right after a restart) lrty is
     clear: the dispatcher serves a pending LRTY before the acknowledgements *)
  Definition pre_adv (s : core) : Prop :=
    acks s = 1 /\ filled s = 0 /\ credits s = n /\ (fsm s = SEND_ACKS \/ (fsm s = DISPATCH /\ lrty s = false)).

  (* partner credits + buffered headers + credits still to issue = n; the buffered headers are the ring between
     read and write pointer *)
  Definition core_inv (s : core) (g : sp_state) : Prop :=
    core_agree s g /\
    (nack s < 2 ^ sw /\ ncred s < n /\ acks s <= n /\ s_partner g + filled s + credits s = n) /\
    fifo_ok n (bufs s) (rd s) (wr s) (filled s) (s_q g) /\
    (s_adv g = false -> pre_adv s) /\
    gen_ok s /\ owed_ok s.

  Lemma req_cmd_sub : forall s, nack s < 2 ^ sw -> ncred s < n ->
    snd (req_cmd down s) = match fsm s with SEND_ACKS => nack s | ISSUE_CREDITS => ncred s | _ => 0 end.
  Proof.
    intros s H1 H2. pose proof seq_le16. pose proof nbuf_le16. unfold req_cmd.
    destruct (fsm s); try reflexivity; apply N.mod_small; lia.
  Qed.

  Lemma done_gen : forall s i, done s i = true -> gen s = G_CMD /\ i_srdy i = true.
  Proof. intros s i H. unfold done in H. destruct (gen s); try discriminate H. split; [reflexivity | exact H]. Qed.

  Lemma done_sending : forall s i, gen_ok s -> done s i = true -> fsm s <> DISPATCH /\ (lcmd s, lsub s) = req_cmd down s.
  Proof. intros s i [Hg|Hg] Hd; [|exact Hg]. destruct (done_gen s i Hd) as [E _]. congruence. Qed.

  Lemma completed_char : forall s i, gen_ok s ->
    completed i (core_out n s i) = if done s i then Some (req_cmd down s) else None.
  Proof.
    intros s i Hg. destruct (done s i) eqn:Ed.
    - destruct (done_sending s i Hg Ed) as [_ E]. destruct (done_gen s i Ed) as [Eg Es].
      destruct (req_cmd_lt down s) as [Hc1 Hc2]. rewrite <- E in *. cbn [fst snd] in Hc1, Hc2.
      unfold completed, core_out. cbn [o_svalid o_sdata o_sctrl]. rewrite Eg, Es. cbn [andb N.eqb].
      destruct (lc_data_fields _ _ Hc1 Hc2) as [-> ->]. reflexivity.
    - unfold completed, core_out, done in *. cbn [o_svalid o_sdata o_sctrl].
      destruct (gen s); [reflexivity | rewrite andb_false_r; reflexivity | rewrite Ed; reflexivity].
  Qed.

  (* the local function `is` of sp_next under a name: core_inv_step_up folds it to rewrite with is_cmd_char *)
  Definition is_cmd (c : option (N * N)) (c' : N) : bool :=
    match c with Some (cmd, _) => cmd =? c' | None => false end.

  Lemma is_cmd_char : forall s i, gen_ok s ->
    let c := completed i (core_out n s i) in
    is_cmd c LGOOD = in_state s SEND_ACKS && done s i /\
    is_cmd c LCRD = in_state s ISSUE_CREDITS && done s i /\
    is_cmd c LBAD = in_state s SEND_LBAD && done s i.
  Proof.
    intros s i Hg. cbv zeta. rewrite (completed_char s i Hg).
    destruct (done s i) eqn:Ed.
    - destruct (done_sending s i Hg Ed) as [Hf _]. unfold is_cmd, req_cmd, in_state, keepalive_cmd.
      destruct (fsm s), down; try contradiction; repeat split; reflexivity.
    - rewrite !andb_false_r. repeat split; reflexivity.
  Qed.

  Lemma core_inv_check : forall s g i, core_inv s g -> sp_check down g i (core_out n s i) = true.
  Proof.
    intros s g i ((He & _ & Hak & Hna & Hcr & Hnc & Hlb) & (Hnal & Hncl & _) & Hq & Hpre & Hg & Ho).
    pose proof nbuf_pos as Hn0. unfold sp_check. rewrite (completed_char s i Hg).
    apply andb_true_iff. split; [apply andb_true_iff; split|].
    - pose proof (fifo_length n _ _ _ _ _ Hq) as Hlen. unfold core_out, qvalid. cbn [o_qvalid o_qhdr].
      destruct (s_q g) as [|h t].
      + rewrite <- Hlen. reflexivity.
      + assert (H0 : 0 < filled s) by (rewrite <- Hlen; cbn [length]; lia).
        pose proof (fifo_nth n Hn0 _ _ _ _ _ 0 Hq H0) as Hh. destruct Hq as (_ & Hrd & _).
        rewrite N.add_0_r, N.mod_small in Hh by exact Hrd. cbn [N.to_nat nth] in Hh.
        apply N.ltb_lt in H0. rewrite H0, <- Hh. apply N.eqb_refl.
    - unfold core_out. cbn [o_exp]. rewrite He. apply N.eqb_refl.
    - destruct (done s i) eqn:Ed; [|reflexivity].
      destruct (done_sending s i Hg Ed) as [Hf E]. destruct (done_gen s i Ed) as [Eg _].
      pose proof (req_cmd_sub s Hnal Hncl) as Hsub.
      unfold sp_cmd_ok, core_out. cbn [o_sdata]. rewrite Eg.
      destruct (req_cmd down s) as [cmd sub] eqn:Er. injection E as -> ->. rewrite N.eqb_refl. cbn [andb snd] in *.
      assert (Hadv : fsm s <> SEND_ACKS -> s_adv g = true).
      { intro Hs. destruct (s_adv g); [reflexivity|]. destruct (Hpre eq_refl) as (_ & _ & _ & [H|[H _]]); contradiction. }
      unfold owed_ok in Ho. unfold req_cmd in Er.
      destruct (fsm s); try contradiction; injection Er as <- _; subst sub;
        unfold LGOOD, LCRD, LBAD, LRTY, LXU; cbn [N.eqb Pos.eqb orb].
      { rewrite Hak, Hna, N.eqb_refl, andb_true_r. apply N.ltb_lt. lia. }
      all: rewrite Hadv by discriminate.
      + rewrite Hcr, Hnc, N.eqb_refl, andb_true_r. apply N.ltb_lt. lia.
      + rewrite Hlb, Ho. reflexivity.
      + reflexivity.
      + destruct down; reflexivity.
      + reflexivity.
  Qed.

  Lemma core_inv_fresh : forall e b x, length b = N.to_nat n -> core_inv (core_fresh n cw sw e b x) (sp_fresh n sw e).
  Proof.
    intros e b x Hl. pose proof nbuf_pos as Hn0.
    unfold core_inv, core_agree, pre_adv, gen_ok, owed_ok, core_fresh, sp_fresh.
    cbn [s_exp s_ign s_q s_ackowed s_nextack s_credowed s_nextcred s_partner s_adv s_lbadowed
         acks credits filled rd wr bufs expd nack ncred lbad lrty keep lxu ign fsm gen lcmd lsub].
    rewrite (N.mod_small n (2 ^ cw)) by exact Hcw.
    split; [repeat split|]. split; [repeat split; try assumption; try lia; apply dec_lt|].
    split; [apply fifo_empty; assumption|]. split; [intros _; repeat split; right; split; reflexivity|].
    split; [left; reflexivity | exact I].
  Qed.

  (* C38: whatever the state, one cycle with the link down (or in reset) leaves the bookkeeping in the fresh state *)
  Theorem restart_is_fresh : forall s i, restart i = true ->
    step s i = core_fresh n cw sw (if i_rst i then 0 else expd s) (bufs s)
                 (if in_state s SEND_LXU && done s i then false else if i_rej i then true else lxu s).
  Proof.
    intros s i Hr. unfold core_step, core_fresh, fsm_next, gen_next. rewrite Hr.
    assert (Ha : accept s i = false) by (unfold accept; rewrite Hr; destruct (i_new i), (ign s); reflexivity).
    rewrite Ha. reflexivity.
  Qed.

  Lemma core_inv_restart : forall s g i o, core_inv s g -> restart i = true -> core_inv (step s i) (sp_next n sw g i o).
  Proof.
    intros s g i o ((He & _) & _ & (Hlen & _) & _) Hr.
    rewrite (restart_is_fresh s i Hr). unfold sp_next. rewrite Hr, He. apply core_inv_fresh, Hlen.
  Qed.

  Lemma dispatch_hold : forall s i, restart i = false -> done s i = false -> fsm s <> DISPATCH ->
    fsm (step s i) = fsm s /\ req_cmd down (step s i) = req_cmd down s.
  Proof.
    intros s i Hr Hd Hf. unfold req_cmd, core_step, fsm_next. cbn [fsm nack ncred].
    rewrite Hr, Hd, !andb_false_r. destruct (fsm s); try contradiction; split; reflexivity.
  Qed.

  Lemma gen_ok_step : forall s i, restart i = false -> gen_ok s -> gen_ok (step s i).
  Proof.
    intros s i Hr Hg. destruct (done s i) eqn:Ed.
    - left. destruct (done_gen s i Ed) as [Eg Es]. unfold core_step, gen_next. cbn [gen]. rewrite Hr, Eg, Es. reflexivity.
    - assert (fsm s = DISPATCH \/ fsm s <> DISPATCH) as [Ef|Ef]
        by (destruct (fsm s); (left; reflexivity) || (right; discriminate)).
      + destruct Hg as [Eg | [Hf _]]; [|contradiction]. left.
        unfold core_step, gen_next, generate. cbn [gen]. rewrite Hr, Eg, Ef. reflexivity.
      + right. destruct (dispatch_hold s i Hr Ed Ef) as [-> ->]. split; [exact Ef|].
        unfold core_step. cbn [lcmd lsub]. rewrite Hr. unfold latch, generate.
        destruct (gen s) eqn:Eg; [|destruct Hg as [Hg|[_ Hg]]; [congruence | exact Hg] ..].
        destruct (fsm s); try contradiction; symmetry; apply surjective_pairing.
  Qed.

  Lemma done_owed : forall s i, owed_ok s ->
    b2n (in_state s SEND_ACKS && done s i) <= acks s /\ b2n (in_state s ISSUE_CREDITS && done s i) <= credits s.
  Proof.
    intros s i Ho. unfold in_state, owed_ok in *.
    destruct (fsm s), (done s i); cbn [dfsm_eqb andb b2n]; lia.
  Qed.

  Section LinkUp.
    Variables (s : core) (g : sp_state) (i : cin).
    Hypothesis HI : core_inv s g.
    Hypothesis Hr : restart i = false.
    Hypothesis Henv : sp_env n g i = true.

    Lemma accept_env : b2n (accept s i) <= s_partner g /\ acks s + b2n (accept s i) <= n.
    Proof.
      pose proof HI as ((_ & Hig & Hak & _) & (_ & _ & Hakn & _) & _). pose proof Henv as E.
      unfold sp_env, sp_accept in E. rewrite Hig, Hak in E. fold (accept s i) in E.
      destruct (accept s i); cbn [b2n]; [|lia].
      apply andb_true_iff in E as [H1 H2]. apply N.ltb_lt in H1. apply N.ltb_lt in H2. lia.
    Qed.

    Lemma counters_step :
      acks (step s i) = acks s + b2n (accept s i) - b2n (in_state s SEND_ACKS && done s i) /\
      credits (step s i) = credits s + b2n (consume s i) - b2n (in_state s ISSUE_CREDITS && done s i) /\
      filled (step s i) = filled s + b2n (accept s i) - b2n (consume s i).
    Proof.
      pose proof accept_env as [Hacc Hacc']. pose proof (consume_filled s i) as Hcons.
      pose proof HI as (_ & (_ & _ & _ & Hpa) & _ & _ & _ & Ho). destruct (done_owed s i Ho) as [HdA HdC].
      unfold core_step. cbn [acks credits filled]. rewrite Hr. repeat split; apply updown_val; lia.
    Qed.

    Lemma owed_ok_step : owed_ok (step s i).
    Proof.
      destruct counters_step as (Ea & Ec & _). pose proof HI as (_ & _ & _ & _ & _ & Ho).
      unfold owed_ok in *. rewrite Ea, Ec. clear Ea Ec.
      unfold core_step, fsm_next, in_state. cbn [fsm lbad]. rewrite Hr.
      destruct (fsm s); cbn [dfsm_eqb andb b2n].
      - (* DISPATCH *)
        destruct (lrty s); [exact I|].
        destruct (acks s =? 0) eqn:Ea0; cbn [negb]; [|apply N.eqb_neq in Ea0; lia].
        destruct (credits s =? 0) eqn:Ec0; cbn [negb]; [|apply N.eqb_neq in Ec0; lia].
        destruct (lbad s); [destruct (badev s i); reflexivity|].
        destruct (lxu s); [exact I|]. destruct (keep s); exact I.
      - destruct (done s i); cbn [b2n andb]; [|lia].
        destruct (acks s =? 1) eqn:Ea1; [exact I | apply N.eqb_neq in Ea1; lia].
      - destruct (done s i); cbn [b2n andb]; [|lia].
        destruct (credits s =? 1) eqn:Ec1; [exact I | apply N.eqb_neq in Ec1; lia].
      - rewrite Ho. destruct (done s i); [exact I|]. destruct (badev s i); reflexivity.
      - destruct (done s i); exact I.
      - destruct (done s i); exact I.
      - destruct (done s i); exact I.
    Qed.

    Lemma pre_adv_step : s_adv g = false -> in_state s SEND_ACKS && done s i = false -> pre_adv (step s i).
    Proof.
      intros Hadv HdA. pose proof accept_env as [Hacc _].
      pose proof HI as (_ & (_ & _ & _ & Hpa) & _ & Hpre & _). destruct (Hpre Hadv) as (Ha & Hf & Hc & Hst).
      (* filled s = 0 and credits s = n leave the partner no credit (Hpa), so nothing is accepted; nothing is
         buffered, so nothing is consumed *)
      assert (Eacc : accept s i = false) by (destruct (accept s i); [cbn [b2n] in Hacc; lia | reflexivity]).
      assert (Econs : consume s i = false) by (unfold consume, qvalid; rewrite Hf; reflexivity).
      assert (HdC : in_state s ISSUE_CREDITS && done s i = false)
        by (unfold in_state; destruct Hst as [-> | [-> _]]; reflexivity).
      unfold pre_adv, core_step, fsm_next. cbn [acks filled credits fsm lrty]. rewrite Hr, Eacc, Econs, HdA, HdC.
      repeat split; try assumption. left.
      unfold in_state in HdA. destruct Hst as [Hs | [Hs Hl]]; rewrite Hs in *.
      - cbn [dfsm_eqb andb] in HdA. rewrite HdA. reflexivity.
      - rewrite Hl, Ha. reflexivity.
    Qed.

    Lemma core_inv_step_up : core_inv (step s i) (sp_next n sw g i (core_out n s i)).
    Proof.
      pose proof nbuf_pos as Hn0. destruct counters_step as (Eacks & Ecred & Efill).
      pose proof accept_env as [Hacc Hacc']. pose proof (consume_filled s i) as Hcons.
      pose proof HI as (Hag & (Hnal & Hncl & Hakn & Hpa) & Hq & _ & Hg & Ho).
      destruct Hag as (He & Hig & Hak & Hna & Hcr & Hnc & Hlb). destruct (done_owed s i Ho) as [_ HdC].
      destruct (is_cmd_char s i Hg) as (HisA & HisC & HisB).
      destruct (restart_false i Hr) as [_ Hrst].
      unfold sp_next. rewrite Hr. cbv zeta.
      fold (is_cmd (completed i (core_out n s i)) LGOOD). fold (is_cmd (completed i (core_out n s i)) LCRD).
      fold (is_cmd (completed i (core_out n s i)) LBAD).
      change (o_qvalid (core_out n s i) && i_qrdy i) with (consume s i).
      unfold sp_accept, sp_badev. rewrite HisA, HisC, HisB, Hig. fold (accept s i) (badev s i).
      unfold core_inv. cbn [s_q s_partner s_adv].
      split; [|split; [|split; [|split; [|split]]]].
      - unfold core_agree. cbn [s_exp s_ign s_ackowed s_nextack s_credowed s_nextcred s_lbadowed].
        rewrite Eacks, Ecred. unfold core_step. cbn [expd ign nack ncred lbad].
        rewrite Hr, Hrst, He, Hak, Hna, Hcr, Hnc, Hlb, inc_pw. repeat split.
      - rewrite Eacks, Ecred, Efill. unfold core_step. cbn [nack ncred]. rewrite Hr, inc_pw.
        repeat split; try lia; apply if_lt; try assumption; [apply inc_lt | apply N.mod_lt; lia].
      - rewrite Efill. unfold core_step. cbn [bufs rd wr]. rewrite Hr, !inc_pw.
        apply (fifo_step n Hn0); [exact Hq | lia | exact Hcons].
      - intro H. apply orb_false_iff in H as [H1 H2]. exact (pre_adv_step H1 H2).
      - apply gen_ok_step; assumption.
      - exact owed_ok_step.
    Qed.
  End LinkUp.

  Lemma core_inv_step : forall s g i, core_inv s g -> sp_env n g i = true ->
    core_inv (step s i) (sp_next n sw g i (core_out n s i)).
  Proof.
    intros s g i HI He. destruct (restart i) eqn:Hr; [apply core_inv_restart | apply core_inv_step_up]; assumption.
  Qed.

  Fixpoint core_ios (s : core) (ins : list cin) : list (cin * cout) :=
    match ins with
    | [] => []
    | i :: t => (i, core_out n s i) :: core_ios (step s i) t
    end.

  Theorem core_refines : forall ins s g, core_inv s g -> sp_accepts n sw down g (core_ios s ins) = true.
  Proof.
    induction ins as [|i t IH]; intros s g HI; [reflexivity|].
    cbn [core_ios sp_accepts]. unfold sp_mon. destruct (sp_env n g i) eqn:He; [|reflexivity].
    rewrite (core_inv_check s g i HI). cbn [andb]. apply IH. apply core_inv_step; assumption.
  Qed.

  Corollary core_meets_spec : forall ins,
    sp_accepts n sw down (sp_fresh n sw 0) (core_ios (core_init n cw sw) ins) = true.
  Proof.
    intro ins. apply core_refines, core_inv_fresh, repeat_length.
  Qed.

  Fixpoint hr_ios (st : hr_state) (ins : list hin) : list (hin * cout) :=
    match ins with
    | [] => []
    | i :: t => (i, snd (hr_step n pw cw sw down st i)) :: hr_ios (fst (hr_step n pw cw sw down st i)) t
    end.

  Lemma spec_cin_eq : forall r c x g i, raw_rel r x -> core_inv c g -> spec_cin x (s_exp g) i = hr_cin r c i.
  Proof.
    intros r c x g i Hr ((He & _) & _). rewrite He.
    unfold spec_cin, hr_cin, cin_of_hin. destruct (raw_rel_outs r x (expd c) Hr) as [E _].
    injection E as <- <- <- <-. reflexivity.
  Qed.

  Theorem hr_refines : forall ins r c x g, raw_rel r x -> core_inv c g ->
    hs_accepts n sw down (x, g) (hr_ios (r, c) ins) = true.
  Proof.
    induction ins as [|i t IH]; intros r c x g Hr HI; [reflexivity|].
    cbn [hr_ios hs_accepts hr_step fst snd]. unfold hs_mon.
    rewrite (spec_cin_eq r c x g i Hr HI). unfold sp_mon.
    destruct (sp_env n g (hr_cin r c i)) eqn:He; [|reflexivity].
    rewrite (core_inv_check c g _ HI). cbn [andb]. apply IH.
    - assert (E : s_exp g = expd c) by (destruct HI as ((E & _) & _); exact E). rewrite E. apply raw_rel_step. exact Hr.
    - apply core_inv_step; assumption.
  Qed.

  Corollary hr_meets_spec : forall ins,
    hs_accepts n sw down (rsx_init, sp_fresh n sw 0) (hr_ios (hr_init n cw sw) ins) = true.
  Proof.
    intro ins. apply hr_refines; [apply raw_rel_init | apply core_inv_fresh, repeat_length].
  Qed.
End Sim.

Section HistProofs.
  Variables n sw : N.
  Variable down : bool.
  Lemma sp_fifo_step : forall g i o, restart i = false -> sp_check down g i o = true ->
    s_q g ++ (if sp_accept g i then [i_pkt i] else []) =
    (if o_qvalid o && i_qrdy i then [o_qhdr o] else []) ++ s_q (sp_next n sw g i o).
  Proof.
    intros g i o Hr Hc. unfold sp_next. rewrite Hr. cbn [s_q].
    destruct (o_qvalid o && i_qrdy i) eqn:Et; [|reflexivity]. apply andb_true_iff in Et as [Ev _].
    unfold sp_check in Hc. apply andb_true_iff in Hc as [Hc _]. apply andb_true_iff in Hc as [Hq _].
    destruct (s_q g) as [|h t]; [rewrite Ev in Hq; discriminate Hq|].
    apply andb_true_iff in Hq as [_ Hh]. apply N.eqb_eq in Hh. rewrite Hh. reflexivity.
  Qed.

  (* C37: headers are handed over exactly once and in order, while the link stays up *)
  Theorem sp_fifo : forall ios g gf a d, Forall (fun io => restart (fst io) = false) ios ->
    sp_run n sw down g ios = Some (gf, a, d) -> s_q g ++ a = d ++ s_q gf.
  Proof.
    induction ios as [|[i o] t IH]; intros g gf a d Hall H; cbn [sp_run] in H.
    - injection H as <- <- <-. apply app_nil_r.
    - inversion Hall as [|? ? Hr Ht]; subst. unfold sp_mon in H. destruct (sp_env n g i); [|discriminate H].
      destruct (sp_check down g i o) eqn:Hc; [|discriminate H].
      destruct (sp_run n sw down (sp_next n sw g i o) t) as [[[gf' a'] d']|] eqn:Hrun; [|discriminate H].
      injection H as <- <- <-. rewrite app_assoc, (sp_fifo_step g i o Hr Hc), <- !app_assoc.
      f_equal. exact (IH _ _ _ _ Ht Hrun).
  Qed.
End HistProofs.

Lemma core_mrun : forall n pw cw sw down hw tr s,
  run (core_mstep n pw cw sw down hw) s tr =
  map (fun io => pack_cout hw (snd io)) (core_ios n pw cw sw down s (map (cin_of hw) tr)).
Proof.
  induction tr as [|x t IH]; intro s; [reflexivity|].
  cbn [run map core_ios]. unfold core_mstep at 1. cbn [snd]. rewrite IH. reflexivity.
Qed.

Lemma core_ios_inputs : forall n pw cw sw down ins s, map fst (core_ios n pw cw sw down s ins) = ins.
Proof. induction ins as [|i t IH]; intro s; [reflexivity|]. cbn [core_ios map fst]. rewrite IH. reflexivity. Qed.

Lemma packb_pack : forall W l, packb W l = pack (2 ^ W) l.
Proof.
  induction l as [|x t IH]; [reflexivity|]. cbn [packb pack]. unfold pk.
  rewrite IH, N.shiftl_mul_pow2. f_equal. apply N.mul_comm.
Qed.

Lemma unpackb_unpack : forall W k m, unpackb W k m = unpack (2 ^ W) k m.
Proof.
  induction k as [|k IH]; intro m; [reflexivity|]. cbn [unpackb unpack].
  rewrite IH, N.land_ones, N.shiftr_div_pow2. reflexivity.
Qed.

Lemma unpackb_packb : forall W l, Forall (fun x => x < 2 ^ W) l -> unpackb W (length l) (packb W l) = l.
Proof. intros. rewrite unpackb_unpack, packb_pack. apply unpack_pack. assumption. Qed.

Lemma dfsm_of_code : forall f, dfsm_of (dfsm_code f) = f.
Proof. destruct f; reflexivity. Qed.
Lemma gfsm_of_code : forall g, gfsm_of (gfsm_code g) = g.
Proof. destruct g; reflexivity. Qed.

Lemma core_dec_enc : forall W nb s, core_wf W nb s -> core_dec W nb (core_enc W s) = s.
Proof.
  intros W nb s [Hl Hf]. unfold core_dec, core_enc.
  replace (17 + nb)%nat with (length (core_nums s)) by (unfold core_nums; rewrite app_length, Hl; reflexivity).
  rewrite unpackb_packb by exact Hf.
  destruct s. cbn -[n2b dfsm_of gfsm_of]. unfold n2b. rewrite !b2n_eqb1, dfsm_of_code, gfsm_of_code. reflexivity.
Qed.

Lemma lt16_pow2 : forall W v, 4 <= W -> v < 16 -> v < 2 ^ W.
Proof. intros W v. exact (narrow 4 W v). Qed.

Lemma dfsm_code_lt : forall f, dfsm_code f < 16.
Proof. destruct f; reflexivity. Qed.
Lemma gfsm_code_lt : forall g, gfsm_code g < 16.
Proof. destruct g; reflexivity. Qed.

Lemma core_wf_step' : forall n pw cw sw down hw W nb, pw <= W -> cw <= W -> sw <= W -> hw <= W -> 4 <= W ->
  forall s x, core_wf W nb s -> core_wf W nb (fst (core_mstep n pw cw sw down hw s x)).
Proof.
  intros n pw cw sw down hw W nb Hpw Hcw Hsw Hhw H4 s x [Hl Hf].
  unfold core_mstep, core_wf, core_nums, core_step in *.
  cbn [fst acks credits filled rd wr expd nack ncred lcmd lsub lbad lrty keep lxu ign fsm gen bufs].
  set (i := cin_of hw x). apply Forall_app in Hf as [Hf Hb].
  split; [destruct (accept s i); [rewrite upd_length|]; exact Hl|].
  apply Forall_app. split.
  - pose proof (lt16_pow2 W 1 H4 eq_refl). destruct (req_cmd_lt down s).
    repeat apply Forall_cons_iff in Hf as [? Hf].
    unfold updown, inc, dec, b2n. repeat constructor; repeat apply if_lt;
      auto using pow2_pos, mod_pow2_lt, lt16_pow2, dfsm_code_lt, gfsm_code_lt.
  - destruct (accept s i); [apply upd_Forall|]; try assumption.
    apply (narrow hw W _ Hhw), bits_lt.
Qed.

Lemma core_wf_init' : forall n cw sw W nb, cw <= W -> sw <= W -> 4 <= W -> nb = N.to_nat n ->
  core_wf W nb (core_init n cw sw).
Proof.
  intros n cw sw W nb Hcw Hsw H4 ->. split; [apply repeat_length|].
  apply Forall_app. split; [|apply Forall_repeat, pow2_pos].
  pose proof (lt16_pow2 W 1 H4 eq_refl).
  repeat constructor; cbn [core_init core_fresh credits nack]; unfold dec; auto using pow2_pos, mod_pow2_lt.
Qed.
