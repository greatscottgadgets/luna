(* C16 / C13 -- what the proofs about the two OUT stream endpoints share.  Both endpoints are a boundary detector,
   a little glue and a transactional FIFO, and both specifications follow the packet tracker.  bd_rel_step: the
   tracker follows the boundary-detector model cycle by cycle, for every input; bd_fwd_rel / bd_strobes_rel: what the
   glue logic reads from the detector is fwd / strobes of the tracker; pkt_rel_step adds the endpoints' ghost
   registers and what the environment assumption rx_env (Model/IsoOut.v, used by both endpoints) guarantees of the
   open packet.  fwd_entries_next is the tracker as the buffer logic meets it (the entries grow by the byte forwarded
   in this cycle), fifo_rel_step one cycle of the FIFO model against a specification's queue, through the abstract
   transactional queue of C18 (TxFifo_proofs.v).  The file ends with what the lock-step ties need: env_carried, and
   bounds and decoders for stacking packed sub-states into one N. *)
From Coq Require Import NArith List Bool Arith Lia.
Import ListNotations.
From LunaLib Require Import Netlist PackN ListFacts.
From LunaModel Require Import BoundaryDet BoundaryDet_proofs TxFifo TxFifo_proofs C16_OutTrack IsoOut.
Open Scope nat_scope.

Lemma nth_snoc_prev : forall (l : list N) x d, l <> [] -> nth (length (l ++ [x]) - 2) (l ++ [x]) d = last l d.
Proof.
  intros l x d H. pose proof (length_pos l H).
  rewrite last_nth, app_length, app_nth1 by (cbn [length]; lia). f_equal. cbn [length]. lia.
Qed.

Lemma bd_rel_init : bd_rel bd_init PIdle.
Proof. cbn. repeat split; reflexivity. Qed.

Lemma bd_rel_start : forall s r,
  fsm s = WAIT_FOR_FIRST_BYTE -> bd_rel (bd_next s (rx_bd r)) (trk_start r).
Proof.
  intros s r Hf. unfold bd_next, trk_start. rewrite Hf. cbn [rx_bd i_valid i_next i_payload].
  destruct (r_valid r && r_next r); cbn [bd_rel fsm out buf is_first buf_c buf_i o_valid o_next o_first o_last
    o_complete o_invalid o_payload length last]; repeat split; try reflexivity; try discriminate; try lia.
Qed.

Lemma bd_rel_step : forall s ph r, bd_rel s ph -> bd_rel (bd_next s (rx_bd r)) (trk_next ph r).
Proof.
  intros s ph r H. destruct ph as [|bs c v fresh|bs c v|bs c v].
  - destruct H as (Hf & _). apply bd_rel_start. exact Hf.
  - destruct H as (Hf & Hne & Hbuf & Hisf & Hc & Hv & Hoc & Hoi & Hol & Hon & Hval & Hnv & Hfr).
    unfold bd_next, trk_next. rewrite Hf. cbn [rx_bd i_valid i_next i_payload i_cin i_iin].
    destruct (r_valid r); [destruct (r_next r)|];
      cbn [negb bd_rel fsm out buf is_first buf_c buf_i o_valid o_next o_first o_last o_complete o_invalid o_payload].
    + (* a further byte: the one held back is forwarded *)
      rewrite (nth_snoc_prev bs (r_pay r) 0%N Hne), last_last, app_length, Nat.add_1_r.
      destruct bs as [|b0 bs']; [congruence|]. cbn [length Nat.eqb] in *.
      repeat split; try assumption; try reflexivity; try congruence; try discriminate; try lia.
    + repeat split; try assumption; try reflexivity; try congruence; try discriminate.
    + repeat split; try assumption; try reflexivity; try congruence.
  - destruct H as (Hf & Hne & Hc & Hv & Hoc & Hoi & Hov & Hon & Hol & Hop & Hof).
    unfold bd_next, trk_next. rewrite Hf.
    cbn [bd_rel fsm out buf is_first buf_c buf_i o_valid o_next o_first o_last o_complete o_invalid o_payload].
    repeat split; try assumption; reflexivity.
  - destruct H as (Hf & _). apply bd_rel_start. exact Hf.
Qed.

Lemma bd_fwd_rel : forall s ph, bd_rel s ph -> bd_fwd s = fwd ph.
Proof.
  intros s ph H. unfold bd_fwd. destruct ph as [|bs c v fresh|bs c v|bs c v].
  - destruct H as (_ & _ & Hn & _). rewrite Hn. reflexivity.
  - destruct H as (Hf & Hne & Hbuf & Hisf & Hc & Hv & Hoc & Hoi & Hol & Hon & Hval & Hnv & Hfr).
    rewrite Hon. destruct fresh; [|reflexivity].
    destruct (Hfr eq_refl) as (H2 & Hp & Hfi). rewrite (Hval H2), Hp, Hfi, Hol. reflexivity.
  - destruct H as (Hf & Hne & Hc & Hv & Hoc & Hoi & Hov & Hon & Hol & Hop & Hof).
    rewrite Hon, Hov, Hop, Hof, Hol. reflexivity.
  - destruct H as (_ & _ & Hn & _). rewrite Hn. reflexivity.
Qed.

Lemma bd_strobes_rel : forall s ph, bd_rel s ph -> (o_complete (out s), o_invalid (out s)) = strobes ph.
Proof.
  intros s ph H. destruct ph as [|bs c v fresh|bs c v|bs c v]; cbn [strobes].
  - destruct H as (_ & _ & _ & Hc & Hv). rewrite Hc, Hv. reflexivity.
  - destruct H as (_ & _ & _ & _ & _ & _ & Hc & Hv & _). rewrite Hc, Hv. reflexivity.
  - destruct H as (_ & _ & _ & _ & Hc & Hv & _). rewrite Hc, Hv. reflexivity.
  - destruct H as (_ & _ & _ & Hc & Hv). rewrite Hc, Hv. reflexivity.
Qed.

(* processed-side `valid` (the register that the repair of C13 looks at, see Model/StreamOut.v) as a function of the
   tracker *)
Lemma bd_valid_rel : forall s ph, bd_rel s ph ->
  match ph with
  | PIdle => o_valid (out s) = false
  | POpen bs _ _ _ => 2 <= length bs -> o_valid (out s) = true
  | _ => o_valid (out s) = true
  end.
Proof. intros s ph H. destruct ph; apply H. Qed.

(* the ghost byte counters saturate at mps + 1 *)
Lemma min_ltb : forall mps a, (Nat.min a (S mps) <? mps) = (a <? mps).
Proof. intros mps a. destruct (Nat.ltb_spec a mps), (Nat.ltb_spec (Nat.min a (S mps)) mps); try reflexivity; lia. Qed.

Section Packet.
  Variable mps : nat.
  Hypothesis Hmps : 1 <= mps.

  (* boundary detector and ghost registers against tracker and addressing flag; what the environment
     assumption (rx_env) guarantees about the open packet *)
  Definition pkt_rel (b : bd_state) (gtgt : bool) (gcnt : nat) (ph : phase) (tgt : bool) : Prop :=
    bd_rel b ph /\ gtgt = tgt /\
    match ph with POpen bs _ _ _ => gcnt = Nat.min (length bs) (S mps) | _ => True end /\
    Forall (fun x => (x < 256)%N) (ph_bytes ph) /\
    (tgt = true -> length (ph_bytes ph) <= mps) /\
    match ph with PEnded _ c v | PReport _ c v => tgt = true -> xorb c v = true | _ => True end.

  (* in the conclusion, the ghost registers and the addressing flag are, letter for letter, what io_next / so_next
     assign to g_tgt, g_cnt / h_tgt, h_cnt and is_next / ss_next to s_tgt / t_tgt, so that the endpoints' R_step
     apply the lemma by `exact` *)
  Lemma pkt_rel_step : forall b gtgt gcnt ph tgt xt r,
    pkt_rel b gtgt gcnt ph tgt -> rx_env mps tgt ph xt r = true ->
    pkt_rel (bd_next b (rx_bd r))
            (match fsm b with WAIT_FOR_FIRST_BYTE => xt | _ => gtgt end)
            (match fsm b with
             | WAIT_FOR_FIRST_BYTE => 1
             | RECEIVE_AND_TRANSMIT => if r_valid r && r_next r then Nat.min (S gcnt) (S mps) else gcnt
             | OUTPUT_STROBES => gcnt
             end)
            (trk_next ph r)
            (match ph with PIdle | PReport _ _ _ => xt | _ => tgt end).
  Proof.
    intros b gtgt gcnt ph tgt xt r (Hbd & Hgt & Hcnt & Hby & Hlen & Hx) Henv.
    split; [exact (bd_rel_step b ph r Hbd)|].
    unfold rx_env in Henv. apply andb_true_iff in Henv as [Hpay Henv]. apply N.ltb_lt in Hpay.
    assert (Hstart : forall t, match trk_start r with POpen bs _ _ _ => 1 = Nat.min (length bs) (S mps) | _ => True end /\
                     Forall (fun x => (x < 256)%N) (ph_bytes (trk_start r)) /\
                     (t = true -> length (ph_bytes (trk_start r)) <= mps) /\
                     match trk_start r with PEnded _ c v | PReport _ c v => t = true -> xorb c v = true | _ => True end).
    { intro t. unfold trk_start. destruct (r_valid r && r_next r); cbn [ph_bytes length].
      - split; [lia|]. split; [repeat constructor; exact Hpay|]. split; [intros _; exact Hmps | exact I].
      - split; [exact I|]. split; [constructor|]. split; [intros _; lia | exact I]. }
    destruct ph as [|bs c v fresh|bs c v|bs c v].
    - destruct Hbd as (-> & _). split; [reflexivity | apply Hstart].
    - destruct Hbd as (-> & _). subst gtgt gcnt. split; [reflexivity|].
      apply andb_true_iff in Henv as [_ He]. cbn [ph_bytes trk_next] in *.
      destruct (r_valid r); cbn [negb andb] in *; [destruct (r_next r)|]; cbn [ph_bytes].
      + rewrite app_length. cbn [length]. split; [lia|].
        split; [apply Forall_app; split; [exact Hby | repeat constructor; exact Hpay]|].
        split; [|exact I]. intro Et. rewrite Et in He. apply Nat.ltb_lt in He. lia.
      + repeat split; assumption.
      + split; [exact I|]. split; [exact Hby|]. split; [exact Hlen|]. intro Et. rewrite Et in He. exact He.
    - destruct Hbd as (-> & _). split; [exact Hgt|]. cbn [trk_next ph_bytes] in *. repeat split; assumption.
    - destruct Hbd as (-> & _). split; [reflexivity | apply Hstart].
  Qed.
End Packet.

Lemma enc_entry_fields : forall e, (e_data e < 256)%N ->
  let L := [(8, e_data e); (1, b2n (e_last e)); (1, b2n (e_first e))]%N in
  fields_ok L /\ enc_entry e = fields_word L.
Proof.
  intros e H. split; [repeat constructor; cbn [fst snd]; try apply b2n_lt2; exact H|].
  unfold enc_entry. cbn [fields_word]. lia.
Qed.

Lemma enc_entry_dec : forall e, (e_data e < 256)%N ->
  (enc_entry e mod 256 = e_data e)%N /\ N.testbit (enc_entry e) 8 = e_last e /\ N.testbit (enc_entry e) 9 = e_first e.
Proof.
  intros e H. destruct (enc_entry_fields e H) as [HL ->]. repeat split.
  - change 256%N with (2 ^ 8)%N. rewrite <- bits_0. exact (bits_fields_word _ 0 HL).
  - exact (testbit_fields_word _ 1 _ HL eq_refl).
  - exact (testbit_fields_word _ 2 _ HL eq_refl).
Qed.

Lemma enc_entry_lt : forall e, (e_data e < 256)%N -> (enc_entry e < 2 ^ 10)%N.
Proof. intros e H. destruct (enc_entry_fields e H) as [HL ->]. exact (fields_word_lt _ HL). Qed.

Definition mid (x : N) : entry := {| e_data := x; e_first := false; e_last := false |}.

Lemma inner_false : forall bs, inner false bs = map mid bs.
Proof. destruct bs; reflexivity. Qed.

Lemma inner_snoc : forall f bs k, k < length bs ->
  inner f (firstn (S k) bs) = inner f (firstn k bs) ++ [{| e_data := nth k bs 0%N; e_first := f && (k =? 0); e_last := false |}].
Proof.
  intros f [|b t] [|k] H; cbn [length] in H; try lia.
  - cbn. rewrite andb_true_r. reflexivity.
  - rewrite !firstn_cons. cbn [inner nth Nat.eqb app]. rewrite (firstn_succ _ _ 0%N), map_app, andb_false_r by lia. reflexivity.
Qed.

Lemma frame_cons2 : forall f l a t, t <> [] ->
  frame f l (a :: t) = {| e_data := a; e_first := f; e_last := false |} :: frame false l t.
Proof. intros f l a [|b t] H; [contradiction | reflexivity]. Qed.

Lemma frame_split : forall f l bs, bs <> [] ->
  frame f l bs = inner f (firstn (length bs - 1) bs)
                 ++ [{| e_data := last bs 0%N; e_first := f && (length bs =? 1); e_last := l |}].
Proof.
  intros f l bs. revert f. induction bs as [|a t IH]; intros f H; [congruence|].
  destruct t as [|b t']; [cbn; rewrite andb_true_r; reflexivity|].
  rewrite frame_cons2, IH, inner_false by discriminate.
  cbn [length Nat.sub]. rewrite Nat.sub_0_r.
  cbn [firstn inner last Nat.eqb andb app]. rewrite andb_false_r. reflexivity.
Qed.

Lemma frame_data : forall f l bs, map e_data (frame f l bs) = bs.
Proof.
  intros f l bs. revert f. induction bs as [|a [|b t] IH]; intro f; [reflexivity | reflexivity |].
  rewrite frame_cons2 by discriminate. cbn [map e_data]. rewrite IH. reflexivity.
Qed.

Lemma frame_data_lt : forall f l bs, Forall (fun b => (b < 256)%N) bs -> Forall (fun e => (e_data e < 256)%N) (frame f l bs).
Proof. intros f l bs H. apply (Forall_map e_data (fun b => (b < 256)%N)). rewrite frame_data. exact H. Qed.

Lemma frame_length : forall f l bs, length (frame f l bs) = length bs.
Proof. intros f l bs. rewrite <- (frame_data f l bs) at 2. symmetry. apply map_length. Qed.

(* the entries for the bytes of the packet forwarded in earlier cycles: `f` marks the first one, `l` the final
   one (known only once the packet has ended) *)
Definition fwd_entries (f l : bool) (ph : phase) : list entry :=
  match ph with
  | PReport bs _ _ => frame f l bs
  | _ => inner f (firstn (n_fwd ph) (ph_bytes ph))
  end.

(* the entry for the byte forwarded in this cycle, if one is *)
Definition fwd_entry (f l : bool) (ph : phase) : list entry :=
  match fwd ph with
  | Some (p, fi, la) => [{| e_data := p; e_first := f && fi; e_last := l && la |}]
  | None => []
  end.

Definition ph_open (ph : phase) : Prop :=
  match ph with POpen _ _ _ _ | PEnded _ _ _ => True | _ => False end.

Lemma ph_open_dec : forall ph, ph_open ph \/ ~ ph_open ph.
Proof. intros [| | |]; cbn; tauto. Qed.

Lemma fwd_open : forall ph x, fwd ph = Some x -> ph_open ph.
Proof. intros [|bs c v [|]|bs c v|bs c v] x E; try discriminate; exact I. Qed.

Lemma trk_start_fwd : forall r, n_fwd (trk_start r) = 0.
Proof. intro r. unfold trk_start. destruct (r_valid r && r_next r); reflexivity. Qed.

Lemma fwd_entries_0 : forall f l ph, n_fwd ph = 0 -> fwd_entries f l ph = [].
Proof.
  intros f l ph H. destruct ph as [|bs c v fresh|bs c v|bs c v]; cbn [fwd_entries]; try (rewrite H; reflexivity).
  destruct bs; [reflexivity | discriminate].
Qed.

(* `l` only matters once the packet has ended *)
Lemma fwd_entries_next : forall b ph r f l l', bd_rel b ph -> ph_open ph ->
  n_fwd (trk_next ph r) = n_fwd ph + length (fwd_entry f l ph) /\
  fwd_entries f l (trk_next ph r) = fwd_entries f l' ph ++ fwd_entry f l ph.
Proof.
  intros b ph r f l l' H Ho. destruct ph as [|bs c v fresh|bs c v|bs c v]; try contradiction; cbn [trk_next].
  - destruct H as (_ & Hne & _ & _ & _ & _ & _ & _ & _ & _ & _ & _ & Hfr).
    pose proof (length_pos bs Hne) as L.
    set (ph' := if negb (r_valid r) then _ else _).
    (* wherever the tracker goes, one byte of bs is still held back *)
    assert (E : n_fwd ph' = length bs - 1 /\ fwd_entries f l ph' = inner f (firstn (length bs - 1) bs)).
    { unfold ph'. destruct (negb (r_valid r)); [|destruct (r_next r)]; cbn [n_fwd fwd_entries ph_bytes];
        try (split; reflexivity).
      rewrite app_length. cbn [length]. replace (length bs + 1 - 2) with (length bs - 1) by lia.
      rewrite firstn_app. replace (length bs - 1 - length bs) with 0 by lia. rewrite app_nil_r. split; reflexivity. }
    destruct E as [-> ->]. unfold fwd_entry.
    destruct fresh; cbn [fwd fwd_entries n_fwd ph_bytes length]; [|rewrite app_nil_r; split; [lia | reflexivity]].
    destruct (Hfr eq_refl) as [H2 _]. split; [lia|].
    replace (length bs - 1) with (S (length bs - 2)) by lia. rewrite inner_snoc by lia.
    rewrite andb_false_r. destruct (length bs) as [|[|[|n]]]; try lia; reflexivity.
  - destruct H as (_ & Hne & _).
    pose proof (length_pos bs Hne) as L.
    unfold fwd_entry. cbn [fwd fwd_entries n_fwd ph_bytes length]. split; [lia|].
    rewrite andb_true_r. apply frame_split. exact Hne.
Qed.

Lemma fwd_first : forall b ph, bd_rel b ph -> forall p fi la, fwd ph = Some (p, fi, la) ->
  (n_fwd ph =? 0) = fi /\ n_fwd ph < length (ph_bytes ph).
Proof.
  intros b ph H p fi la E. destruct ph as [|bs c v [|]|bs c v|bs c v]; try discriminate; injection E as _ <- _.
  - destruct H as (_ & _ & _ & _ & _ & _ & _ & _ & _ & _ & _ & _ & Hfr). destruct (Hfr eq_refl) as [H2 _].
    cbn [n_fwd ph_bytes]. destruct (length bs) as [|[|[|n]]]; try lia; split; reflexivity || lia.
  - destruct H as (_ & Hne & _). cbn [n_fwd ph_bytes].
    destruct bs as [|x [|y t]]; [congruence | |]; split; reflexivity || (cbn [length]; lia).
Qed.

Lemma fwd_last_spec : forall b ph, bd_rel b ph -> forall p fi r, fwd ph = Some (p, fi, true) ->
  ph_bytes (trk_next ph r) = ph_bytes ph /\ length (ph_bytes ph) = S (n_fwd ph).
Proof.
  intros b ph H p fi r E. destruct ph as [|bs c v [|]|bs c v|bs c v]; try discriminate.
  destruct H as (_ & Hne & _). pose proof (length_pos bs Hne). cbn [ph_bytes n_fwd]. split; [reflexivity | lia].
Qed.

(* the abstract transactional queue as the endpoints drive it: read_commit tied to 1, read_discard to 0 *)
Lemma aq_ep_step : forall depth A rdy wen wc wd data,
  aq_next depth A {| fi_read_en := rdy; fi_read_commit := true; fi_read_discard := false;
                     fi_write_en := wen; fi_write_commit := wc; fi_write_discard := wd; fi_write_data := data |} =
  let pop := rdy && negb (is_nil (aq_avail A)) in
  let rest := if pop then tl (aq_avail A) else aq_avail A in
  let added := if wen && negb (aq_held A =? depth) then [data] else [] in
  {| aq_tent := if pop then [hd 0%N (aq_avail A)] else [];
     aq_avail := if wd then rest else if wc then rest ++ aq_pend A else rest;
     aq_pend := if wd then [] else if wc then added else aq_pend A ++ added |}.
Proof.
  intros depth [T [|h t] P] rdy wen wc wd data; destruct rdy, wd, wc; reflexivity.
Qed.

Lemma obs_facts : forall depth st, tf_inv depth st ->
  let A := tf_abs depth st in let o := tf_outputs depth st in
  fo_space o = depth - aq_held A /\ fo_full o = (aq_held A =? depth) /\ fo_empty o = is_nil (aq_avail A) /\
  (forall h t, aq_avail A = h :: t -> fo_read_data o = h).
Proof.
  intros depth st Hinv. cbv zeta. pose proof (observe_commutes depth st Hinv) as H.
  pose proof (f_equal ob_space H) as H4. pose proof (f_equal ob_full H) as H3. pose proof (f_equal ob_empty H) as H2.
  pose proof (f_equal ob_head H) as H1. cbn [tf_observe aq_observe ob_space ob_full ob_empty ob_head] in H1, H2, H3, H4.
  repeat split.
  - exact H4.
  - exact H3.
  - rewrite H2. destruct (aq_avail _); reflexivity.
  - intros h t E. rewrite E in H1, H2. rewrite H2 in H1. injection H1 as H1. exact H1.
Qed.

Section Fifo.
  Variable depth : nat.

  (* the FIFO against the specification's queue: the committed entries are those of q, one slot is still
     occupied for a cycle after a read *)
  Definition fifo_rel (ff : tf_state) (q : list entry) (tent : bool) : Prop :=
    tf_inv depth ff /\ aq_avail (tf_abs depth ff) = map enc_entry q /\
    length (aq_tent (tf_abs depth ff)) = (if tent then 1 else 0) /\
    Forall (fun e => (e_data e < 256)%N) q.

  Lemma fifo_rel_init : fifo_rel (tf_init depth) [] false.
  Proof. unfold fifo_rel. rewrite abs_init. split; [apply inv_init|]. repeat split. constructor. Qed.

  Lemma fifo_rel_held : forall ff q tent, fifo_rel ff q tent ->
    let A := tf_abs depth ff in let o := tf_outputs depth ff in
    aq_held A = (if tent then 1 else 0) + length q + length (aq_pend A) /\
    fo_space o = depth - aq_held A /\ fo_full o = (aq_held A =? depth).
  Proof.
    intros ff q tent (Hinv & Hav & Hte & _). cbv zeta.
    split; [unfold aq_held; rewrite Hav, Hte, map_length; reflexivity|].
    split; apply (obs_facts depth ff Hinv).
  Qed.

  Lemma fifo_rel_out : forall ff q tent, fifo_rel ff q tent ->
    let o := tf_outputs depth ff in
    fo_empty o = is_nil q /\
    forall e t, q = e :: t ->
      (fo_read_data o mod 256)%N = e_data e /\ N.testbit (fo_read_data o) 8 = e_last e /\
      N.testbit (fo_read_data o) 9 = e_first e.
  Proof.
    intros ff q tent (Hinv & Hav & _ & Hq) o. destruct (obs_facts depth ff Hinv) as (_ & _ & Hem & Hrd).
    split; [fold o in Hem; rewrite Hem, Hav; destruct q; reflexivity|].
    intros e t ->. inversion Hq as [|? ? He _]; subst. fold o in Hrd.
    rewrite (Hrd (enc_entry e) (map enc_entry t) Hav). apply enc_entry_dec. exact He.
  Qed.

  (* `new` are the entries behind a write commit *)
  Lemma fifo_rel_step : forall ff q tent fin new,
    fifo_rel ff q tent -> fi_read_commit fin = true -> fi_read_discard fin = false ->
    let A := tf_abs depth ff in
    map enc_entry new = (if fi_write_discard fin then [] else if fi_write_commit fin then aq_pend A else []) ->
    Forall (fun e => (e_data e < 256)%N) new ->
    let pop := fi_read_en fin && negb (is_nil q) in
    fifo_rel (tf_next_state depth ff fin) ((if pop then tl q else q) ++ new) pop /\
    aq_pend (tf_abs depth (tf_next_state depth ff fin)) =
      if fi_write_discard fin then []
      else (if fi_write_commit fin then [] else aq_pend A) ++
           (if fi_write_en fin && negb (aq_held A =? depth) then [fi_write_data fin] else []).
  Proof.
    intros ff q tent [rdy rc rd wen wc wd data] new (Hinv & Hav & Hte & Hq). cbn [fi_read_commit fi_read_discard
      fi_read_en fi_write_en fi_write_commit fi_write_discard fi_write_data]. intros -> -> Hnew Hnq.
    unfold fifo_rel. edestruct (step_commutes depth ff) as [Hinv' ->]; [exact Hinv|].
    rewrite aq_ep_step. cbn [aq_tent aq_avail aq_pend].
    rewrite Hav. replace (is_nil (map enc_entry q)) with (is_nil q) by (destruct q; reflexivity).
    set (pop := rdy && negb (is_nil q)).
    replace (if pop then tl (map enc_entry q) else map enc_entry q) with (map enc_entry (if pop then tl q else q))
      by (destruct pop, q; reflexivity).
    split; [|destruct wd, wc; reflexivity].
    split; [exact Hinv'|]. split; [rewrite map_app, Hnew; destruct wd, wc; rewrite ?app_nil_r; reflexivity|].
    split; [destruct pop; reflexivity|].
    apply Forall_app. split; [|exact Hnq]. destruct pop; [|exact Hq]. destruct q; [exact Hq | inversion Hq; assumption].
  Qed.
End Fifo.

(* The endpoints' environment assumptions are stated on the specification's states, and the lock-step ties need them
   on the model's registers, along a trace of input words.  A relation that every admitted step keeps, and under
   which the two forms of the assumption agree, carries the assumption over. *)
Section EnvCarried.
  Context {M S I W : Type} {nextM : M -> I -> M} {nextS : S -> I -> S} {envM : M -> I -> bool} {envS : S -> I -> bool}.
  Context {R : M -> S -> Prop}.
  Variable din : W -> I.
  Hypothesis R_env : forall m s i, R m s -> envM m i = envS s i.
  Hypothesis R_step : forall m s i, R m s -> envS s i = true -> R (nextM m i) (nextS s i).

  (* both runs are anonymous fixes: `exact` then converts them with Machine.env_ok over the packed step and with
     is_env_ok / ss_env_ok (io_menv_ok, so_menv_ok), and with the run that io_env_from spells out *)
  Lemma env_carried : forall tr m s, R m s ->
    (fix ok (s : S) (ins : list I) : bool :=
       match ins with [] => true | i :: t => envS s i && ok (nextS s i) t end) s (map din tr) = true ->
    (fix ok (m : M) (tr : list W) : bool :=
       match tr with [] => true | w :: t => envM m (din w) && ok (nextM m (din w)) t end) m tr = true.
  Proof.
    induction tr as [|w t IH]; intros m s HR HE; [reflexivity|].
    cbn [map] in HE. apply andb_true_iff in HE as [He Ht].
    rewrite (R_env m s _ HR), He. exact (IH _ _ (R_step m s _ HR He) Ht).
  Qed.
End EnvCarried.

Lemma tf_enc_lt : forall depth width st, tf_wf depth width st -> (tf_enc depth width st < tf_radix depth width)%N.
Proof.
  intros depth width [cw w cr r mem rd] (H1 & H2 & H3 & H4 & H5 & H6 & H7).
  cbn [tf_cw tf_w tf_cr tf_r tf_mem tf_rdata] in *. unfold tf_enc, tf_radix.
  cbn [tf_cw tf_w tf_cr tf_r tf_mem tf_rdata]. cbv zeta.
  repeat (apply pk_lt; [try exact H5; lia|]).
  rewrite <- H6. apply pack_lt. exact H7.
Qed.

(* the ...2 variants decode with shifts and masks (fast under vm_compute); they equal the div/mod ones *)
Lemma unpack2_unpack : forall w k n, unpack2 w k n = unpack (2 ^ w) k n.
Proof. induction k as [|k IH]; intro n; [reflexivity|]. cbn [unpack2 unpack]. rewrite IH, N.land_ones, N.shiftr_div_pow2. reflexivity. Qed.

Lemma bd_dec2_eq : forall m, bd_dec2 m = bd_dec m.
Proof.
  intro m. unfold bd_dec2, bd_dec. rewrite !N.land_ones, !N.shiftr_div_pow2.
  change (2 ^ 2)%N with 4%N. change (2 ^ 1)%N with 2%N. change (2 ^ 8)%N with 256%N. reflexivity.
Qed.

(* ptr_bits, and the widths of the endpoints' byte counters, are sizes of the largest value *)
Lemma ptr_lt : forall n p, p <= n -> (N.of_nat p < 2 ^ N.size (N.of_nat n))%N.
Proof. intros n p H. apply N.le_lt_trans with (N.of_nat n); [lia|]. apply N.size_gt. Qed.

Lemma tf_dec_enc2 : forall depth st, tf_wf depth 10 st -> tf_dec2 depth (tf_enc2 depth st) = st.
Proof.
  intros depth [cw w cr r mem rd] (H1 & H2 & H3 & H4 & H5 & H6 & H7).
  cbn [tf_cw tf_w tf_cr tf_r tf_mem tf_rdata] in *. unfold tf_dec2, tf_enc2.
  cbn [tf_cw tf_w tf_cr tf_r tf_mem tf_rdata]. cbv zeta.
  rewrite !N.land_ones, !N.shiftr_div_pow2, unpack2_unpack.
  pose proof (ptr_lt depth _ H1). pose proof (ptr_lt depth _ H2). pose proof (ptr_lt depth _ H3). pose proof (ptr_lt depth _ H4).
  rewrite !PackN.pk_div, !PackN.pk_mod by assumption.
  rewrite !Nat2N.id. rewrite <- H6, unpack_pack by exact H7. reflexivity.
Qed.

Lemma tf_enc2_lt : forall depth st, tf_wf depth 10 st -> (tf_enc2 depth st < 2 ^ tf_bits2 depth)%N.
Proof.
  intros depth [cw w cr r mem rd] (H1 & H2 & H3 & H4 & H5 & H6 & H7).
  cbn [tf_cw tf_w tf_cr tf_r tf_mem tf_rdata] in *. unfold tf_enc2, tf_bits2.
  cbn [tf_cw tf_w tf_cr tf_r tf_mem tf_rdata]. cbv zeta.
  pose proof (ptr_lt depth _ H1). pose proof (ptr_lt depth _ H2). pose proof (ptr_lt depth _ H3). pose proof (ptr_lt depth _ H4).
  replace (4 * ptr_bits depth + 10 + 10 * N.of_nat (S depth))%N
    with (ptr_bits depth + (ptr_bits depth + (ptr_bits depth + (ptr_bits depth + (10 + 10 * N.of_nat (S depth))))))%N by lia.
  rewrite !N.pow_add_r.
  repeat (apply pk_lt; [assumption|]).
  rewrite N.pow_mul_r. rewrite <- H6. apply pack_lt. exact H7.
Qed.
