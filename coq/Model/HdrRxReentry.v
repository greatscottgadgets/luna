(* C38 -- link re-entry always re-advertises sequence number and credits.
   Model and specification are those of Model/HdrRx.v (HeaderPacketReceiver); this file adds what is specific to
   re-entry: the "crash points" (every dispatcher / generator state the link can go down in, with every expected
   sequence number; counters, flags and buffers are those of HdrRxReentry_proofs.crash_state) and the quiet re-entry run used to show that the
   advertisement really is sent. *)
From Coq Require Import NArith List Bool.
Import ListNotations.
From LunaLib Require Import Netlist Machine.
From LunaModel Require Import Crc HdrRx.
Open Scope N_scope.

(* an input cycle with the link up, the physical layer ready and nothing else happening *)
Definition quiet : cin :=
  {| i_en := true; i_rst := false; i_qrdy := false; i_retry_rx := false; i_retry_req := false; i_keep := false;
     i_rej := false; i_srdy := true; i_new := false; i_bad := false; i_badseq := false; i_pkt := 0 |}.
(* the link goes down (enable low), with arbitrary other inputs *)
Definition link_down (i : cin) : cin :=
  {| i_en := false; i_rst := i_rst i; i_qrdy := i_qrdy i; i_retry_rx := i_retry_rx i; i_retry_req := i_retry_req i;
     i_keep := i_keep i; i_rej := i_rej i; i_srdy := i_srdy i; i_new := i_new i; i_bad := i_bad i;
     i_badseq := i_badseq i; i_pkt := i_pkt i |}.

(* link commands completed during a run *)
Definition commands (ios : list (cin * cout)) : list (N * N) :=
  flat_map (fun io => match completed (fst io) (snd io) with Some c => [c] | None => [] end) ios.

(* what re-entry must produce on the source when nothing else happens: LGOOD (e - 1), then LCRD 0 .. n-1 *)
Definition advertisement (n sw e : N) : list (N * N) :=
  (LGOOD, dec sw e) :: map (fun k => (LCRD, N.of_nat k)) (seq 0 (N.to_nat n)).

(* every dispatcher / generator state: the crash points (the counters are fixed by HdrRxReentry_proofs.crash_state) *)
Definition all_dfsm : list dfsm := [DISPATCH; SEND_ACKS; ISSUE_CREDITS; SEND_LBAD; SEND_LRTY; SEND_KEEPALIVE; SEND_LXU].
Definition all_gfsm : list gfsm := [G_IDLE; G_HDR; G_CMD].

Fixpoint list_eqb_pairs (a b : list (N * N)) : bool :=
  match a, b with
  | [], [] => true
  | (x1, y1) :: a', (x2, y2) :: b' => (x1 =? x2) && (y1 =? y2) && list_eqb_pairs a' b'
  | _, _ => false
  end.

(* ------------------------------------------------------------------------------------------ *)
(* Resilient runtime oracles.  sp_mon / hs_mon stop judging (None) once the partner breaks its credit rules.
   Over long random simulator traces that would leave every later re-entry unchecked, so the runtime oracles
   (tie.cmon only; the R obligations use the strict monitors) SUSPEND instead and re-synchronise at the next cycle
   with the link down: from there the strict monitor runs again from sp_fresh with the expected sequence number the
   implementation shows in that cycle (0 after a USB reset).  Monitor state = 2 * packed state + suspended flag. *)
Definition sp_monR (n sw : N) (down : bool) (W hw : N) (m i o : N) : option (N * bool) :=
  let ci := cin_of hw i in let co := unpack_cout hw o in
  let resync := Some (2 * sp_enc W (sp_fresh n sw (if i_rst ci then 0 else o_exp co)), true) in
  if N.odd m then (if restart ci then resync else Some (m, true))
  else match sp_monN n sw down W (cin_of hw) (unpack_cout hw) (N.div2 m) i o with
       | Some (m', ok) => Some (2 * m', ok)
       | None => if restart ci then resync else Some (1, true)
       end.

Definition hs_monR (n sw : N) (down : bool) (W : N) (m i o : N) : option (N * bool) :=
  let hi := hin_of i in let co := unpack_cout 128 o in
  let st := hs_dec W (N.div2 m) in
  let x' := rsx_step (fst st) (h_sink hi) (o_exp co) in
  let rs := negb (h_en hi) || h_rst hi in
  let resync := Some (2 * hs_enc W (x', sp_fresh n sw (if h_rst hi then 0 else o_exp co)), true) in
  if N.odd m then (if rs then resync else Some (2 * hs_enc W (x', snd st) + 1, true))
  else match hs_monN n sw down W (N.div2 m) i o with
       | Some (m', ok) => Some (2 * m', ok)
       | None => if rs then resync else Some (2 * hs_enc W (x', snd st) + 1, true)
       end.
