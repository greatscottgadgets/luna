(* C55 -- proofs about the strobe stretcher model (Model/Stretch.v): the shift register meets the
   windowed-OR specification; packing for the lock-step obligation. *)
From Coq Require Import NArith PeanoNat List Bool Lia.
Import ListNotations.
From LunaLib Require Import Netlist Bits Machine SymWord ListFacts.
From LunaModel Require Import Stretch.

(* the shift register after the strobe history `past` (newest first): the last w strobes, zeros
   from before reset.  This is ListFacts' delay line `lpad false w past`, written out under the name the
   statements of this file use; pad_cons, pad_length, pad_nil are lpad's lemmas. *)
Definition pad (w : nat) (past : list bool) : list bool := firstn w (past ++ repeat false w).

Lemma existsb_repeat_false : forall k, existsb id (repeat false k) = false.
Proof. induction k; simpl; auto. Qed.

Lemma existsb_pad : forall w past, existsb id (pad w past) = existsb id (firstn w past).
Proof.
  intros. unfold pad. rewrite firstn_app, existsb_app.
  assert (H : forall k, existsb id (firstn k (repeat false w)) = false)
    by (induction w; intros [|k]; simpl; auto).
  rewrite H. apply orb_false_r.
Qed.

Lemma pad_cons : forall w x past, firstn w (x :: pad w past) = pad w (x :: past).
Proof. exact (lpad_cons false). Qed.

Lemma pad_length : forall w past, length (pad w past) = w.
Proof. exact (lpad_length false). Qed.

Lemma pad_nil : forall w, pad w [] = repeat false w.
Proof. exact (lpad_nil false). Qed.

Lemma stretch_step_pad : forall n delay past s, (1 <= n)%nat ->
  stretch_step n delay (pad (sr_width n delay) past) s =
  (pad (sr_width n delay) (s :: past), spec_out n delay past s).
Proof.
  intros n delay past s Hn. destruct n as [|[|n']]; [lia | reflexivity |].
  unfold stretch_step, spec_out. rewrite pad_cons, existsb_pad. destruct delay; reflexivity.
Qed.

Theorem stretch_model_spec : forall n delay, (1 <= n)%nat -> forall ins past,
  stretch_run n delay (pad (sr_width n delay) past) ins = spec_trace n delay past ins.
Proof.
  intros n delay Hn. induction ins as [|s t IH]; intros past; [reflexivity|].
  cbn [stretch_run spec_trace]. rewrite stretch_step_pad by exact Hn. f_equal. apply IH.
Qed.

Corollary stretch_from_reset : forall n delay, (1 <= n)%nat -> forall ins,
  stretch_run n delay (sr_init n delay) ins = spec_trace n delay [] ins.
Proof. intros. unfold sr_init. rewrite <- pad_nil. apply stretch_model_spec; assumption. Qed.

Definition stretch_wf n delay (sr : list bool) : Prop := length sr = sr_width n delay.

Lemma stretch_dec_enc : forall n delay sr, stretch_wf n delay sr ->
  stretch_dec n delay (stretch_enc sr) = sr.
Proof. intros n delay sr H. apply N2bits_bits2N_len, H. Qed.

Lemma stretch_wf_step : forall n delay sr i, stretch_wf n delay sr ->
  stretch_wf n delay (fst (stretch_mstep n delay sr i)).
Proof.
  intros n delay sr i H. unfold stretch_wf, stretch_mstep, stretch_step in *.
  destruct n as [|[|n']]; cbn [fst].
  - destruct delay; reflexivity.
  - exact H.
  - rewrite firstn_length. cbn [length]. rewrite H. apply Nat.min_l. lia.
Qed.

Lemma stretch_mrun : forall n delay ins sr,
  run (stretch_mstep n delay) sr ins = map b2n (stretch_run n delay sr (map N.odd ins)).
Proof. intros n delay. exact (run_packed (stretch_step n delay) N.odd b2n). Qed.
