(* C38 -- re-entry of the header receiver: whatever the receiver was doing, one cycle with the link down leaves the
   bookkeeping in the fresh state, from which every continuation satisfies the specification of Model/HdrRx.v started
   afresh (advertisement LGOOD (e - 1) first, n credits owed starting at A, empty queue, not ignoring). *)
From Coq Require Import NArith List Bool.
Import ListNotations.
From LunaModel Require Import HdrRx HdrRx_proofs HdrRxReentry.
Open Scope N_scope.

Section Reentry.
  Variables n pw cw sw : N.
  Variable down : bool.
  Hypothesis Hn : n = 2 ^ pw.
  Hypothesis Hcw : n < 2 ^ cw.
  Hypothesis Hpw4 : pw <= 4.
  Hypothesis Hsw4 : sw <= 4.

  Notation step := (core_step n pw cw sw down).

  (* the next expected sequence number survives a disable and is zeroed by a USB reset *)
  Definition seq_after (s : core) (i : cin) : N := if i_rst i then 0 else expd s.

  (* ANY state: no invariant assumed beyond the shape of the buffer array (the bound on the sequence register is not used) *)
  Theorem reentry_meets_spec : forall (s : core) (i : cin) (ins : list cin),
    length (bufs s) = N.to_nat n -> expd s < 2 ^ sw -> restart i = true ->
    sp_accepts n sw down (sp_fresh n sw (seq_after s i)) (core_ios n pw cw sw down (step s i) ins) = true.
  Proof.
    intros s i ins Hl _ Hr. rewrite (restart_is_fresh n pw cw sw down s i Hr).
    eapply core_refines; try eassumption.
    eapply core_inv_fresh; eassumption.
  Qed.

  (* specification-level reading of "begins by sending one LGOOD advertising the last received sequence number" *)
  Theorem first_command_is_advertisement : forall g i o cmd sub,
    s_adv g = false -> sp_check down g i o = true -> completed i o = Some (cmd, sub) ->
    cmd = LGOOD /\ sub = s_nextack g.
  Proof.
    intros g i o cmd sub Ha Hc Hcomp. unfold sp_check in Hc. rewrite Hcomp in Hc.
    apply andb_true_iff in Hc as [_ Hc]. unfold sp_cmd_ok in Hc. rewrite Ha in Hc.
    apply andb_true_iff in Hc as [_ Hc].
    destruct (cmd =? LGOOD) eqn:E.
    - apply N.eqb_eq in E. apply andb_true_iff in Hc as [_ Hs]. apply N.eqb_eq in Hs. auto.
    - destruct (cmd =? LCRD); [discriminate Hc|]. destruct (cmd =? LBAD); [discriminate Hc|].
      destruct ((cmd =? LRTY) || (cmd =? LXU) || (cmd =? keepalive_cmd down)); discriminate Hc.
  Qed.
End Reentry.

(* The advertisement really is produced (LUNA's configuration: four buffers, 3-bit sequence numbers): for every
   dispatcher state x generator state x expected sequence number, with counters, pending flags and latches in a
   non-fresh condition, one cycle with the link down followed by quiet cycles yields exactly
   LGOOD (e - 1), LCRD A, B, C, D and nothing else. *)
Definition crash_state (f : dfsm) (g : gfsm) (e : N) : core :=
  {| acks := 3; credits := 2; filled := 2; rd := 1; wr := 3; bufs := [11; 22; 33; 44];
     expd := e; nack := 5; ncred := 2; lbad := true; lrty := true; keep := true; lxu := false; ign := true;
     fsm := f; gen := g; lcmd := LCRD; lsub := 2 |}.
Definition reentry_commands (f : dfsm) (g : gfsm) (e : N) (rst : bool) : list (N * N) :=
  let down_cycle := {| i_en := rst; i_rst := rst; i_qrdy := true; i_retry_rx := false; i_retry_req := true;
                       i_keep := true; i_rej := false; i_srdy := false; i_new := true; i_bad := false;
                       i_badseq := false; i_pkt := 99 |} in
  commands (core_ios 4 2 3 3 false (core_step 4 2 3 3 false (crash_state f g e) down_cycle) (repeat quiet 24)).

(* The crash point does not matter: by restart_is_fresh the down cycle leaves core_fresh, whatever the dispatcher and
   the generator were doing.  What remains to be run is the fresh state, once per sequence number. *)
Lemma reentry_from_fresh : forall f g e rst,
  reentry_commands f g e rst =
  commands (core_ios 4 2 3 3 false (core_fresh 4 3 3 (if rst then 0 else e) [11; 22; 33; 44] false) (repeat quiet 24)).
Proof.
  intros f g e rst. unfold reentry_commands. rewrite restart_is_fresh by (destruct rst; reflexivity).
  destruct rst, f, g; reflexivity.
Qed.

Lemma fresh_advertises : forall e, In e [0; 1; 2; 3; 4; 5; 6; 7] ->
  commands (core_ios 4 2 3 3 false (core_fresh 4 3 3 e [11; 22; 33; 44] false) (repeat quiet 24)) = advertisement 4 3 e.
Proof. intros e H. repeat destruct H as [<- | H]; [vm_compute; reflexivity .. | destruct H]. Qed.

Lemma list_eqb_pairs_refl : forall l, list_eqb_pairs l l = true.
Proof. induction l as [|[x y] l IH]; [reflexivity|]. cbn [list_eqb_pairs]. rewrite !N.eqb_refl. exact IH. Qed.

(* stated as a boolean sweep over the 7 x 3 x 8 crash points, each with and without a USB reset; reentry_from_fresh
   reduces it to the eight runs of fresh_advertises *)
Theorem crash_point_sweep :
  forallb (fun f => forallb (fun g => forallb (fun e =>
     list_eqb_pairs (reentry_commands f g e false) (advertisement 4 3 e) &&
     list_eqb_pairs (reentry_commands f g e true) (advertisement 4 3 0))
   [0; 1; 2; 3; 4; 5; 6; 7]) all_gfsm) all_dfsm = true.
Proof.
  apply forallb_forall. intros f _. apply forallb_forall. intros g _. apply forallb_forall. intros e He.
  rewrite !reentry_from_fresh, !fresh_advertises by (exact He || (left; reflexivity)).
  rewrite !list_eqb_pairs_refl. reflexivity.
Qed.
