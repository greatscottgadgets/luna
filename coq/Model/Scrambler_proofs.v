(* C31 -- proofs about Model/Scrambler.v: scrambling a word stream twice from the same LFSR state gives
   the stream back (descramble_scramble, word level), and the words the cycle-level module hands over are the
   word-level scrambling of the words it was offered (scrambler_cycles). *)
From Coq Require Import NArith List Bool Lia.
Import ListNotations.
From LunaLib Require Import Netlist Bits Affine Machine BitFacts.
From LunaModel Require Import Crc Scrambler.
Open Scope N_scope.

Lemma lfsr_run_lengths : forall k st, length (fst st) = 16%nat ->
  length (fst (lfsr_run bool xorb false lfsr_taps k st)) = 16%nat /\
  length (snd (lfsr_run bool xorb false lfsr_taps k st)) = (length (snd st) + k)%nat.
Proof.
  induction k as [|k IH]; intros [reg out] H; cbn [lfsr_run]; [cbn [fst snd] in *; lia|].
  cbn [fst snd] in H.
  destruct (IH (lfsr_shift bool xorb false lfsr_taps (reg, out))) as [I1 I2].
  - unfold lfsr_shift. cbn [fst snd]. rewrite zipp_length. cbn [length].
    rewrite removelast_firstn_len, firstn_length, H. reflexivity.
  - split; [exact I1|]. rewrite I2. unfold lfsr_shift. cbn [fst snd]. rewrite app_length. cbn [length]. lia.
Qed.

Lemma lfsr_next_length : forall reg, length reg = 16%nat -> length (lfsr_next reg) = 16%nat.
Proof. intros reg H. apply (lfsr_run_lengths 32 (reg, [])). exact H. Qed.

Lemma ks_word_lt : forall reg, length reg = 16%nat -> ks_word reg < 2 ^ 32.
Proof.
  intros reg H. apply (bits2N_lt_len _ 32), (lfsr_run_lengths 32 (reg, []) H).
Qed.

Lemma byte_of_lt : forall d i, byte_of d i < 256.
Proof. intros. exact (bits_lt d (8 * i) 8). Qed.

Lemma xor_byte_lt : forall e ks d c i, xor_byte e ks d c i < 256.
Proof.
  intros. unfold xor_byte. destruct (e && negb (is_ctrl c i)); [apply (lxor_lt_pow2 _ _ 8)|]; apply byte_of_lt.
Qed.

Lemma four_bytes : forall b0 b1 b2 b3,
  b0 + N.shiftl b1 8 + N.shiftl b2 16 + N.shiftl b3 24 = fields_word [(8, b0); (8, b1); (8, b2); (8, b3)].
Proof. intros. rewrite !N.shiftl_mul_pow2. cbn [fields_word]. lia. Qed.

Lemma byte_of_assemble : forall b0 b1 b2 b3, b0 < 256 -> b1 < 256 -> b2 < 256 -> b3 < 256 ->
  let w := b0 + N.shiftl b1 8 + N.shiftl b2 16 + N.shiftl b3 24 in
  byte_of w 0 = b0 /\ byte_of w 1 = b1 /\ byte_of w 2 = b2 /\ byte_of w 3 = b3.
Proof.
  intros b0 b1 b2 b3 H0 H1 H2 H3 w. subst w. rewrite four_bytes.
  set (L := [(8, b0); (8, b1); (8, b2); (8, b3)]).
  assert (HL : fields_ok L) by (repeat constructor; assumption).
  repeat split; [exact (bits_fields_word L 0 HL) | exact (bits_fields_word L 1 HL)
                | exact (bits_fields_word L 2 HL) | exact (bits_fields_word L 3 HL)].
Qed.

Lemma word_of_bytes : forall d, d < 2 ^ 32 ->
  d = byte_of d 0 + N.shiftl (byte_of d 1) 8 + N.shiftl (byte_of d 2) 16 + N.shiftl (byte_of d 3) 24.
Proof.
  intros d Hd. rewrite <- (bits_small d 32 Hd) at 1.
  change 32 with (8 + (8 + (8 + 8))). rewrite !bits_split.
  unfold byte_of. rewrite !N.shiftl_mul_pow2.
  cbn [N.add N.mul Pos.add Pos.mul Pos.succ]. (* the offsets 0 + 8 + 8, 8 * 2, ... are literals *)
  lia.
Qed.

Lemma byte_of_xor_word : forall e ks d c,
  byte_of (xor_word e ks d c) 0 = xor_byte e ks d c 0 /\ byte_of (xor_word e ks d c) 1 = xor_byte e ks d c 1 /\
  byte_of (xor_word e ks d c) 2 = xor_byte e ks d c 2 /\ byte_of (xor_word e ks d c) 3 = xor_byte e ks d c 3.
Proof. intros. apply byte_of_assemble; apply xor_byte_lt. Qed.

Lemma xor_word_lt : forall e ks d c, xor_word e ks d c < 2 ^ 32.
Proof.
  intros. unfold xor_word. rewrite four_bytes.
  apply (fields_word_lt [(8, _); (8, _); (8, _); (8, _)]). repeat constructor; apply xor_byte_lt.
Qed.

Lemma xor_byte_involutive : forall e ks d c i d',
  byte_of d' i = xor_byte e ks d c i -> xor_byte e ks d' c i = byte_of d i.
Proof.
  intros e ks d c i d' H. unfold xor_byte in *. rewrite H.
  destruct (e && negb (is_ctrl c i)); [|reflexivity].
  rewrite N.lxor_assoc, N.lxor_nilpotent, N.lxor_0_r. reflexivity.
Qed.

Lemma xor_word_involutive : forall e ks d c, d < 2 ^ 32 ->
  xor_word e ks (xor_word e ks d c) c = d.
Proof.
  intros e ks d c Hd.
  destruct (byte_of_xor_word e ks d c) as (B0 & B1 & B2 & B3).
  unfold xor_word at 1.
  rewrite (xor_byte_involutive e ks d c 0 _ B0), (xor_byte_involutive e ks d c 1 _ B1),
          (xor_byte_involutive e ks d c 2 _ B2), (xor_byte_involutive e ks d c 3 _ B3).
  symmetry. apply word_of_bytes. exact Hd.
Qed.

Lemma com_first_scrambled : forall e ks d c, com_first (xor_word e ks d c) c = com_first d c.
Proof.
  intros. unfold com_first. destruct (byte_of_xor_word e ks d c) as [B0 _]. rewrite B0.
  unfold xor_byte. destruct (is_ctrl c 0); [rewrite andb_false_r; reflexivity | rewrite !andb_false_r; reflexivity].
Qed.

(* C31: every LFSR state, restart value, enable setting and word sequence (any data/control mix, any COM positions) *)
Theorem descramble_scramble : forall init enable ws reg,
  Forall (fun w => fst w < 2 ^ 32) ws ->
  scramble_words init enable reg (scramble_words init enable reg ws) = ws.
Proof.
  intros init enable. induction ws as [|[d c] t IH]; intros reg H; [reflexivity|].
  inversion H as [|? ? Hd Ht]; subst. cbn [scramble_words fst] in *.
  rewrite com_first_scrambled, xor_word_involutive by exact Hd.
  rewrite IH by exact Ht. reflexivity.
Qed.

Definition cyc_clear (i : N) := N.odd (bits i 0 1).
Definition cyc_enable (i : N) := N.odd (bits i 1 1).
Definition cyc_hold (i : N) := N.odd (bits i 2 1).
Definition cyc_data (i : N) := bits i 3 32.
Definition cyc_ctrl (i : N) := bits i 35 4.
Definition cyc_valid (i : N) := N.odd (bits i 39 1).
Definition cyc_ready (i : N) := N.odd (bits i 40 1).
Definition transferred (i : N) : bool := cyc_valid i && cyc_ready i && negb (cyc_hold i).
Definition out_word (o : N) : N * N := (bits o 0 32, bits o 32 4).

(* environment: no explicit clear, constant enable, and a word that starts with COM is handed over
   in the cycle it is presented (it is not stalled or held) *)
Definition cyc_env (enable : bool) (i : N) : bool :=
  negb (cyc_clear i) && Bool.eqb (cyc_enable i) enable &&
  (negb (cyc_valid i && com_first (cyc_data i) (cyc_ctrl i)) || transferred i).

Fixpoint handed_over (tr : list N) (outs : list N) : list (N * N) :=
  match tr, outs with
  | i :: t, o :: ot => if transferred i then out_word o :: handed_over t ot else handed_over t ot
  | _, _ => []
  end.
Definition offered (tr : list N) : list (N * N) :=
  map (fun i => (cyc_data i, cyc_ctrl i)) (filter transferred tr).

Lemma out_word_compose : forall a b c d, a < 2 ^ 32 -> b < 16 -> c < 2 -> d < 2 ->
  out_word (a + N.shiftl b 32 + N.shiftl c 36 + N.shiftl d 37) = (a, b).
Proof.
  intros a b c d Ha Hb Hc Hd.
  set (L := [(32, a); (4, b); (1, c); (1, d)]).
  assert (HL : fields_ok L) by (repeat constructor; assumption).
  replace (a + N.shiftl b 32 + N.shiftl c 36 + N.shiftl d 37) with (fields_word L)
    by (subst L; rewrite !N.shiftl_mul_pow2; cbn [fields_word]; lia).
  unfold out_word. f_equal; [exact (bits_fields_word L 0 HL) | exact (bits_fields_word L 1 HL)].
Qed.

Theorem scrambler_cycles : forall init enable tr reg,
  forallb (cyc_env enable) tr = true ->
  handed_over tr (run (scr_step init) reg tr) = scramble_words init enable reg (offered tr).
Proof.
  intros init enable. induction tr as [|i t IH]; intros reg H; [reflexivity|].
  cbn [forallb] in H. apply andb_true_iff in H as [Hi Ht].
  unfold cyc_env in Hi. apply andb_true_iff in Hi as [Hi Hcom]. apply andb_true_iff in Hi as [Hclr Hen].
  apply negb_true_iff in Hclr. apply Bool.eqb_prop in Hen.
  cbn [run]. unfold scr_step at 1.
  fold (cyc_clear i) (cyc_enable i) (cyc_hold i) (cyc_data i) (cyc_ctrl i) (cyc_valid i) (cyc_ready i).
  rewrite Hclr, Hen. cbn [orb]. cbn [handed_over]. unfold offered. cbn [filter].
  fold (transferred i).
  destruct (transferred i) eqn:T.
  - cbn [map scramble_words].
    rewrite out_word_compose; [| apply xor_word_lt | apply (bits_lt _ _ 4) | apply b2n_lt2 | apply b2n_lt2].
    f_equal.
    assert (V : cyc_valid i = true).
    { unfold transferred in T. destruct (cyc_valid i); [reflexivity | discriminate]. }
    rewrite V. cbn [andb].
    fold (offered t). rewrite <- IH by exact Ht.
    destruct (com_first (cyc_data i) (cyc_ctrl i)); reflexivity.
  - rewrite orb_false_r in Hcom. apply negb_true_iff in Hcom. rewrite Hcom.
    fold (offered t). rewrite <- IH by exact Ht. reflexivity.
Qed.
