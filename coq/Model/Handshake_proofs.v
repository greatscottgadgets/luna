(* C04 -- proofs about Model/Handshake.v: generator and detector equal their specification machines on
   every input history (simulation relations gen_rel, det_rel), the packet-level reading of the detector
   specification, and packing lemmas for the lock-step tie.  Also the facts about the UTMI receive packetiser
   pk_next / pk_done on its own, for the other receivers specified with it (TokenDet, Usb2DataRx, SetupDec). *)
From Coq Require Import NArith List Lia.
Import ListNotations.
From LunaLib Require Import Netlist Machine BitFacts.
From LunaModel Require Import Handshake.
Open Scope N_scope.

Definition gen_rel (s : gen_state) (p : option hs) : Prop :=
  match p with
  | None => g_tx s = false
  | Some h => g_tx s = true /\ g_data s = hs_byte h
  end.

Lemma gen_rel_init : gen_rel gen_init gsp_init.
Proof. reflexivity. Qed.

Lemma gen_rel_step : forall s p i, gen_rel s p ->
  gen_rel (fst (gen_step s i)) (fst (gsp_step p i)) /\
  gen_mask (snd (gen_step s i)) = snd (gsp_step p i).
Proof.
  intros [tx d] p i H. unfold gen_rel, gen_step, gsp_step, gen_mask in *. cbn [g_tx g_data] in *.
  destruct p as [h|].
  - destruct H as [-> ->]. cbn [fst snd]. rewrite odd_b2n_add_2. split; [|reflexivity].
    destruct (g_ready i); cbn [negb g_tx g_data]; auto.
  - subst tx. cbn [fst snd]. rewrite odd_b2n_add_2. split; [|reflexivity].
    unfold gen_request. destruct (g_stall i), (g_nak i), (g_ack i); cbn [orb g_tx g_data]; auto.
Qed.

Theorem gen_refines : forall tr s p, gen_rel s p ->
  map gen_mask (run gen_step s tr) = run gsp_step p tr.
Proof.
  induction tr as [|i tr IH]; intros s p H; [reflexivity|].
  destruct (gen_rel_step s p i H) as [Hn Ho].
  rewrite !run_cons. cbn [map]. rewrite Ho, (IH _ _ Hn). reflexivity.
Qed.

Corollary gen_from_reset : forall tr, map gen_mask (run gen_step gen_init tr) = run gsp_step gsp_init tr.
Proof. intro tr. apply gen_refines. apply gen_rel_init. Qed.

(* the handshake bytes as the source spells them (the generator issues the first three: 0b11010010,
   0b01011010, 0b00011110) *)
Lemma hs_bytes : hs_byte ACK = 210 /\ hs_byte NAK = 90 /\ hs_byte STALL = 30 /\ hs_byte NYET = 150.
Proof. repeat split. Qed.

(* the generator's output word read back: tx.valid below tx.data *)
Lemma gen_step_out : forall s i, N.odd (snd (gen_step s i)) = g_tx s /\ snd (gen_step s i) / 2 = g_data s.
Proof.
  intros s i. replace (snd (gen_step s i)) with (b2n (g_tx s) + 2 * g_data s) by (unfold gen_step; destruct (g_tx s); reflexivity).
  split; [apply odd_b2n_add_2 | apply digit_div, b2n_lt2].
Qed.

Lemma d_dat_bound : forall i, d_dat i < 256.
Proof. intro i. apply (bits_lt i 2 8). Qed.

(* the packetiser.  Usb2DataRx.rxp_next / rxp_done (with rx_act / rx_val / rx_dat) are pk_next / pk_done (with d_act /
   d_val / d_dat) under other names, convertible: these lemmas apply to them as they stand. *)
Definition pk_ok (p : option (list N)) : Prop :=
  match p with Some l => Forall (fun b => b < 256) l | None => True end.

Lemma pk_ok_next : forall p i, pk_ok p -> pk_ok (pk_next p i).
Proof.
  intros [l|] i H; cbn [pk_next]; destruct (d_act i); try exact I; [|constructor].
  destruct (d_val i); [|exact H]. apply Forall_app. split; [exact H|]. repeat constructor. apply d_dat_bound.
Qed.

Lemma pk_done_inv : forall p i l, pk_done p i = Some l -> p = Some l /\ pk_next p i = None.
Proof.
  intros [l0|] i l; unfold pk_done, pk_next; [destruct (d_act i)|]; intro H; inversion H; auto.
Qed.

Lemma pk_next_length : forall p i l, pk_next p i = Some l ->
  match p with Some l0 => (length l <= S (length l0))%nat | None => l = [] end.
Proof.
  intros [l0|] i l; unfold pk_next; destruct (d_act i); intro H; inversion H; [|reflexivity].
  destruct (d_val i); [rewrite app_length; cbn [length]|]; lia.
Qed.

(* no packet completes along cs, started with p in progress *)
Fixpoint no_done (p : option (list N)) (cs : list N) : Prop :=
  match cs with [] => True | i :: t => pk_done p i = None /\ no_done (pk_next p i) t end.

Lemma no_done_active : forall runc p, Forall (fun i => d_act i = true) runc -> no_done p runc.
Proof.
  induction runc as [|i runc IH]; intros p H; [exact I|]. inversion H; subst. cbn [no_done]. split; [|apply IH; exact H3].
  unfold pk_done. destruct p; [rewrite H2|]; reflexivity.
Qed.

Lemma no_done_gap_run : forall gap runc, Forall (fun i => d_act i = false) gap -> Forall (fun i => d_act i = true) runc ->
  no_done None (gap ++ runc).
Proof.
  induction gap as [|i gap IH]; intros runc Hg Hr; [apply no_done_active; exact Hr|].
  inversion Hg; subst. cbn [app no_done pk_done pk_next]. rewrite H1. split; [reflexivity | apply IH; assumption].
Qed.

Lemma fold_pk_gap : forall gap, Forall (fun i => d_act i = false) gap -> fold_left pk_next gap None = None.
Proof.
  induction gap as [|i gap IH]; intro H; [reflexivity|]. inversion H; subst. cbn [fold_left pk_next]. rewrite H2. apply IH. exact H3.
Qed.

(* the detector's two checks (check nibble when the byte arrives, PID nibble when the packet ends) amount to
   comparing the whole byte: by exhaustive evaluation over the 256 byte values *)
Lemma byte_facts_all :
  forall_bits 8 (fun b => hs_strobe b =? if valid_pid b then pid_strobes (bits b 0 4) else 0) = true.
Proof. vm_compute. reflexivity. Qed.
Lemma byte_facts : forall b, b < 256 ->
  hs_strobe b = if valid_pid b then pid_strobes (bits b 0 4) else 0.
Proof. intros b Hb. apply N.eqb_eq. exact (forall_bits_sound 8 _ byte_facts_all b Hb). Qed.

Definition irrelevant_bytes (l : list N) : Prop :=
  match l with
  | [] => False
  | [b] => b < 256 /\ valid_pid b = false
  | _ => True
  end.

Definition det_rel (s : det_state) (sp : option (list N) * N) : Prop :=
  d_out s = snd sp /\
  match d_fsm s with
  | D_IDLE => fst sp = None
  | D_READ_PID => fst sp = Some []
  | D_AWAIT => exists b, fst sp = Some [b] /\ b < 256 /\ valid_pid b = true /\ d_pid s = bits b 0 4
  | D_IRRELEVANT => exists l, fst sp = Some l /\ irrelevant_bytes l
  end.

Lemma det_rel_init : det_rel det_init dsp_init.
Proof. split; reflexivity. Qed.

Lemma irrelevant_snoc : forall l d, l <> [] -> irrelevant_bytes (l ++ [d]).
Proof. intros [|b [|c l]] d H; [congruence | exact I | exact I]. Qed.

Lemma det_rel_step : forall s sp i, det_rel s sp ->
  det_rel (fst (det_step s i)) (fst (dsp_step sp i)) /\ snd (det_step s i) = snd (dsp_step sp i).
Proof.
  intros [f pid o] [p o'] i [Ho Hf]. cbn [d_out d_fsm d_pid fst snd] in *. subst o'.
  unfold det_step, dsp_step, det_rel, pk_next, pk_done. cbn [d_out d_fsm d_pid fst snd].
  split; [|reflexivity].
  destruct f.
  - (* IDLE *) subst p. destruct (d_act i); split; reflexivity.
  - (* READ_PID *) subst p.
    destruct (d_act i); [|split; reflexivity].
    destruct (d_val i); [|split; reflexivity].
    destruct (valid_pid (d_dat i)) eqn:V; (split; [reflexivity|]); cbn [d_fsm d_pid fst app].
    + exists (d_dat i). repeat split; auto using d_dat_bound.
    + exists [d_dat i]. split; [reflexivity|]. split; auto using d_dat_bound.
  - (* AWAIT *) destruct Hf as (b & -> & Hb & V & Hp).
    destruct (d_act i).
    + destruct (d_val i); (split; [reflexivity|]); cbn [d_fsm d_pid fst app].
      * exists [b; d_dat i]. split; [reflexivity | exact I].
      * exists b. repeat split; auto.
    + split; [|reflexivity]. rewrite byte_facts, V, Hp by exact Hb. reflexivity.
  - (* IRRELEVANT *) destruct Hf as (l & -> & Hl).
    destruct (d_act i).
    + destruct (d_val i); (split; [reflexivity|]); cbn [d_fsm fst].
      * exists (l ++ [d_dat i]). split; [reflexivity|]. apply irrelevant_snoc.
        destruct l; [contradiction | discriminate].
      * exists l. split; [reflexivity | exact Hl].
    + split; [|reflexivity].
      destruct l as [|b [|c l]]; [contradiction | | reflexivity].
      destruct Hl as [Hb V]. rewrite byte_facts, V by exact Hb. reflexivity.
Qed.

Theorem det_refines : forall tr s sp, det_rel s sp -> run det_step s tr = run dsp_step sp tr.
Proof. exact (sim_run_all _ _ det_rel det_rel_step). Qed.

Corollary det_from_reset : forall tr, run det_step det_init tr = run dsp_step dsp_init tr.
Proof. intro tr. apply det_refines. apply det_rel_init. Qed.

(* packet-level reading of the detector specification: the non-zero strobe words, in order, are the
   handshake packets among the received packets, in order (x = any one further cycle, needed to see the
   registered strobe of a packet that completes in the last cycle of tr) *)
Definition pkt_strobe (l : list N) : N := match l with [b] => hs_strobe b | _ => 0 end.
Definition nonzero (o : N) : bool := negb (o =? 0).

Lemma dsp_events : forall tr x p o,
  filter nonzero (run dsp_step (p, o) (tr ++ [x])) = filter nonzero (o :: map pkt_strobe (packets_from p tr)).
Proof.
  induction tr as [|i tr IH]; intros x p o; [reflexivity|].
  cbn [app run dsp_step packets_from filter]. rewrite IH.
  destruct (pk_done p i); reflexivity.
Qed.

Theorem det_events : forall tr x,
  filter nonzero (run det_step det_init (tr ++ [x]))
  = filter nonzero (map pkt_strobe (packets_from None tr)).
Proof. intros tr x. rewrite det_from_reset. unfold dsp_init. rewrite dsp_events. reflexivity. Qed.

Lemma hs_strobe_byte : forall h, hs_strobe (hs_byte h) = hs_bit h.
Proof. destruct h; reflexivity. Qed.

Lemma hs_strobe_cases : forall b, hs_strobe b = 0 \/ exists h, b = hs_byte h.
Proof.
  intro b. unfold hs_strobe.
  destruct (N.eqb_spec b (hs_byte ACK)); [eauto|]. destruct (N.eqb_spec b (hs_byte NAK)); [eauto|].
  destruct (N.eqb_spec b (hs_byte STALL)); [eauto|]. destruct (N.eqb_spec b (hs_byte NYET)); [eauto|].
  left; reflexivity.
Qed.

Lemma hs_strobe_spec : forall b h, hs_strobe b = hs_bit h <-> b = hs_byte h.
Proof.
  intros b h. split; [|intros ->; apply hs_strobe_byte].
  destruct (hs_strobe_cases b) as [-> | [h' ->]].
  - destruct h; discriminate.
  - rewrite hs_strobe_byte. destruct h, h'; (reflexivity || discriminate).
Qed.
Lemma hs_strobe_zero : forall b, hs_strobe b = 0 <-> (forall h, b <> hs_byte h).
Proof.
  intro b. split.
  - intros H h ->. rewrite hs_strobe_byte in H. destruct h; discriminate.
  - intro H. destruct (hs_strobe_cases b) as [E | [h E]]; [exact E | destruct (H h E)].
Qed.

Lemma gen_dec_enc : forall s, gen_dec (gen_enc s) = s.
Proof.
  intros [tx d]. unfold gen_dec, gen_enc. cbn [g_tx g_data].
  rewrite odd_b2n_add_2, digit_div by apply b2n_lt2. reflexivity.
Qed.

Definition det_wf (s : det_state) : Prop := d_pid s < 16.
Lemma det_dec_enc : forall s, det_wf s -> det_dec (det_enc s) = s.
Proof.
  intros [f p o] H. unfold det_wf, det_dec, det_enc in *. cbn [d_fsm d_pid d_out] in *.
  assert (Hf : fsm_code f < 4) by (destruct f; reflexivity).
  change 64 with (4 * 16). rewrite <- N.div_div by discriminate.
  rewrite digit_mod, !digit_div, digit_mod by assumption. destruct f; reflexivity.
Qed.
Lemma det_wf_step : forall s i, det_wf s -> det_wf (fst (det_step s i)).
Proof.
  intros [f p o] i H. unfold det_wf, det_step in *. cbn [d_fsm d_pid fst] in *.
  destruct f, (d_act i), (d_val i), (valid_pid (d_dat i)); cbn [negb d_pid]; try exact H; apply (bits_lt _ 0 4).
Qed.
Lemma det_wf_init : det_wf det_init.
Proof. reflexivity. Qed.
