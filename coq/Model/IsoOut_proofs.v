(* C16 -- the isochronous OUT endpoint (Model/IsoOut.v).  Of the packet-level specification machine by itself, with
   no environment assumption: iso_whole_packets_from (delivered ++ queued = framed payloads of the accepted packets),
   iso_accepted_good (accepted = the good packets that found room, in order), iso_drains.  iso_refines: the
   code-shaped model (boundary detector + admission latch + pointer FIFO) shows in every cycle the outputs of the
   specification, for all sizes and all histories that keep the environment assumption.  The simulation relation R is
   pkt_rel and fifo_rel of C16_OutTrack_proofs.v (detector and ghost registers against the tracker, FIFO against the
   queue; shared with StreamOut_proofs.v), and adm_rel.  iso_model_stream reads the first
   theorem off the model's output stream; io_packed_refines is the form the lock-step tie composes with. *)
From Coq Require Import NArith List Bool Arith Lia.
Import ListNotations.
From LunaLib Require Import Netlist Machine PackN ListFacts SymWord.
From LunaModel Require Import BoundaryDet BoundaryDet_proofs TxFifo TxFifo_proofs C16_OutTrack C16_OutTrack_proofs IsoOut.
Open Scope nat_scope.

Section Spec.
  Variable mps depth : nat.
  Notation next := (is_next mps depth).

  Lemma is_q_next : forall s i,
    s_q (next s i) =
    (if x_rdy i && negb (is_nil (s_q s)) then tl (s_q s) else s_q s) ++ flat_map (frame true true) (is_accept_now s).
  Proof.
    intros. unfold is_next, is_accept_now. cbn [s_q].
    destruct (s_ph s); cbn [fwd flat_map]; rewrite ?app_nil_r; try reflexivity.
    destruct (_ && s_adm s); cbn [flat_map]; rewrite ?app_nil_r; reflexivity.
  Qed.

  Definition popped (s : is_state) (i : io_in) : list entry :=
    match s_q s with e :: _ => if x_rdy i then [e] else [] | [] => [] end.

  Lemma is_q_step : forall s i,
    popped s i ++ s_q (next s i) = s_q s ++ flat_map (frame true true) (is_accept_now s).
  Proof.
    intros s i. rewrite is_q_next, app_assoc. f_equal. unfold popped. destruct (s_q s), (x_rdy i); reflexivity.
  Qed.

  (* C16: the consumer sees whole packets only, in order, each framed by first/last *)
  Theorem iso_whole_packets_from : forall ins s,
    is_delivered mps depth s ins ++ s_q (is_run_state mps depth s ins)
    = s_q s ++ flat_map (frame true true) (is_accepted mps depth s ins).
  Proof.
    induction ins as [|i t IH]; intro s; cbn [is_delivered is_run_state is_accepted flat_map].
    - rewrite app_nil_r. reflexivity.
    - fold (popped s i). rewrite <- app_assoc, IH, app_assoc, is_q_step, flat_map_app, app_assoc. reflexivity.
  Qed.

  (* good packets with their admission flag *)
  Definition is_goodf_now (s : is_state) : list (list N * bool) :=
    match s_ph s with
    | PReport bs c v => if s_tgt s && c && negb v then [(bs, s_adm s)] else []
    | _ => []
    end.
  Fixpoint is_goodf (s : is_state) (ins : list io_in) : list (list N * bool) :=
    match ins with
    | [] => []
    | i :: t => is_goodf_now s ++ is_goodf (next s i) t
    end.

  Theorem iso_accepted_good : forall ins s,
    is_accepted mps depth s ins = map fst (filter snd (is_goodf s ins)) /\
    is_good mps depth s ins = map fst (is_goodf s ins).
  Proof.
    induction ins as [|i t IH]; intro s; [split; reflexivity|].
    cbn [is_accepted is_good is_goodf]. rewrite filter_app, !map_app.
    destruct (IH (next s i)) as [IH1 IH2]. rewrite IH1, IH2. split; f_equal.
    - unfold is_accept_now, is_goodf_now. destruct (s_ph s); try reflexivity.
      destruct (s_tgt s && c && negb v); [|reflexivity]. cbn [andb filter snd]. destruct (s_adm s); reflexivity.
    - unfold is_good_now, is_goodf_now. destruct (s_ph s); try reflexivity.
      destruct (s_tgt s && c && negb v); reflexivity.
  Qed.

  Definition idle_ready : io_in :=
    {| x_tgt := false; x_rdy := true;
       x_rx := {| r_valid := false; r_next := false; r_cin := false; r_iin := false; r_pay := 0%N |} |}.

  Theorem iso_drains : forall n s, s_ph s = PIdle ->
    is_delivered mps depth s (repeat idle_ready n) = firstn n (s_q s) /\
    s_q (is_run_state mps depth s (repeat idle_ready n)) = skipn n (s_q s).
  Proof.
    induction n as [|n IH]; intros s Hph; [split; reflexivity|].
    cbn [repeat is_delivered is_run_state].
    assert (Hn : s_ph (next s idle_ready) = PIdle /\ s_q (next s idle_ready) = tl (s_q s)).
    { unfold is_next. rewrite Hph. cbn [s_ph s_q trk_next trk_start idle_ready x_rx x_rdy r_valid andb fwd].
      split; [reflexivity|]. destruct (s_q s); reflexivity. }
    destruct Hn as [Hp Hq]. destruct (IH _ Hp) as [I1 I2]. rewrite I1, I2, Hq.
    destruct (s_q s) as [|e q]; cbn [idle_ready x_rdy tl firstn skipn app]; split; try reflexivity.
    - destruct n; reflexivity.
    - destruct n; reflexivity.
  Qed.

  Fixpoint transfers (ins : list io_in) (outs : list io_out) : list entry :=
    match ins, outs with
    | i :: ti, o :: to =>
        (if y_valid o && x_rdy i then [{| e_data := y_data o; e_first := y_first o; e_last := y_last o |}] else [])
        ++ transfers ti to
    | _, _ => []
    end.

  Lemma transfers_spec : forall ins s, transfers ins (is_run mps depth s ins) = is_delivered mps depth s ins.
  Proof.
    induction ins as [|i t IH]; intro s; [reflexivity|].
    cbn [is_run transfers is_delivered]. rewrite IH. f_equal.
    unfold is_outf. destruct (s_q s) as [|[d f l] q]; [reflexivity|].
    cbn [y_valid y_data y_first y_last andb e_data e_first e_last].
    reflexivity.
  Qed.

  Lemma transfers_norm : forall ins outs, transfers ins (map io_norm outs) = transfers ins outs.
  Proof.
    induction ins as [|i t IH]; intros [|o outs]; try reflexivity.
    cbn [map transfers]. rewrite IH. f_equal. unfold io_norm. destruct (y_valid o) eqn:E; [rewrite E; reflexivity|].
    reflexivity.
  Qed.
End Spec.

Section Refine.
  Variable mps depth : nat.
  Hypothesis Hmps : 1 <= mps.

  (* `stored`, the entries of the open packet that are in the buffer (uncommitted), is the body of fwd_entries true true
     (C16_OutTrack_proofs.v; step_open gets to its lemmas by `change`).  R is one flat conjunction; the proofs read it
     through R_parts as pkt_rel, fifo_rel (C16_OutTrack_proofs.v, shared with StreamOut_proofs.R) and adm_rel. *)
  Definition stored (ph : phase) : list entry :=
    match ph with
    | PReport bs _ _ => frame true true bs
    | _ => inner true (firstn (n_fwd ph) (ph_bytes ph))
    end.

  Definition R (m : io_state) (s : is_state) : Prop :=
    let A := tf_abs depth (m_ff m) in
    let ph := s_ph s in
    bd_rel (m_bd m) ph /\ tf_inv depth (m_ff m) /\
    aq_avail A = map enc_entry (s_q s) /\
    length (aq_tent A) = (if s_tent s then 1 else 0) /\
    g_tgt m = s_tgt s /\ m_adm m = s_adm s /\
    match ph with POpen bs _ _ _ => g_cnt m = Nat.min (length bs) (S mps) | _ => True end /\
    Forall (fun b => (b < 256)%N) (ph_bytes ph) /\ Forall (fun e => (e_data e < 256)%N) (s_q s) /\
    (s_tgt s = true -> length (ph_bytes ph) <= mps) /\
    match ph with PEnded _ c v | PReport _ c v => s_tgt s = true -> xorb c v = true | _ => True end /\
    aq_pend A = (if s_tgt s && s_adm s && (0 <? n_fwd ph) then map enc_entry (stored ph) else []) /\
    (s_tgt s = true -> s_adm s = true -> 0 < n_fwd ph ->
       match ph with PReport _ _ _ => True | _ => aq_held A + mps <= depth + n_fwd ph end).

  (* what is particular to this endpoint: the admission latch, the uncommitted entries (those of an addressed and
     admitted packet), and room for the rest of such a packet *)
  Definition adm_rel (m : io_state) (s : is_state) : Prop :=
    let A := tf_abs depth (m_ff m) in
    let ph := s_ph s in
    m_adm m = s_adm s /\
    aq_pend A = (if s_tgt s && s_adm s && (0 <? n_fwd ph) then map enc_entry (stored ph) else []) /\
    (s_tgt s = true -> s_adm s = true -> 0 < n_fwd ph ->
       match ph with PReport _ _ _ => True | _ => aq_held A + mps <= depth + n_fwd ph end).

  Lemma R_parts : forall m s, R m s <->
    pkt_rel mps (m_bd m) (g_tgt m) (g_cnt m) (s_ph s) (s_tgt s) /\ fifo_rel depth (m_ff m) (s_q s) (s_tent s) /\
    adm_rel m s.
  Proof. intros m s. unfold R, pkt_rel, fifo_rel, adm_rel. cbv zeta. tauto. Qed.

  Lemma R_init : R (io_init depth) is_init.
  Proof.
    apply R_parts. split; [|split; [apply fifo_rel_init|]].
    - split; [apply bd_rel_init|]. repeat split; try constructor; discriminate.
    - unfold adm_rel. cbn [io_init is_init m_ff m_adm s_ph s_tgt s_adm]. rewrite abs_init.
      repeat split. intros; discriminate.
  Qed.

  Lemma R_out : forall m s, R m s -> io_norm (io_outf depth m) = is_outf s.
  Proof.
    intros m s HR. apply R_parts in HR as (_ & Hff & _). destruct (fifo_rel_out depth _ _ _ Hff) as [Hem Hrd].
    unfold io_outf, is_outf, io_norm. cbn [y_valid]. rewrite Hem.
    destruct (s_q s) as [|e q]; [reflexivity|]. destruct (Hrd e q eq_refl) as (-> & -> & ->). reflexivity.
  Qed.

  Lemma R_env : forall m s i, R m s -> io_env mps m i = is_env mps s i.
  Proof.
    intros m s i HR. apply R_parts in HR as ((Hbd & Hgt & Hcnt & _) & _).
    unfold io_env, is_env, rx_env. rewrite Hgt. f_equal.
    destruct (s_ph s) as [|bs c v fresh|bs c v|bs c v].
    - destruct Hbd as (Hf & _ & _ & Hc & Hv). rewrite Hf, Hc, Hv. reflexivity.
    - destruct Hbd as (Hf & _ & _ & _ & Hc & Hv & _). rewrite Hf, Hc, Hv, Hcnt, min_ltb. reflexivity.
    - destruct Hbd as (Hf & _). rewrite Hf. reflexivity.
    - destruct Hbd as (Hf & _ & _ & Hc & Hv). rewrite Hf, Hc, Hv. reflexivity.
  Qed.

  (* `new` are the entries behind a commit *)
  Lemma io_fifo_step : forall m s i new, R m s ->
    let A := tf_abs depth (m_ff m) in
    let wc := x_tgt i && fst (strobes (s_ph s)) in
    let wd := x_tgt i && snd (strobes (s_ph s)) in
    map enc_entry new = (if wd then [] else if wc then aq_pend A else []) ->
    Forall (fun e => (e_data e < 256)%N) new ->
    let pop := x_rdy i && negb (is_nil (s_q s)) in
    let m' := io_next mps depth m i in
    m_adm m' = match fwd (s_ph s) with Some (_, true, _) => mps <=? depth - aq_held A | _ => s_adm s end /\
    fifo_rel depth (m_ff m') ((if pop then tl (s_q s) else s_q s) ++ new) pop /\
    aq_pend (tf_abs depth (m_ff m')) =
      if wd then []
      else (if wc then [] else aq_pend A) ++
           match fwd (s_ph s) with
           | Some (p, fi, la) =>
               if x_tgt i && m_adm m' && negb (aq_held A =? depth)
               then [enc_entry {| e_data := p; e_first := fi; e_last := la |}] else []
           | None => []
           end.
  Proof.
    intros m s i new HR. apply R_parts in HR as ((Hbd & _) & Hff & Hadm & _).
    destruct (fifo_rel_held depth _ _ _ Hff) as (_ & Hsp & _).
    cbv zeta. rewrite <- (bd_strobes_rel _ _ Hbd), <- (bd_fwd_rel _ _ Hbd), <- Hsp, <- Hadm.
    cbn [fst snd io_next m_ff m_adm].
    intros Hnew Hnq. unfold io_fifo_in. split; [reflexivity|].
    destruct (bd_fwd (m_bd m)) as [[[p [|]] la]|];
      (apply fifo_rel_step with (tent := s_tent s); [exact Hff | reflexivity | reflexivity | exact Hnew | exact Hnq]).
  Qed.

  Lemma step_open : forall m s i, R m s -> is_env mps s i = true -> ph_open (s_ph s) ->
    let m' := io_next mps depth m i in let s' := is_next mps depth s i in
    fifo_rel depth (m_ff m') (s_q s') (s_tent s') /\ adm_rel m' s'.
  Proof.
    intros m s i HR Henv Ho m' s'.
    assert (Hs' : strobes (s_ph s) = (false, false) /\ x_tgt i = s_tgt s /\ s_tgt s' = s_tgt s /\
                  s_q s' = (if x_rdy i && negb (is_nil (s_q s)) then tl (s_q s) else s_q s)).
    { unfold is_env, rx_env in Henv. apply andb_true_iff in Henv as [_ Henv]. unfold s', is_next.
      destruct (s_ph s); try contradiction; apply andb_true_iff in Henv as [Hxt _]; apply eqb_prop in Hxt;
        repeat split; assumption. }
    destruct Hs' as (Hst & Hxt & Htgt' & Hq').
    destruct (io_fifo_step m s i [] HR) as (Hadm' & Hff' & Hpe'); [rewrite Hst, !andb_false_r; reflexivity | constructor|].
    fold m' in Hadm', Hff', Hpe'. rewrite Hst, Hxt in Hpe'. cbn [fst snd] in Hpe'. rewrite !andb_false_r in Hpe'.
    rewrite app_nil_r, <- Hq' in Hff'. split; [exact Hff'|].
    apply R_parts in HR as ((Hbd & _ & _ & _ & Hlen & _) & Hff & _ & Hpe & Hcap).
    destruct (fifo_rel_held depth _ _ _ Hff) as (Hheld & _). destruct (fifo_rel_held depth _ _ _ Hff') as (Hheld' & _).
    assert (Hpop : length (s_q s) = (if x_rdy i && negb (is_nil (s_q s)) then 1 else 0) + length (s_q s'))
      by (rewrite Hq'; destruct (x_rdy i), (s_q s); reflexivity).
    rewrite <- Hpop, Hpe' in Hheld'.
    (* what is used up goes, here and four lines on: every lia call below reads the whole context *)
    clear Hff Hff' Hq' Hpop Hst Hxt.
    destruct (fwd_entries_next _ _ (x_rx i) true true true Hbd Ho) as [Hk' Hst'].
    unfold adm_rel. change (s_ph s') with (trk_next (s_ph s) (x_rx i)).
    change (stored ?x) with (fwd_entries true true x) in *.
    rewrite Htgt', Hk', Hst', Hpe'. unfold fwd_entry in *. clear Hk' Hst' Hpe' Htgt'.
    set (P := aq_pend (tf_abs depth (m_ff m))) in *. set (held := aq_held (tf_abs depth (m_ff m))) in *.
    set (k := n_fwd (s_ph s)) in *.
    assert (Hcap0 : s_tgt s = true -> s_adm s = true -> 0 < k -> held + mps <= depth + k)
      by (intros Ht Ha K; specialize (Hcap Ht Ha K); destruct (s_ph s); try contradiction; exact Hcap).
    assert (Hnr : forall X : Prop, X -> match trk_next (s_ph s) (x_rx i) with PReport _ _ _ => True | _ => X end)
      by (intros X HX; destruct (trk_next _ _); trivial).
    destruct (fwd (s_ph s)) as [[[p fi] la]|] eqn:E.
    - (* a byte is forwarded: the latch as it is after this cycle decides; read the invariant with it *)
      destruct (fwd_first _ _ Hbd _ _ _ E) as [Efi Hk]. fold k in Efi, Hk.
      assert (Ha' : m_adm m' = s_adm s' /\
                    P = (if s_tgt s && m_adm m' then map enc_entry (fwd_entries true true (s_ph s)) else []) /\
                    (s_tgt s = true -> m_adm m' = true -> held + mps <= depth + k)).
      { unfold s', is_next, is_free. cbn [s_adm s_q s_tent]. rewrite E, Hadm'.
        destruct fi; [apply Nat.eqb_eq in Efi | apply Nat.eqb_neq in Efi].
        - (* the packet's first byte: the decision is taken now *)
          rewrite (fwd_entries_0 _ _ _ Efi). fold k in Efi. rewrite Efi in Hpe. cbn [Nat.ltb Nat.leb] in Hpe.
          rewrite andb_false_r in Hpe. rewrite Hpe in *. cbn [length] in Hheld.
          split; [f_equal; lia|]. split; [destruct (s_tgt s), (mps <=? depth - held); reflexivity|].
          intros _ Ha. apply Nat.leb_le in Ha. lia.
        - (* a later byte: the decision was latched *)
          assert (K : 0 < k) by lia. apply Nat.ltb_lt in K as K'. rewrite K', andb_true_r in Hpe.
          split; [reflexivity|]. split; [exact Hpe|]. intros Ht Ha. exact (Hcap0 Ht Ha K). }
      destruct Ha' as (Ea & HP & Hcap'). rewrite <- Ea, HP. cbn [length]. rewrite Nat.add_1_r. cbn [Nat.ltb Nat.leb].
      rewrite andb_true_r.
      split; [reflexivity|]. destruct (s_tgt s && m_adm m') eqn:Eta.
      + apply andb_true_iff in Eta as [Et Ea']. specialize (Hcap' Et Ea'). specialize (Hlen Et).
        assert (Hroom : held <> depth) by lia. apply Nat.eqb_neq in Hroom. rewrite Hroom, map_app. split; [reflexivity|].
        intros _ _ _. apply Hnr. rewrite Hroom, app_length in Hheld'. cbn [andb negb length] in Hheld'. lia.
      + split; [reflexivity|]. intros Et Ea'. rewrite Et, Ea' in Eta. discriminate.
    - rewrite Nat.add_0_r, !app_nil_r in *. unfold s', is_next. cbn [s_adm]. rewrite E. split; [exact Hadm'|].
      split; [exact Hpe|].
      intros Ht Ha K. apply Hnr. specialize (Hcap0 Ht Ha K). lia.
  Qed.

  Lemma step_closed : forall m s i, R m s -> is_env mps s i = true -> ~ ph_open (s_ph s) ->
    let m' := io_next mps depth m i in let s' := is_next mps depth s i in
    fifo_rel depth (m_ff m') (s_q s') (s_tent s') /\ adm_rel m' s'.
  Proof.
    intros m s i HR Henv Hcl m' s'.
    pose proof HR as HR'. apply R_parts in HR' as ((_ & _ & _ & Hby & _ & Hx) & _ & _ & Hpe & _).
    assert (Hs' : fwd (s_ph s) = None /\ s_ph s' = trk_start (x_rx i))
      by (unfold s', is_next; destruct (s_ph s); try (contradiction Hcl; exact I); split; reflexivity).
    destruct Hs' as [Hf Hph'].
    set (P := aq_pend (tf_abs depth (m_ff m))) in *.
    set (wc := x_tgt i && fst (strobes (s_ph s))). set (wd := x_tgt i && snd (strobes (s_ph s))).
    (* an addressed packet ends with exactly one of complete / invalid; of the others nothing was stored *)
    assert (Hw : map enc_entry (flat_map (frame true true) (is_accept_now s)) = (if wd then [] else if wc then P else []) /\
                 (if wd then [] else if wc then [] else P) = []).
    { unfold is_env, rx_env in Henv. apply andb_true_iff in Henv as [_ Henv]. unfold is_accept_now, wc, wd.
      destruct (s_ph s) as [|bs c v fresh|bs c v|bs c v]; try (contradiction Hcl; exact I);
        cbn [n_fwd stored strobes fst snd] in *.
      - rewrite andb_false_r in *. split; [reflexivity | exact Hpe].
      - destruct (s_tgt s); [|rewrite Hpe; destruct (x_tgt i && v), (x_tgt i && c); split; reflexivity].
        specialize (Hx eq_refl). destruct c, v; try discriminate; apply eqb_prop in Henv; rewrite Henv;
          [|split; reflexivity].
        rewrite Hpe. destruct (s_adm s); [|split; reflexivity]. destruct bs; cbn [andb negb flat_map]; rewrite ?app_nil_r; split; reflexivity. }
    destruct Hw as [Hw1 Hw2].
    destruct (io_fifo_step m s i _ HR Hw1) as (Hadm' & Hff' & Hpe').
    { unfold is_accept_now. destruct (s_ph s) as [| | |bs c v]; try constructor.
      destruct (s_tgt s && c && negb v && s_adm s); cbn [flat_map]; rewrite ?app_nil_r;
        [apply frame_data_lt, Hby | constructor]. }
    fold m' in Hadm', Hff', Hpe'. rewrite Hf in Hadm', Hpe'.
    split; [unfold s'; rewrite is_q_next; exact Hff'|].
    unfold adm_rel. cbv zeta. rewrite Hph', trk_start_fwd, Hpe', app_nil_r. fold wc wd P.
    rewrite Hw2, andb_false_r, Hadm'.
    unfold s', is_next. cbn [s_adm]. rewrite Hf. repeat split. intros _ _ K. inversion K.
  Qed.

  Lemma R_step : forall m s i, R m s -> is_env mps s i = true -> R (io_next mps depth m i) (is_next mps depth s i).
  Proof.
    intros m s i HR Henv. apply R_parts.
    split; [exact (pkt_rel_step mps Hmps _ _ _ _ _ _ _ (proj1 (proj1 (R_parts m s) HR)) Henv)|].
    destruct (ph_open_dec (s_ph s)); [apply step_open | apply step_closed]; assumption.
  Qed.

  Theorem iso_refines_from : forall ins m s, R m s -> is_env_ok mps depth s ins = true ->
    map io_norm (io_run mps depth m ins) = is_run mps depth s ins.
  Proof.
    induction ins as [|i t IH]; intros m s HR HE; [reflexivity|].
    cbn [is_env_ok] in HE. apply andb_true_iff in HE as [He Ht].
    cbn [io_run is_run map]. rewrite (R_out m s HR). f_equal.
    apply IH; [apply R_step; assumption | exact Ht].
  Qed.

  Lemma io_env_from : forall ins m s, R m s -> is_env_ok mps depth s ins = true ->
    (fix ok (m : io_state) (ins : list io_in) : bool :=
       match ins with [] => true | i :: t => io_env mps m i && ok (io_next mps depth m i) t end) m ins = true.
  Proof.
    intros ins m s HR HE. rewrite <- (map_id ins) in HE.
    exact (env_carried (fun i => i) R_env R_step ins m s HR HE).
  Qed.
End Refine.

Theorem iso_refines : forall mps depth, 1 <= mps -> forall ins,
  is_env_ok mps depth is_init ins = true ->
  map io_norm (io_run mps depth (io_init depth) ins) = is_run mps depth is_init ins.
Proof. intros mps depth H ins HE. apply (iso_refines_from mps depth H ins _ _ (R_init mps depth) HE). Qed.

Theorem iso_model_stream : forall mps depth, 1 <= mps -> forall ins,
  is_env_ok mps depth is_init ins = true ->
  transfers ins (io_run mps depth (io_init depth) ins) ++ s_q (is_run_state mps depth is_init ins)
  = flat_map (frame true true) (is_accepted mps depth is_init ins).
Proof.
  intros mps depth H ins HE.
  rewrite <- transfers_norm, (iso_refines mps depth H ins HE), transfers_spec.
  apply (iso_whole_packets_from mps depth ins is_init).
Qed.

Definition io_wf (mps depth : nat) (m : io_state) : Prop :=
  bd_wf (m_bd m) /\ tf_wf depth 10 (m_ff m) /\ g_cnt m <= S mps.

Lemma io_wf_init : forall mps depth, io_wf mps depth (io_init depth).
Proof. intros. split; [exact bd_wf_init|]. split; [apply tf_wf_init|]. cbn. lia. Qed.

Lemma io_dec_enc : forall mps depth m, io_wf mps depth m -> io_dec mps depth (io_enc mps depth m) = m.
Proof.
  intros mps depth [bd ff a g c] (Hb & Hf & Hc). cbn [m_bd m_ff m_adm g_tgt g_cnt] in *.
  unfold io_dec, io_enc. cbn [m_bd m_ff m_adm g_tgt g_cnt]. cbv zeta.
  rewrite !N.land_ones, !N.shiftr_div_pow2.
  pose proof (tf_enc2_lt depth ff Hf) as Hlt. pose proof (ptr_lt _ _ Hc : (_ < 2 ^ cnt_bits mps)%N) as Hc'.
  rewrite !PackN.pk_div, !PackN.pk_mod by first [apply b2n_lt2 | assumption].
  rewrite !nb_b2n, Nat2N.id, tf_dec_enc2 by assumption. rewrite bd_dec2_eq, bd_dec_enc by assumption. reflexivity.
Qed.

Lemma io_wf_step : forall mps depth ep m w, io_wf mps depth m -> io_wf mps depth (fst (io_mstep mps depth ep m w)).
Proof.
  intros mps depth ep m w (Hb & Hf & Hc). cbn [io_mstep fst]. unfold io_next, io_wf.
  cbn [m_bd m_ff m_adm g_tgt g_cnt]. split; [|split].
  - apply bd_wf_next; [exact Hb | apply (bits_lt w 10 8)].
  - apply tf_wf_next; [exact Hf|]. unfold io_fifo_in, bd_fwd.
    destruct (o_next (out (m_bd m)) && o_valid (out (m_bd m))); cbn [fi_write_data]; [|cbn; lia].
    apply enc_entry_lt. cbn [e_data]. exact (proj1 Hb).
  - destruct (fsm (m_bd m)); [lia | | exact Hc].
    destruct (r_valid (x_rx (io_in_of ep w)) && r_next (x_rx (io_in_of ep w))); lia.
Qed.

Lemma io_mrun : forall mps depth ep tr m,
  run (io_mstep mps depth ep) m tr = map (fun o => io_out_pack (io_norm o)) (io_run mps depth m (map (io_in_of ep) tr)).
Proof. intros. exact (run_packed (fun m i => (io_next mps depth m i, io_outf depth m)) _ _ tr m). Qed.

Lemma io_norm_idem : forall o, io_norm (io_norm o) = io_norm o.
Proof. intro o. unfold io_norm. destruct (y_valid o) eqn:E; [rewrite E; reflexivity | reflexivity]. Qed.

Lemma io_norm_data : forall o, (y_data o < 256)%N -> (y_data (io_norm o) < 256)%N.
Proof. intros o H. unfold io_norm. destruct (y_valid o); [exact H | cbn; lia]. Qed.

Lemma io_out_of_pack : forall o, (y_data o < 256)%N -> io_out_of (io_out_pack o) = o.
Proof.
  intros [v f l d] H. unfold io_out_of, io_out_pack. cbn [y_valid y_first y_last y_data] in *.
  set (L := [(1, b2n v); (1, b2n f); (1, b2n l); (8, d)]%N).
  assert (HL : fields_ok L) by (repeat constructor; cbn [fst snd]; try apply b2n_lt2; exact H).
  replace (b2n v + 2 * b2n f + 4 * b2n l + 8 * d)%N with (fields_word L) by (subst L; cbn [fields_word]; lia).
  f_equal; [exact (testbit_fields_word L 0 v HL eq_refl) | exact (testbit_fields_word L 1 f HL eq_refl)
           | exact (testbit_fields_word L 2 l HL eq_refl) | exact (bits_fields_word L 3 HL)].
Qed.

Lemma io_menv_ok : forall mps depth ep, 1 <= mps -> forall tr,
  is_env_ok mps depth is_init (map (io_in_of ep) tr) = true ->
  env_ok io_state (io_mstep mps depth ep) (io_menv mps ep) (io_init depth) tr = true.
Proof.
  intros mps depth ep H tr.
  exact (env_carried (io_in_of ep) (R_env mps depth) (R_step mps depth H) tr _ _ (R_init mps depth)).
Qed.

Lemma io_run_data : forall mps depth ins m o, In o (io_run mps depth m ins) -> (y_data o < 256)%N.
Proof.
  induction ins as [|i t IH]; intros m o H; [contradiction|].
  cbn [io_run] in H. destruct H as [<-|H]; [|exact (IH _ _ H)].
  cbn [io_outf y_data]. apply N.mod_lt. discriminate.
Qed.

Theorem io_packed_refines : forall mps depth ep, 1 <= mps -> forall tr,
  is_env_ok mps depth is_init (map (io_in_of ep) tr) = true ->
  map (fun w => io_norm (io_out_of w)) (run (io_mstep mps depth ep) (io_init depth) tr)
  = is_run mps depth is_init (map (io_in_of ep) tr).
Proof.
  intros mps depth ep H tr HE. rewrite io_mrun, map_map.
  rewrite <- (iso_refines mps depth H _ HE).
  apply map_ext_in. intros o Ho.
  rewrite io_out_of_pack; [apply io_norm_idem | apply io_norm_data; exact (io_run_data _ _ _ _ _ Ho)].
Qed.

(* The specification as a runtime oracle (tie.cmon): the state of is_next packed into one N.
   Bounded encodings: the open packet's bytes in mps + 2 slots (the oracle stops -- returns None --
   at a packet longer than that, addressed or not), the queue in depth + 1 slots.  No theorem
   depends on these encodings; they only serve to run is_next / is_outf over simulator traces. *)
Open Scope N_scope.

(* returns (value, number of bits) *)
Definition enc_list (w : N) (cap : nat) (l : list N) : N * N :=
  (PackN.pk (2 ^ 16) (N.of_nat (length l)) (pack (2 ^ w) (l ++ repeat 0 (cap - length l))), 16 + w * N.of_nat cap).
Definition dec_list (w : N) (cap : nat) (x : N) : list N :=
  firstn (N.to_nat (N.land x (N.ones 16))) (unpack2 w cap (N.shiftr x 16)).

Definition dec_entry (x : N) : entry :=
  {| e_data := N.land x (N.ones 8); e_first := N.testbit x 9; e_last := N.testbit x 8 |}.

Definition is_enc (mps depth : nat) (s : is_state) : N :=
  let '(tag, bs, c, v, fresh) :=
    match s_ph s with
    | PIdle => (0, [], false, false, false)
    | POpen bs c v fresh => (1, bs, c, v, fresh)
    | PEnded bs c v => (2, bs, c, v, false)
    | PReport bs c v => (3, bs, c, v, false)
    end in
  let '(eb, nb_) := enc_list 8 (mps + 2) bs in
  let '(eq, _) := enc_list 10 (S depth) (map enc_entry (s_q s)) in
  PackN.pk 2 (b2n (s_tent s)) (PackN.pk 2 (b2n (s_adm s)) (PackN.pk 2 (b2n (s_tgt s)) (PackN.pk 4 tag
    (PackN.pk 2 (b2n c) (PackN.pk 2 (b2n v) (PackN.pk 2 (b2n fresh) (PackN.pk (2 ^ nb_) eb eq))))))).

Definition is_dec (mps depth : nat) (x : N) : is_state :=
  let te := N.testbit x 0 in let ad := N.testbit x 1 in let tg := N.testbit x 2 in
  let tag := N.land (N.shiftr x 3) 3 in
  let c := N.testbit x 5 in let v := N.testbit x 6 in let fr := N.testbit x 7 in
  let x := N.shiftr x 8 in
  let nbits := 16 + 8 * N.of_nat (mps + 2) in
  let bs := dec_list 8 (mps + 2) (N.land x (N.ones nbits)) in let x := N.shiftr x nbits in
  let q := map dec_entry (dec_list 10 (S depth) x) in
  {| s_ph := match tag with 0 => PIdle | 1 => POpen bs c v fr | 2 => PEnded bs c v | _ => PReport bs c v end;
     s_tgt := tg; s_adm := ad; s_q := q; s_tent := te |}.

Definition is_mon0 : N := 0.

Definition is_mon (mps depth : nat) (ep : N) (m i o : N) : option (N * bool) :=
  let s := is_dec mps depth m in
  let ii := io_in_of ep i in
  let short := match s_ph s with POpen bs _ _ _ => (length bs <=? mps)%nat | _ => true end in
  if is_env mps s ii && short then
    Some (is_enc mps depth (is_next mps depth s ii),
          io_out_pack (io_norm (io_out_of o)) =? io_out_pack (is_outf s))
  else None.
