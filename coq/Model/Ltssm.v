(* C41 -- hand model of luna/gateware/usb/usb3/link/ltssm.py: LTSSMController, and its specification.

   Parameters (lt_cfg): T12, T2, T360 = the 12 ms / 2 ms / 360 ms timeouts in ss clock cycles
   (ceil(t * f)), cw = width of the time-in-state counter (Signal(range(T360 + 1))), loosen =
   loosen_requirements.  One list element = one ss clock cycle.

   The model is code-shaped: Amaranth's "the last assignment wins" is rendered by folding the statements of
   the active FSM state, in program order, over the next-state record (`goto` = transition_to_state: clears
   the time-in-state counter and request_hot_reset, applies the tasks_on_entry of the target and sets m.next).

   WARM RESET.  The model gives in_usb_reset PRIORITY over every other transition of every state (`warm` is the
   last statement of every state: next state Rx.Detect.Reset, counter and request_hot_reset cleared).  /repo's
   code before 974cc31 handled the reset only by calling handle_warm_resets() FIRST in a state, so that any later
   transition of the same cycle overrode it, and did not call it at all in Rx.Detect.Active, Rx.Detect.Quiet and
   Polling.LFPS (nor in Rx.Detect.Reset, which waits for ~in_usb_reset itself): that
   tree violated C41 (findings/C41-*.json); the model corresponds to the code with the fix 974cc31
   (findings/C41-warm-reset-priority.diff) applied (reset handled once, after the FSM).

   Input word:  [0] in_usb_reset [1] trigger_link_recovery [2] phy_ready [3] disable_scrambling
     [4] link_partner_detected [5] no_link_partner_detected [6] lfps_polling_detected [7] ts1_detected
     [8] inverted_ts1_detected [9] ts2_detected [10] hot_reset_requested [11] loopback_requested
     [12] no_scrambling_requested [13] ts_burst_complete [14] idle_handshake_complete [15..30] lfps_cycles_sent
   Output word: [0] link_ready [1] entering_u0 [2] enable_scrambling [3] tx_electrical_idle
     [4] engage_terminations [5] invert_rx_polarity [6] train_equalizer [7] perform_rx_detection
     [8] send_lfps_polling [9] send_tseq_burst [10] send_ts1_burst [11] send_ts2_burst [12] request_hot_reset
     [13] request_no_scrambling [14] perform_idle_handshake [15] act_as_loopback [16] emit_compliance_pattern *)
From Coq Require Import NArith List Bool.
Import ListNotations.
From LunaLib Require Import Netlist Machine.
Open Scope N_scope.

Record lt_cfg := { T12 : N; T2 : N; T360 : N; cw : N; loosen : bool }.

Inductive lt_fsm :=
  | RxDetReset | RxDetActive | RxDetQuiet | PollLFPS | PollRxEQ | PollActive | PollConfig | PollConfigExit
  | PollIdle | U0 | HotResetActive | HotResetExit | RecActive | RecConfig | RecConfigExit | RecIdle
  | Compliance | Loopback | InactQuiet | InactDetect | DisDefault | DisError.

Definition fsm_code (f : lt_fsm) : N :=
  match f with
  | RxDetReset => 0 | RxDetActive => 1 | RxDetQuiet => 2 | PollLFPS => 3 | PollRxEQ => 4 | PollActive => 5
  | PollConfig => 6 | PollConfigExit => 7 | PollIdle => 8 | U0 => 9 | HotResetActive => 10 | HotResetExit => 11
  | RecActive => 12 | RecConfig => 13 | RecConfigExit => 14 | RecIdle => 15 | Compliance => 16 | Loopback => 17
  | InactQuiet => 18 | InactDetect => 19 | DisDefault => 20 | DisError => 21
  end.
Definition fsm_of_code (n : N) : lt_fsm :=
  match n with
  | 0 => RxDetReset | 1 => RxDetActive | 2 => RxDetQuiet | 3 => PollLFPS | 4 => PollRxEQ | 5 => PollActive
  | 6 => PollConfig | 7 => PollConfigExit | 8 => PollIdle | 9 => U0 | 10 => HotResetActive | 11 => HotResetExit
  | 12 => RecActive | 13 => RecConfig | 14 => RecConfigExit | 15 => RecIdle | 16 => Compliance | 17 => Loopback
  | 18 => InactQuiet | 19 => InactDetect | 20 => DisDefault | _ => DisError
  end.
Definition fsm_eqb (a b : lt_fsm) : bool := fsm_code a =? fsm_code b.

Record lt_in := {
  i_reset : bool; i_recov : bool; i_phy : bool; i_disscr : bool; i_partner : bool; i_nopartner : bool;
  i_lfps : bool; i_ts1 : bool; i_its1 : bool; i_ts2 : bool; i_hotreq : bool; i_loopreq : bool;
  i_noscr : bool; i_burst : bool; i_idle : bool; i_sent : N }.

Definition lt_decode_in (w : N) : lt_in :=
  {| i_reset := N.testbit w 0; i_recov := N.testbit w 1; i_phy := N.testbit w 2; i_disscr := N.testbit w 3;
     i_partner := N.testbit w 4; i_nopartner := N.testbit w 5; i_lfps := N.testbit w 6; i_ts1 := N.testbit w 7;
     i_its1 := N.testbit w 8; i_ts2 := N.testbit w 9; i_hotreq := N.testbit w 10; i_loopreq := N.testbit w 11;
     i_noscr := N.testbit w 12; i_burst := N.testbit w 13; i_idle := N.testbit w 14; i_sent := bits w 15 16 |}.

Record lt_out := {
  o_ready : bool; o_entering : bool; o_scr : bool; o_txidle : bool; o_term : bool; o_invpol : bool;
  o_traineq : bool; o_rxdet : bool; o_poll : bool; o_tseq : bool; o_ts1 : bool; o_ts2 : bool;
  o_reqhot : bool; o_reqnoscr : bool; o_idlehs : bool; o_loop : bool; o_compl : bool }.

Definition pk (m a r : N) : N := a + m * r.
Definition lt_encode_out (o : lt_out) : N :=
  pk 2 (b2n (o_ready o)) (pk 2 (b2n (o_entering o)) (pk 2 (b2n (o_scr o)) (pk 2 (b2n (o_txidle o))
  (pk 2 (b2n (o_term o)) (pk 2 (b2n (o_invpol o)) (pk 2 (b2n (o_traineq o)) (pk 2 (b2n (o_rxdet o))
  (pk 2 (b2n (o_poll o)) (pk 2 (b2n (o_tseq o)) (pk 2 (b2n (o_ts1 o)) (pk 2 (b2n (o_ts2 o))
  (pk 2 (b2n (o_reqhot o)) (pk 2 (b2n (o_reqnoscr o)) (pk 2 (b2n (o_idlehs o)) (pk 2 (b2n (o_loop o))
  (b2n (o_compl o))))))))))))))))).

Definition lt_decode_out (w : N) : lt_out :=
  let w1 := w / 2 in let w2 := w1 / 2 in let w3 := w2 / 2 in let w4 := w3 / 2 in let w5 := w4 / 2 in
  let w6 := w5 / 2 in let w7 := w6 / 2 in let w8 := w7 / 2 in let w9 := w8 / 2 in let w10 := w9 / 2 in
  let w11 := w10 / 2 in let w12 := w11 / 2 in let w13 := w12 / 2 in let w14 := w13 / 2 in let w15 := w14 / 2 in
  let w16 := w15 / 2 in
  {| o_ready := w mod 2 =? 1; o_entering := w1 mod 2 =? 1; o_scr := w2 mod 2 =? 1; o_txidle := w3 mod 2 =? 1;
     o_term := w4 mod 2 =? 1; o_invpol := w5 mod 2 =? 1; o_traineq := w6 mod 2 =? 1; o_rxdet := w7 mod 2 =? 1;
     o_poll := w8 mod 2 =? 1; o_tseq := w9 mod 2 =? 1; o_ts1 := w10 mod 2 =? 1; o_ts2 := w11 mod 2 =? 1;
     o_reqhot := w12 mod 2 =? 1; o_reqnoscr := w13 mod 2 =? 1; o_idlehs := w14 mod 2 =? 1;
     o_loop := w15 mod 2 =? 1; o_compl := w16 mod 2 =? 1 |}.

(* registers *)
Record lt_state := {
  st : lt_fsm; cyc : N;
  polling_seen : bool; ts2_seen : bool; hot_seen : bool; loop_seen : bool; noscr_seen : bool; burst_met : bool;
  lfps_seen : bool; target : N; inv_pol : bool; req_hot : bool; req_noscr : bool }.

Definition lt_init : lt_state :=
  {| st := RxDetReset; cyc := 0; polling_seen := false; ts2_seen := false; hot_seen := false; loop_seen := false;
     noscr_seen := false; burst_met := false; lfps_seen := false; target := 0; inv_pol := false;
     req_hot := false; req_noscr := false |}.

Section Model.
  Variable c : lt_cfg.

  (* transition_to_state(s) with the tasks_on_entry of s, applied to the next-state record x *)
  Definition goto (s : lt_fsm) (i : lt_in) (x : lt_state) : lt_state :=
    match s with
    | PollLFPS =>
        {| st := s; cyc := 0; polling_seen := polling_seen x; ts2_seen := ts2_seen x; hot_seen := hot_seen x;
           loop_seen := loop_seen x; noscr_seen := noscr_seen x; burst_met := burst_met x;
           lfps_seen := false; target := 16; inv_pol := inv_pol x; req_hot := false; req_noscr := req_noscr x |}
    | PollActive | RecActive =>
        {| st := s; cyc := 0; polling_seen := polling_seen x; ts2_seen := false; hot_seen := false;
           loop_seen := false; noscr_seen := false; burst_met := false;
           lfps_seen := lfps_seen x; target := target x; inv_pol := inv_pol x; req_hot := false;
           req_noscr := i_disscr i |}
    | PollRxEQ =>
        {| st := s; cyc := 0; polling_seen := polling_seen x; ts2_seen := false; hot_seen := false;
           loop_seen := loop_seen x; noscr_seen := false; burst_met := burst_met x;
           lfps_seen := lfps_seen x; target := target x; inv_pol := inv_pol x; req_hot := false;
           req_noscr := i_disscr i |}
    | HotResetActive =>
        {| st := s; cyc := 0; polling_seen := polling_seen x; ts2_seen := false; hot_seen := hot_seen x;
           loop_seen := loop_seen x; noscr_seen := noscr_seen x; burst_met := burst_met x;
           lfps_seen := lfps_seen x; target := target x; inv_pol := inv_pol x; req_hot := true;
           req_noscr := req_noscr x |}
    | _ =>
        {| st := s; cyc := 0; polling_seen := polling_seen x; ts2_seen := ts2_seen x; hot_seen := hot_seen x;
           loop_seen := loop_seen x; noscr_seen := noscr_seen x; burst_met := burst_met x;
           lfps_seen := lfps_seen x; target := target x; inv_pol := inv_pol x; req_hot := false;
           req_noscr := req_noscr x |}
    end.

  Definition on (b : bool) (f : lt_state -> lt_state) (x : lt_state) : lt_state := if b then f x else x.

  Definition set_inv (v : bool) (x : lt_state) : lt_state :=
    {| st := st x; cyc := cyc x; polling_seen := polling_seen x; ts2_seen := ts2_seen x; hot_seen := hot_seen x;
       loop_seen := loop_seen x; noscr_seen := noscr_seen x; burst_met := burst_met x; lfps_seen := lfps_seen x;
       target := target x; inv_pol := v; req_hot := req_hot x; req_noscr := req_noscr x |}.
  Definition clr_hot (x : lt_state) : lt_state :=
    {| st := st x; cyc := cyc x; polling_seen := polling_seen x; ts2_seen := ts2_seen x; hot_seen := hot_seen x;
       loop_seen := loop_seen x; noscr_seen := noscr_seen x; burst_met := burst_met x; lfps_seen := lfps_seen x;
       target := target x; inv_pol := inv_pol x; req_hot := false; req_noscr := req_noscr x |}.
  Definition set_lfps (tgt : option N) (x : lt_state) : lt_state :=
    {| st := st x; cyc := cyc x; polling_seen := polling_seen x; ts2_seen := ts2_seen x; hot_seen := hot_seen x;
       loop_seen := loop_seen x; noscr_seen := noscr_seen x; burst_met := burst_met x; lfps_seen := true;
       target := match tgt with Some t => t | None => target x end;
       inv_pol := inv_pol x; req_hot := req_hot x; req_noscr := req_noscr x |}.

  (* statements outside the FSM: the counter counts, the asynchronous "seen" flags accumulate *)
  Definition base (s : lt_state) (i : lt_in) : lt_state :=
    {| st := st s; cyc := (cyc s + 1) mod 2 ^ cw c;
       polling_seen := polling_seen s || i_lfps i; ts2_seen := ts2_seen s || i_ts2 i;
       hot_seen := hot_seen s || i_hotreq i; loop_seen := loop_seen s || i_loopreq i;
       noscr_seen := noscr_seen s || i_noscr i; burst_met := burst_met s || i_burst i;
       lfps_seen := lfps_seen s; target := target s; inv_pol := inv_pol s; req_hot := req_hot s;
       req_noscr := req_noscr s |}.

  Definition timeout (s : lt_state) (T : N) (to : lt_fsm) (i : lt_in) : lt_state -> lt_state :=
    on (cyc s =? T) (goto to i).
  (* warm reset: last statement of the state, so that it wins *)
  Definition warm (i : lt_in) : lt_state -> lt_state := on (i_reset i) (goto RxDetReset i).

  (* body of Polling.Idle / Recovery.Idle *)
  Definition idle_exit (s : lt_state) (i : lt_in) (x : lt_state) : lt_state :=
    if hot_seen s then goto HotResetActive i x
    else if loop_seen s then goto Loopback i x
    else if i_idle i then goto U0 i x else x.

  Definition lt_next (s : lt_state) (i : lt_in) : lt_state :=
    let x := base s i in
    match st s with
    | RxDetReset => warm i (on (negb (i_reset i) && i_phy i) (goto RxDetActive i) x)
    | RxDetActive =>
        warm i (on (i_nopartner i) (goto RxDetQuiet i) (on (i_partner i) (goto PollLFPS i) x))
    | RxDetQuiet => warm i (timeout s (T12 c) RxDetActive i x)
    | PollLFPS =>
        let x :=
          if target s <=? i_sent i then
            let x := on (loosen c && i_ts1 i) (goto PollRxEQ i) x in
            let x := on (i_lfps i && negb (lfps_seen s)) (set_lfps (Some ((i_sent i + 4) mod 65536))) x in
            on (lfps_seen s) (goto PollRxEQ i) x
          else
            on (i_lfps i && negb (lfps_seen s))
               (set_lfps (if 12 <? i_sent i then Some ((i_sent i + 4) mod 65536) else None)) x in
        warm i (timeout s (T360 c) (if polling_seen s then DisDefault else Compliance) i x)
    | PollRxEQ => warm i (on (i_burst i) (goto PollActive i) x)
    | PollActive =>
        let x := timeout s (T12 c) RxDetActive i x in
        let x := on (burst_met s && (i_ts1 i || i_ts2 i)) (fun x => goto PollConfig i (set_inv false x)) x in
        let x := on (burst_met s && i_its1 i) (fun x => goto PollConfig i (set_inv true x)) x in
        warm i x
    | PollConfig =>
        warm i (on (i_burst i && ts2_seen s) (goto PollConfigExit i) (timeout s (T12 c) RxDetActive i x))
    | PollConfigExit => warm i (on (i_burst i) (goto PollIdle i) x)
    | PollIdle => warm i (timeout s (T2 c) RxDetReset i (idle_exit s i x))
    | U0 => warm i (on (i_ts1 i) (goto RecActive i) (on (i_recov i) (goto RecActive i) x))
    | HotResetActive =>
        let x := timeout s (T12 c) InactQuiet i x in
        let x := on (i_burst i) clr_hot x in
        warm i (on (i_burst i && ts2_seen s && negb (i_hotreq i)) (goto HotResetExit i) x)
    | HotResetExit => warm i (timeout s (T2 c) InactQuiet i (on (i_idle i) (goto U0 i) x))
    | RecActive =>
        warm i (on (burst_met s && (i_ts1 i || i_ts2 i)) (goto RecConfig i) (timeout s (T12 c) InactQuiet i x))
    | RecConfig =>
        warm i (on (i_burst i && ts2_seen s) (goto RecConfigExit i) (timeout s (T12 c) InactQuiet i x))
    | RecConfigExit => warm i (on (i_burst i) (goto RecIdle i) x)
    | RecIdle => warm i (timeout s (T2 c) InactQuiet i (idle_exit s i x))
    | Compliance => warm i (goto RxDetReset i x)
    | Loopback => warm i x
    | InactQuiet => warm i (timeout s (T12 c) InactDetect i x)
    | InactDetect =>
        warm i (on (i_nopartner i) (goto RxDetQuiet i) (on (i_partner i) (goto InactQuiet i) x))
    | DisDefault => warm i x
    | DisError => warm i x
    end.

  Definition scr_on (s : lt_state) : bool := negb (req_noscr s) && negb (noscr_seen s).

  Definition lt_outputs (s : lt_state) (i : lt_in) : lt_out :=
    let is x := fsm_eqb (st s) x in
    let idling := is PollIdle || is HotResetExit || is RecIdle in
    {| o_ready := is U0;
       o_entering := ((is PollIdle || is RecIdle) && negb (hot_seen s) && negb (loop_seen s) && i_idle i)
                     || (is HotResetExit && i_idle i);
       o_scr := (idling || is U0) && scr_on s;
       o_txidle := is RxDetReset || is RxDetActive || is RxDetQuiet || is PollLFPS || is InactQuiet
                   || is InactDetect || is DisDefault || is DisError;
       o_term := negb (is RxDetReset || is DisDefault || is DisError);
       o_invpol := inv_pol s;
       o_traineq := is PollRxEQ;
       o_rxdet := is RxDetActive || is InactDetect;
       o_poll := is PollLFPS;
       o_tseq := is PollRxEQ;
       o_ts1 := is PollActive || is RecActive;
       o_ts2 := is PollConfig || is PollConfigExit || is HotResetActive || is RecConfig || is RecConfigExit;
       o_reqhot := req_hot s;
       o_reqnoscr := req_noscr s;
       o_idlehs := idling;
       o_loop := is Loopback;
       o_compl := false |}.

  (* typed step, and the packed step used by the tie *)
  Definition lt_stepT (s : lt_state) (i : lt_in) : lt_state * lt_out := (lt_next s i, lt_outputs s i).
  Definition lt_step (s : lt_state) (w : N) : lt_state * N :=
    let i := lt_decode_in w in (lt_next s i, lt_encode_out (lt_outputs s i)).
End Model.

(* ------------------------------------------------------------------------------------------ *)
(* SPECIFICATION: a ghost-history monitor over the inputs and outputs of each cycle.  It never looks at the
   FSM; the phase of the LTSSM is read off what it transmits / requests in that cycle.

   Since the last cycle with in_usb_reset (a reset clears all of this):
     det  a partner was detected while receiver detection was being performed
     pol  then, while sending polling LFPS, polling LFPS was received (or TS1, when loosened)
     t1x  then, while sending TS1, TS1/TS2 (or inverted TS1) were received                 } the TS1/TS2
     t2x  then a burst of TS2 was completed after TS2 had been received                    } exchange
   Since the last training entry (first cycle of sending TS1 = entry to Polling.Active / Recovery.Active, or
   first cycle of request_hot_reset = entry to Hot Reset.Active):
     ts2s TS2 was received;  c2x  a burst of TS2 was completed after that (TS2 exchange);
     idl  then the idle handshake completed while it was being performed;
     gl   disable_scrambling as sampled at the entry (local request), gp  no_scrambling_requested was received.
   Run lengths (consecutive cycles up to now): n1 sending TS1, ni performing the idle handshake, np sending
   polling LFPS, nq quiet (electrical idle, terminated, neither detecting nor polling).

   Verdict of a cycle (gh_ok):
     V1  link_ready -> det, pol, t1x, t2x, c2x, idl
     V2  in_usb_reset in the previous cycle -> not link_ready
     V3  n1 <= T12+1, ni <= T2+1, np <= T360+1, nq <= T12+1      (a state entered in cycle t and timed with T
                                                                  cycles is occupied during cycles t .. t+T at most)
     V4  link_ready -> enable_scrambling = not gl and not gp                                              *)
Record gh := {
  g_det : bool; g_pol : bool; g_t1x : bool; g_t2x : bool; g_ts2s : bool; g_c2x : bool; g_idl : bool;
  g_pts1 : bool; g_phot : bool; g_preset : bool; g_pdis : bool; g_gl : bool; g_gp : bool;
  g_n1 : N; g_ni : N; g_nq : N; g_np : N }.

Definition gh_init : gh :=
  {| g_det := false; g_pol := false; g_t1x := false; g_t2x := false; g_ts2s := false; g_c2x := false;
     g_idl := false; g_pts1 := false; g_phot := false; g_preset := false; g_pdis := false; g_gl := false;
     g_gp := false; g_n1 := 0; g_ni := 0; g_nq := 0; g_np := 0 |}.

Section Spec.
  Variable c : lt_cfg.

  Definition quiet_out (o : lt_out) : bool := o_txidle o && o_term o && negb (o_rxdet o) && negb (o_poll o).

  Definition gh_next (g : gh) (i : lt_in) (o : lt_out) : gh :=
    let ts1entry := o_ts1 o && negb (g_pts1 g) in
    let entry := ts1entry || (o_reqhot o && negb (g_phot g)) in
    let live := negb (i_reset i) in
    let ts2s0 := negb entry && g_ts2s g in
    let c2x0 := negb entry && g_c2x g in
    let idl0 := negb entry && g_idl g in
    let c2ev := o_ts2 o && i_burst i && ts2s0 in
    {| g_det := live && (g_det g || (o_rxdet o && i_partner i));
       g_pol := live && (g_pol g || (g_det g && o_poll o && (i_lfps i || (loosen c && i_ts1 i))));
       g_t1x := live && (g_t1x g || (g_pol g && o_ts1 o && (i_ts1 i || i_ts2 i || i_its1 i)));
       g_t2x := live && (g_t2x g || (g_t1x g && c2ev));
       g_ts2s := live && (ts2s0 || i_ts2 i);
       g_c2x := live && (c2x0 || c2ev);
       g_idl := live && (idl0 || (c2x0 && o_idlehs o && i_idle i));
       g_pts1 := o_ts1 o; g_phot := o_reqhot o; g_preset := i_reset i; g_pdis := i_disscr i;
       g_gl := (ts1entry && g_pdis g) || (negb ts1entry && g_gl g);
       g_gp := (negb ts1entry && g_gp g) || i_noscr i;
       g_n1 := if o_ts1 o then g_n1 g + 1 else 0;
       g_ni := if o_idlehs o then g_ni g + 1 else 0;
       g_nq := if quiet_out o then g_nq g + 1 else 0;
       g_np := if o_poll o then g_np g + 1 else 0 |}.

  Definition gh_ok (g : gh) (i : lt_in) (o : lt_out) : bool :=
    let g' := gh_next g i o in
    implb (o_ready o) (g_det g && g_pol g && g_t1x g && g_t2x g && g_c2x g && g_idl g)
    && implb (g_preset g) (negb (o_ready o))
    && (g_n1 g' <=? T12 c + 1) && (g_ni g' <=? T2 c + 1) && (g_np g' <=? T360 c + 1) && (g_nq g' <=? T12 c + 1)
    && implb (o_ready o) (Bool.eqb (o_scr o) (negb (g_gl g) && negb (g_gp g))).

  (* the monitor accepts a typed trace of (inputs, outputs) *)
  Fixpoint gh_accepts (g : gh) (ios : list (lt_in * lt_out)) : bool :=
    match ios with
    | [] => true
    | (i, o) :: t => gh_ok g i o && gh_accepts (gh_next g i o) t
    end.

  (* ... and a trace of input words / output words *)
  Fixpoint gh_accepts_w (g : gh) (ins outs : list N) : bool :=
    match ins, outs with
    | i :: ti, o :: to =>
        gh_ok g (lt_decode_in i) (lt_decode_out o) && gh_accepts_w (gh_next g (lt_decode_in i) (lt_decode_out o)) ti to
    | _, _ => true
    end.

  (* typed trace of the model *)
  Fixpoint lt_trace (s : lt_state) (ins : list lt_in) : list (lt_in * lt_out) :=
    match ins with
    | [] => []
    | i :: t => (i, lt_outputs s i) :: lt_trace (lt_next c s i) t
    end.

  (* the monitor packed into N (runtime oracle / reachability monitor over the real module) *)
  Definition gh_enc (g : gh) : N :=
    pk 2 (b2n (g_det g)) (pk 2 (b2n (g_pol g)) (pk 2 (b2n (g_t1x g)) (pk 2 (b2n (g_t2x g)) (pk 2 (b2n (g_ts2s g))
    (pk 2 (b2n (g_c2x g)) (pk 2 (b2n (g_idl g)) (pk 2 (b2n (g_pts1 g)) (pk 2 (b2n (g_phot g))
    (pk 2 (b2n (g_preset g)) (pk 2 (b2n (g_pdis g)) (pk 2 (b2n (g_gl g)) (pk 2 (b2n (g_gp g))
    (pk 4294967296 (g_n1 g) (pk 4294967296 (g_ni g) (pk 4294967296 (g_nq g) (g_np g)))))))))))))))).
  Definition gh_dec (m : N) : gh :=
    let m1 := m / 2 in let m2 := m1 / 2 in let m3 := m2 / 2 in let m4 := m3 / 2 in let m5 := m4 / 2 in
    let m6 := m5 / 2 in let m7 := m6 / 2 in let m8 := m7 / 2 in let m9 := m8 / 2 in let m10 := m9 / 2 in
    let m11 := m10 / 2 in let m12 := m11 / 2 in let m13 := m12 / 2 in
    let m14 := m13 / 4294967296 in let m15 := m14 / 4294967296 in let m16 := m15 / 4294967296 in
    {| g_det := m mod 2 =? 1; g_pol := m1 mod 2 =? 1; g_t1x := m2 mod 2 =? 1; g_t2x := m3 mod 2 =? 1;
       g_ts2s := m4 mod 2 =? 1; g_c2x := m5 mod 2 =? 1; g_idl := m6 mod 2 =? 1; g_pts1 := m7 mod 2 =? 1;
       g_phot := m8 mod 2 =? 1; g_preset := m9 mod 2 =? 1; g_pdis := m10 mod 2 =? 1; g_gl := m11 mod 2 =? 1;
       g_gp := m12 mod 2 =? 1; g_n1 := m13 mod 4294967296; g_ni := m14 mod 4294967296;
       g_nq := m15 mod 4294967296; g_np := m16 |}.
  Definition gh_mon (m i o : N) : option (N * bool) :=
    let g := gh_dec m in let ii := lt_decode_in i in let oo := lt_decode_out o in
    Some (gh_enc (gh_next g ii oo), gh_ok g ii oo).
End Spec.

(* ------------------------------------------------------------------------------------------ *)
(* Time-outs at the level of FSM states (the TS2 phases are not distinguishable from outside) *)
Definition st_timeout (c : lt_cfg) (f : lt_fsm) : option N :=
  match f with
  | RxDetQuiet | PollActive | PollConfig | HotResetActive | RecActive | RecConfig | InactQuiet => Some (T12 c)
  | PollIdle | HotResetExit | RecIdle => Some (T2 c)
  | PollLFPS => Some (T360 c)
  | _ => None
  end.
(* state after a typed input history *)
Fixpoint lt_run (c : lt_cfg) (s : lt_state) (ins : list lt_in) : lt_state :=
  match ins with [] => s | i :: t => lt_run c (lt_next c s i) t end.

(* ------------------------------------------------------------------------------------------ *)
(* packing of the model state for the lock-step tie *)
Definition lt_enc (s : lt_state) : N :=
  pk 2 (b2n (polling_seen s)) (pk 2 (b2n (ts2_seen s)) (pk 2 (b2n (hot_seen s)) (pk 2 (b2n (loop_seen s))
  (pk 2 (b2n (noscr_seen s)) (pk 2 (b2n (burst_met s)) (pk 2 (b2n (lfps_seen s)) (pk 2 (b2n (inv_pol s))
  (pk 2 (b2n (req_hot s)) (pk 2 (b2n (req_noscr s)) (pk 32 (fsm_code (st s)) (pk 65536 (target s) (cyc s)))))))))))).
Definition lt_dec (m : N) : lt_state :=
  let m1 := m / 2 in let m2 := m1 / 2 in let m3 := m2 / 2 in let m4 := m3 / 2 in let m5 := m4 / 2 in
  let m6 := m5 / 2 in let m7 := m6 / 2 in let m8 := m7 / 2 in let m9 := m8 / 2 in let m10 := m9 / 2 in
  let m11 := m10 / 32 in
  {| polling_seen := m mod 2 =? 1; ts2_seen := m1 mod 2 =? 1; hot_seen := m2 mod 2 =? 1; loop_seen := m3 mod 2 =? 1;
     noscr_seen := m4 mod 2 =? 1; burst_met := m5 mod 2 =? 1; lfps_seen := m6 mod 2 =? 1; inv_pol := m7 mod 2 =? 1;
     req_hot := m8 mod 2 =? 1; req_noscr := m9 mod 2 =? 1; st := fsm_of_code (m10 mod 32);
     target := m11 mod 65536; cyc := m11 / 65536 |}.
Definition lt_wf (s : lt_state) : Prop := target s < 65536.

(* ------------------------------------------------------------------------------------------ *)
(* Input alphabet of the R tie: every event alone, every event together with a warm reset, the values of
   lfps_cycles_sent around the thresholds of Polling.LFPS (12, 16, target) alone and with the events read
   there, and the pairs of events that the FSM reads in the same cycle. *)
Definition ev (k : N) : N := 2 ^ k.
Definition sentw (n : N) : N := n * 2 ^ 15.
Definition lt_alpha_core : list N :=
  [0] ++ map ev [0;1;2;4;5;6;7;9;13;14]
  ++ map (fun e => e + ev 0) (map ev [1;2;4;6;7;13;14])
  ++ flat_map (fun n => [sentw n; sentw n + ev 6; sentw n + ev 7]) [13; 16; 20].
(* the optional paths, in two alphabets: hot reset + loopback; scrambling requests + inverted polarity + recovery *)
Definition lt_alpha_opt_a : list N :=
  [0; ev 0; ev 2; ev 4; sentw 16 + ev 6; sentw 20; ev 13; ev 7; ev 9; ev 14; ev 10; ev 11; ev 13 + ev 10; ev 13 + ev 9;
   ev 14 + ev 0].
Definition lt_alpha_opt_b : list N :=
  [0; ev 0; ev 2; ev 4; sentw 16 + ev 6; sentw 20; ev 13; ev 7; ev 9; ev 14; ev 12; ev 8; ev 3 + ev 13; ev 3 + ev 7; ev 1;
   ev 13 + ev 0].
(* a small alphabet for the quick tier: the training path, recovery, and a warm reset alone / coinciding with
   the events that the unpatched code lets override it *)
Definition lt_alpha_small : list N :=
  [0; ev 2; ev 4; ev 5; sentw 16 + ev 6; sentw 20; ev 13; ev 7; ev 9; ev 14; ev 1;
   ev 0; ev 0 + ev 14; ev 0 + ev 13; ev 0 + ev 7; ev 0 + ev 4].
