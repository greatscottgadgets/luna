(* TimestampPacketReceiver (Itp.v), property C47: with registers as wide as the packet's fields the outputs are a
   function of the input history (itp_from_reset), the cycle after a timestamp packet reports its
   two fields in full (itp_reported), and the one-bit registers declared before c2e032e do not
   (itp_one_bit_refuted). *)
From Coq Require Import NArith PeanoNat List Bool Lia.
Import ListNotations.
From LunaLib Require Import Netlist Machine BitFacts.
From LunaModel Require Import Itp.
Open Scope N_scope.

(* the machine state is a function of the history *)
Definition hist_state (hist : list N) : itp_state :=
  {| upd := match hist with j :: _ => is_itp j | [] => false end;
     bic := match find is_itp hist with Some j => f_counter j | None => 0 end;
     dlt := match find is_itp hist with Some j => f_delta j | None => 0 end |}.

Section Wide.
  Variables wb wd : N.
  Hypothesis Hwb : 14 <= wb.
  Hypothesis Hwd : 13 <= wd.

  Lemma hist_state_next : forall hist i, itp_next wb wd (hist_state hist) i = hist_state (i :: hist).
  Proof.
    intros. unfold itp_next, hist_state. cbn [find upd bic dlt]. destruct (is_itp i); [|reflexivity].
    f_equal; apply trunc_bits_wide; assumption.
  Qed.

  (* spec_trace is the run of the machine whose state is the history *)
  Theorem itp_model_spec : forall ins hist, run (itp_step wb wd) (hist_state hist) ins = spec_trace hist ins.
  Proof.
    intros ins hist.
    apply (sim_run_all (itp_step wb wd) (fun h i => (i :: h, spec_out h i)) (fun st h => st = hist_state h));
      [|reflexivity].
    intros _ h i ->. split; [apply hist_state_next | reflexivity].
  Qed.

  Corollary itp_from_reset : forall ins, run (itp_step wb wd) itp_init ins = spec_trace [] ins.
  Proof. intros. apply (itp_model_spec ins []). Qed.
End Wide.

Lemma o_fields : forall r u c d, c < 65536 ->
  o_ready (pack_out r u c d) = r /\ o_update (pack_out r u c d) = u /\
  o_counter (pack_out r u c d) = c /\ o_delta (pack_out r u c d) = d.
Proof.
  intros r u c d Hc. unfold o_ready, o_update, o_counter, o_delta, pack_out.
  set (L := [(1, b2n r); (1, b2n u); (16, c)]).
  assert (HL : fields_ok L) by (repeat constructor; try apply b2n_lt2; exact Hc).
  replace (_ + 262144 * d) with (fields_under L d) by (cbn [fields_under L]; lia).
  repeat split.
  - apply odd_b2n_add_2.
  - exact (fields_under_flag L d 1 u HL eq_refl).
  - exact (fields_under_digit L d 2 HL).
  - exact (fields_under_rest L d HL).
Qed.

Lemma f_counter_lt : forall i, f_counter i < 65536.
Proof. intros. eapply N.lt_trans; [apply bits_lt | reflexivity]. Qed.

Lemma spec_out_fields : forall hist i,
  o_ready (spec_out hist i) = is_itp i /\ o_update (spec_out hist i) = upd (hist_state hist) /\
  o_counter (spec_out hist i) = bic (hist_state hist) /\ o_delta (spec_out hist i) = dlt (hist_state hist).
Proof.
  intros. apply o_fields. cbn [hist_state bic]. destruct (find is_itp hist); [apply f_counter_lt | reflexivity].
Qed.

Lemma spec_trace_app : forall a hist b,
  spec_trace hist (a ++ b) = spec_trace hist a ++ spec_trace (rev a ++ hist) b.
Proof.
  induction a as [|x a IH]; intros hist b; [reflexivity|].
  cbn [app spec_trace rev]. rewrite IH, <- app_assoc. reflexivity.
Qed.

Lemma spec_trace_length : forall ins hist, length (spec_trace hist ins) = length ins.
Proof. induction ins as [|i t IH]; intros; [reflexivity|]. cbn [spec_trace length]. rewrite IH. reflexivity. Qed.

(* C47: the cycle after any timestamp packet, the update strobe is high and both values are the packet's full fields *)
Theorem itp_reported : forall wb wd, 14 <= wb -> 13 <= wd ->
  forall pre i i' post, is_itp i = true ->
  let outs := run (itp_step wb wd) itp_init (pre ++ i :: i' :: post) in
  exists o o', nth_error outs (length pre) = Some o /\ nth_error outs (S (length pre)) = Some o' /\
    o_ready o = true /\
    o_update o' = true /\ o_counter o' = f_counter i /\ o_delta o' = f_delta i.
Proof.
  intros wb wd Hb Hd pre i i' post Hi outs. subst outs.
  rewrite (itp_from_reset wb wd Hb Hd), spec_trace_app. cbn [spec_trace].
  set (h := rev pre ++ []). exists (spec_out h i), (spec_out (i :: h) i').
  assert (L : length (spec_trace [] pre) = length pre) by apply spec_trace_length.
  split; [|split].
  - rewrite nth_error_app2, L, Nat.sub_diag by lia. reflexivity.
  - rewrite nth_error_app2, L by lia. replace (S (length pre) - length pre)%nat with 1%nat by lia.
    reflexivity.
  - destruct (spec_out_fields h i) as (R & _), (spec_out_fields (i :: h) i') as (_ & U & C & D).
    cbn [hist_state find upd bic dlt] in U, C, D. rewrite Hi in *. repeat split; assumption.
Qed.

(* the widths declared before c2e032e (Signal() = 1 bit) do NOT satisfy the specification *)
Theorem itp_one_bit_refuted : exists ins,
  run (itp_step 1 1) itp_init ins <> spec_trace [] ins.
Proof. exists [mk_in true 12 2 2; 0]. vm_compute. discriminate. Qed.

(* used by the tie to the netlist (props/C47.py): packed states decode back, well-formedness is kept *)
Lemma itp_dec_enc : forall st, itp_wf st -> itp_dec (itp_enc st) = st.
Proof.
  intros [u b d] H. unfold itp_wf in H. cbn [bic] in H. unfold itp_dec, itp_enc. cbn [upd bic dlt].
  set (L := [(1, b2n u); (14, b)]).
  assert (HL : fields_ok L) by (repeat constructor; [apply b2n_lt2 | exact H]).
  replace (_ + 32768 * d) with (fields_under L d) by (cbn [fields_under L]; lia).
  f_equal.
  - apply odd_b2n_add_2.
  - exact (fields_under_digit L d 1 HL).
  - exact (fields_under_rest L d HL).
Qed.

(* the tie runs at wb = 14 (props/C47.py), the one width that meets both this bound and the theorems' 14 <= wb *)
Lemma itp_wf_step : forall wb wd, wb <= 14 -> forall st i, itp_wf st -> itp_wf (fst (itp_step wb wd st i)).
Proof.
  intros wb wd Hw st i H. unfold itp_wf, itp_step, itp_next in *. cbn [fst].
  destruct (is_itp i); cbn [bic]; [|exact H].
  eapply N.lt_le_trans; [apply trunc_lt | exact (pow2_le_mono wb 14 Hw)].
Qed.

Lemma itp_wf_init : itp_wf itp_init.
Proof. reflexivity. Qed.
