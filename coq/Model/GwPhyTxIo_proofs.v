(* C25 -- the usb_io half of the transmit path (synchronisers, strobe counter, NRZI encoder) and the complete
   two-clock transmit machine: every packet of a UTMI transmit session appears on D+/D- as
   SYNC, the NRZI-encoded bit-stuffed bytes and SE0 SE0 J, four usb_io cycles per symbol. *)
From Coq Require Import NArith List Bool Lia PeanoNat.
Import ListNotations.
From LunaLib Require Import Netlist Machine BitFacts.
From LunaModel Require Import GwPhyCodec GwPhyCodec_proofs GwPhy GwPhyTxU_proofs.
Open Scope N_scope.

Lemma rep4_cons : forall A (x : A) l, rep4 (x :: l) = [x; x; x; x] ++ rep4 l.
Proof. reflexivity. Qed.
Lemma rep4_length : forall A (l : list A), length (rep4 l) = (4 * length l)%nat.
Proof. induction l as [|x l IH]; [reflexivity|]. rewrite rep4_cons, app_length, IH. cbn [length]. lia. Qed.
Lemma rep4_app : forall A (a b : list A), rep4 (a ++ b) = rep4 a ++ rep4 b.
Proof. intros. unfold rep4. apply flat_map_app. Qed.

Definition io_regs (c : txio) : bool * bool * bool := (c_p c, c_n c, c_oe c).

(* the strobe falls in the fourth step, when d and e have come through the synchronisers; the four steps
   evaluate once the encoder state, on which nz_out matches, is known *)
Lemma io_macro : forall c d e, c_ctr c = 1 ->
  let c' := txio_next (txio_next (txio_next (txio_next c d e) d e) d e) d e in
  txio_run c [(d, e); (d, e); (d, e); (d, e)] = [io_regs c; nz_out (c_nz c); nz_out (c_nz c); nz_out (c_nz c)] /\
  c_ctr c' = 1 /\ c_nz c' = nz_next (c_nz c) true e d /\ io_regs c' = nz_out (c_nz c).
Proof.
  intros [d0 d1 d2 e0 e1 e2 q p n oe ct] d e H. cbn [c_ctr] in H. subst ct.
  destruct q; repeat split; reflexivity.
Qed.

Lemma txio_run_app : forall a b c,
  txio_run c (a ++ b) = txio_run c a ++ txio_run (fold_left (fun c f => txio_next c (fst f) (snd f)) a c) b.
Proof.
  induction a as [|[d e] a IH]; intros b c; [reflexivity|]. cbn [app txio_run fold_left fst snd]. rewrite IH. reflexivity.
Qed.

(* from an aligned state: the registered outputs lag the encoder state by one step *)
Lemma io_aligned_run : forall F c, c_ctr c = 1 ->
  txio_run c (rep4 F) = firstn (4 * length F) (io_regs c :: rep4 (map nz_out (c_nz c :: nz_states (c_nz c) F))).
Proof.
  induction F as [|[d e] F IH]; intros c Hc; [reflexivity|].
  rewrite rep4_cons, txio_run_app.
  destruct (io_macro c d e Hc) as (R & C1 & C2 & C3). rewrite R.
  cbn [fold_left fst snd].
  rewrite (IH _ C1), C2, C3. cbn [nz_states map]. rewrite !rep4_cons.
  replace (4 * length ((d, e) :: F))%nat with (4 + 4 * length F)%nat by (cbn [length]; lia).
  cbn [app firstn]. reflexivity.
Qed.

(* from reset: step 0 carries the fit value of usb cycle 0, which never reaches the encoder *)
Lemma txio_run_line : forall f0 F,
  txio_run txio_init (f0 :: rep4 F) =
  firstn (1 + 4 * length F) ((false, false, false) :: nz_out NzIdle :: rep4 (map nz_out (NzIdle :: nz_states NzIdle F))).
Proof.
  intros [d0 e0] F. cbn [txio_run]. cbn [firstn Nat.add]. f_equal.
  exact (io_aligned_run F (txio_next txio_init d0 e0) eq_refl).
Qed.

Lemma tx_word_fields : forall d v m t,
  let w := tx_word d v m t in
  bits w 0 8 = d mod 256 /\ bits w 8 1 = b2n v /\ bits w 9 2 = m mod 4 /\ bits w 11 1 = 1 /\ bits w 12 1 = b2n t.
Proof.
  intros d v m t w.
  set (L := [(8, d mod 256); (1, b2n v); (2, m mod 4); (1, 1); (1, b2n t)]).
  assert (HL : fields_ok L)
    by (repeat constructor; cbn [fst snd]; first [apply b2n_lt2 | apply N.mod_lt; discriminate | reflexivity]).
  assert (E : w = fields_word L) by (subst w L; unfold tx_word; cbn [fields_word]; lia).
  rewrite E. repeat split.
  - exact (bits_fields_word L 0 HL).
  - exact (bits_fields_word L 1 HL).
  - exact (bits_fields_word L 2 HL).
  - exact (bits_fields_word L 3 HL).
  - exact (bits_fields_word L 4 HL).
Qed.

Lemma txu_next_mod : forall u d oe, txu_next 8 u (d mod 256) oe = txu_next 8 u d oe.
Proof.
  intros. unfold txu_next, txsh_next. change (2 ^ 8) with 256. rewrite N.mod_mod by discriminate. reflexivity.
Qed.

Lemma tx_line_of_out : forall p n oe r, tx_line_of (tx_out p n oe r) = (p, n, oe).
Proof. intros. destruct p, n, oe, r; reflexivity. Qed.
Lemma tx_ready_of_out : forall p n oe r, tx_ready_of (tx_out p n oe r) = r.
Proof. intros. destruct p, n, oe, r; reflexivity. Qed.

Lemma tx_step_normal : forall u c d v t,
  tx_step 8 {| x_u := u; x_io := c |} (tx_word d v 0 t) =
  ({| x_u := if t then txu_next 8 u d v else u; x_io := txio_next c (u_fit_dat u) (u_fit_oe u) |},
   tx_out (c_p c) (c_n c) (c_oe c) (u_ready u v)).
Proof.
  intros. destruct (tx_word_fields d v 0 t) as (F1 & F2 & F3 & F4 & F5). unfold tx_step. cbn [x_u x_io].
  rewrite F1, F2, F3, F4, F5. change (0 mod 4) with 0. change (N.eqb 0 0) with true. cbv iota.
  unfold nb. change (N.eqb 1 0) with false. cbn [negb andb].
  destruct v, t; cbn [b2n N.eqb negb]; rewrite ?txu_next_mod; reflexivity.
Qed.

(* what the usb half shows (as tx_loop lists it) and where it ends, along an open-loop input history, one entry per
   usb cycle *)
Fixpoint uobs (u : txu) (U : list (N * bool)) : list (bool * bool * bool) :=
  match U with
  | [] => []
  | dv :: t => out3 u (snd dv) :: uobs (txu_next 8 u (fst dv) (snd dv)) t
  end.
Definition ustate (u : txu) (U : list (N * bool)) : txu := fold_left (fun u dv => txu_next 8 u (fst dv) (snd dv)) U u.

Lemma uobs_length : forall U u, length (uobs u U) = length U.
Proof. induction U as [|x U IH]; intro u; [reflexivity|]. cbn [uobs length]. rewrite IH. reflexivity. Qed.
Lemma uobs_app : forall A B u, uobs u (A ++ B) = uobs u A ++ uobs (ustate u A) B.
Proof. induction A as [|dv A IH]; intros; [reflexivity|]. cbn [app uobs ustate fold_left]. rewrite IH. reflexivity. Qed.

Lemma tx_run_cycles : forall U u c,
  let outs := run (tx_step 8) {| x_u := u; x_io := c |} (flat_map (tx_words4 0) U) in
  map tx_line_of outs = txio_run c (rep4 (map fit_of (uobs u U))) /\
  length (filter tx_ready_of outs) = (4 * length (filter rdy_of (uobs u U)))%nat.
Proof.
  induction U as [|[d v] U IH]; intros u c; [split; reflexivity|]. cbv zeta.
  cbn [flat_map uobs map filter fst snd]. unfold out3 at 1 2, fit_of at 1, rdy_of at 1. cbn [fst snd]. rewrite rep4_cons.
  unfold tx_words4 at 1 3. cbn [fst snd app run]. rewrite !tx_step_normal. cbv iota. cbn [map txio_run filter].
  destruct (IH (txu_next 8 u d v)
              (txio_next (txio_next (txio_next (txio_next c (u_fit_dat u) (u_fit_oe u)) (u_fit_dat u) (u_fit_oe u))
                                    (u_fit_dat u) (u_fit_oe u)) (u_fit_dat u) (u_fit_oe u))) as [I1 I2].
  rewrite !tx_line_of_out, !tx_ready_of_out, I1. split; [reflexivity|].
  destruct (u_ready u v); cbn [length]; rewrite I2; lia.
Qed.

Definition nz_of_sym (s : sym) : nzst := match s with SK => NzDK | _ => NzDJ end.
Definition nz_end (q : nzst) (fits : list (bool * bool)) : nzst :=
  fold_left (fun q f => nz_next q true (snd f) (fst f)) fits q.
Definition sym_jk (s : sym) : Prop := s = SJ \/ s = SK.
Definition nz_rest (q : nzst) : Prop := q = NzIdle \/ q = NzEOPJ.

Lemma nz_states_app : forall a b q, nz_states q (a ++ b) = nz_states q a ++ nz_states (nz_end q a) b.
Proof.
  induction a as [|[d e] a IH]; intros b q; [reflexivity|]. cbn [app nz_states]. rewrite IH. reflexivity.
Qed.

Lemma nz_bits : forall bits p, sym_jk p ->
  map nz_out (nz_states (nz_of_sym p) (bit_fits bits)) = map sym_drive (nrzi p bits) /\
  exists p', sym_jk p' /\ nz_end (nz_of_sym p) (bit_fits bits) = nz_of_sym p'.
Proof.
  induction bits as [|b bits IH]; intros p Hp; [split; [reflexivity | exists p; split; [exact Hp | reflexivity]]|].
  set (p' := if b then p else flip p).
  assert (E : nz_next (nz_of_sym p) true true b = nz_of_sym p' /\ nz_out (nz_of_sym p') = sym_drive p' /\ sym_jk p')
    by (subst p'; unfold sym_jk; destruct Hp as [-> | ->]; destruct b; cbn; auto).
  destruct E as (E1 & E2 & Hp'). destruct (IH p' Hp') as [I1 I2].
  unfold nz_end, bit_fits in *. cbn [map nz_states nrzi fold_left fst snd]. fold p'. rewrite E1, E2, I1.
  split; [reflexivity | exact I2].
Qed.

Lemma nz_rest_idle : forall q, nz_rest q -> nz_next q true false false = NzIdle.
Proof. intros q [-> | ->]; reflexivity. Qed.

Lemma nz_idle : forall k q, nz_rest q ->
  map nz_out (nz_states q (repeat (false, false) k)) = repeat line_idle k /\ nz_rest (nz_end q (repeat (false, false) k)).
Proof.
  induction k as [|k IH]; intros q Hq; [split; [reflexivity | exact Hq]|].
  destruct (IH NzIdle (or_introl eq_refl)) as [I1 I2].
  unfold nz_end in *. cbn [repeat nz_states map fold_left fst snd]. rewrite (nz_rest_idle q Hq), I1. split; [reflexivity | exact I2].
Qed.

(* one packet: an idle strobe, the bits (the first of which is a 0, as in SYNC), then at least three idle strobes *)
Lemma nz_packet : forall bits k q0, nz_rest q0 ->
  let fits := (false, false) :: bit_fits (false :: bits) ++ repeat (false, false) (3 + k) in
  map nz_out (nz_states q0 fits) =
    line_idle :: map sym_drive (nrzi SJ (false :: bits) ++ eop) ++ repeat line_idle k /\
  nz_rest (nz_end q0 fits).
Proof.
  intros bits k q0 Hq0 fits. subst fits.
  destruct (nz_bits bits SK (or_intror eq_refl)) as (B1 & p' & Hp' & B2).
  assert (E1 : nz_next (nz_of_sym p') true false false = NzSE0A) by (destruct Hp' as [-> | ->]; reflexivity).
  destruct (nz_idle k NzEOPJ (or_intror eq_refl)) as [I1 I2].
  unfold nz_end in *. unfold bit_fits at 1 2. cbn [map app nz_states fold_left fst snd]. rewrite (nz_rest_idle q0 Hq0).
  change (nz_next NzIdle true true false) with (nz_of_sym SK). fold (bit_fits bits).
  rewrite nz_states_app, fold_left_app. unfold nz_end. rewrite B2.
  cbn [Nat.add repeat nz_states fold_left fst snd]. rewrite E1.
  change (nz_next NzSE0A true false false) with NzSE0B. change (nz_next NzSE0B true false false) with NzEOPJ.
  split; [|exact I2].
  cbn [map nrzi flip app]. rewrite !map_app, B1. cbn [map eop]. rewrite I1, <- app_assoc. reflexivity.
Qed.

Lemma loop_in_obs : forall g s q,
  uobs s (tx_loop_in 8 s q g) = tx_loop 8 s q g /\ ustate s (tx_loop_in 8 s q g) = fst (tx_loop_end 8 s q g).
Proof.
  induction g as [|gd g IH]; intros s q; [split; reflexivity|].
  cbn [tx_loop_in tx_loop tx_loop_end uobs ustate fold_left fst snd].
  destruct (IH (txu_next 8 s (drv_data q gd) (drv_oe q)) (if u_ready s (drv_oe q) then tl q else q)) as [I1 I2].
  unfold ustate in I2. rewrite I1, I2. split; reflexivity.
Qed.

Definition phase_fits (p : list N * list N) : list (bool * bool) :=
  phase_body (fst p) ++ repeat (false, false) (length (snd p) - length (phase_body (fst p))).

Lemma phase_body_length : forall bs, bs <> [] -> (length (phase_body bs) + 3 = 1 + length (frame0 bs))%nat.
Proof.
  intros [|b bs] H; [congruence|]. rewrite frame0_length. unfold phase_body, bit_fits. cbn [length].
  rewrite map_length, app_length. cbn [length sync_bits]. lia.
Qed.

Lemma phase_obs : forall bs g s, txu_quiet s -> phase_ok (bs, g) ->
  map fit_of (uobs s (tx_loop_in 8 s bs g)) = phase_fits (bs, g) /\
  length (filter rdy_of (uobs s (tx_loop_in 8 s bs g))) = length bs /\
  txu_quiet (ustate s (tx_loop_in 8 s bs g)).
Proof.
  intros bs g s Hq [Hb Hl]. cbn [fst snd] in Hb, Hl.
  assert (Hlen : (length (phase_body bs) <= length g)%nat).
  { destruct bs as [|b bs]; [cbn; lia|]. pose proof (phase_body_length (b :: bs) ltac:(discriminate)). specialize (Hl ltac:(discriminate)). lia. }
  destruct (loop_in_obs g s bs) as [L1 L2]. destruct (tx_phase_usb s bs Hq Hb g Hlen) as (P1 & P2 & _ & P4).
  rewrite L1, L2. auto.
Qed.

Lemma session_obs : forall ph s, txu_quiet s -> Forall phase_ok ph ->
  map fit_of (uobs s (tx_session_in 8 s ph)) = flat_map phase_fits ph /\
  length (filter rdy_of (uobs s (tx_session_in 8 s ph))) = length (flat_map fst ph).
Proof.
  induction ph as [|[bs g] ph IH]; intros s Hq Hok; [split; reflexivity|].
  inversion Hok as [|? ? Hp Hok']; subst. destruct (phase_obs bs g s Hq Hp) as (P1 & P2 & P3).
  cbn [tx_session_in flat_map fst snd]. rewrite uobs_app, map_app, filter_app, !app_length.
  rewrite <- (proj2 (loop_in_obs g s bs)). destruct (IH _ P3 Hok') as [I1 I2]. rewrite P1, I1, P2, I2. split; reflexivity.
Qed.

Lemma nz_phase : forall p q0, nz_rest q0 -> phase_ok p ->
  map nz_out (nz_states q0 (phase_fits p)) = phase_line (fst p) (length (snd p)) /\ nz_rest (nz_end q0 (phase_fits p)).
Proof.
  intros [[|b bs] g] q0 Hq0 [_ Hl]; cbn [fst snd] in *.
  - unfold phase_fits, phase_line. cbn [phase_body fst snd app length]. rewrite Nat.sub_0_r. apply nz_idle, Hq0.
  - specialize (Hl ltac:(discriminate)). pose proof (phase_body_length (b :: bs) ltac:(discriminate)) as Hn.
    unfold phase_fits, phase_line. cbn [fst snd].
    replace (length g - length (phase_body (b :: bs)))%nat with (3 + (length g - 1 - length (frame0 (b :: bs))))%nat by lia.
    exact (nz_packet (tl sync_bits ++ stuff 0 (bits_of_bytes (b :: bs))) _ q0 Hq0).
Qed.

Lemma session_line : forall ph q0, nz_rest q0 -> Forall phase_ok ph ->
  map nz_out (nz_states q0 (flat_map phase_fits ph)) = flat_map (fun p => phase_line (fst p) (length (snd p))) ph.
Proof.
  induction ph as [|p ph IH]; intros q0 Hq0 Hok; [reflexivity|].
  inversion Hok as [|? ? Hp Hok']; subst. destruct (nz_phase p q0 Hq0 Hp) as [N1 N2].
  cbn [flat_map]. rewrite nz_states_app, map_app, N1, (IH _ N2 Hok'). reflexivity.
Qed.

Lemma tx_trace_length : forall mode U,
  length (tx_trace mode U) = match U with [] => 0%nat | _ :: t => (1 + 4 * length t)%nat end.
Proof.
  intros mode [|dv U]; [reflexivity|]. cbn [tx_trace length Nat.add]. f_equal.
  induction U as [|x U IH]; [reflexivity|]. cbn [flat_map]. rewrite app_length, IH. cbn [length tx_words4]. lia.
Qed.

Lemma tx_run_trace : forall U,
  let outs := run (tx_step 8) txs_init (tx_trace 0 U) in
  map tx_line_of outs =
    firstn (length outs) ((false, false, false) :: line_idle :: rep4 (map nz_out (nz_states NzIdle (map fit_of (uobs txu_init U)))))
  /\ length (filter tx_ready_of outs) = (4 * length (filter rdy_of (uobs txu_init U)))%nat.
Proof.
  intros [|[d v] U] outs; subst outs; [split; reflexivity|].
  rewrite run_length, tx_trace_length.
  cbn [tx_trace run fst snd uobs map filter]. unfold txs_init. rewrite tx_step_normal. cbv iota.
  set (u1 := txu_next 8 txu_init d v).
  destruct (tx_run_cycles U u1 (txio_next txio_init (u_fit_dat txu_init) (u_fit_oe txu_init))) as [R1 R2].
  cbn [map filter]. rewrite tx_line_of_out, tx_ready_of_out, R1. split.
  - pose proof (txio_run_line (false, false) (map fit_of (uobs u1 U))) as TL. rewrite map_length, uobs_length in TL. exact TL.
  - change (rdy_of (out3 txu_init v)) with false. change (u_ready txu_init v) with false. exact R2.
Qed.

(* C25: every packet of a UTMI session appears as SYNC, stuffed NRZI data, EOP at four steps per symbol; tx_ready once per byte *)
Theorem tx_session_line : forall ph, Forall phase_ok ph ->
  let U := tx_session_in 8 txu_init ph in
  let outs := run (tx_step 8) txs_init (tx_trace 0 U) in
  map tx_line_of outs =
    firstn (length outs) ((false, false, false) :: line_idle ::
                          rep4 (flat_map (fun p => phase_line (fst p) (length (snd p))) ph))
  /\ length (filter tx_ready_of outs) = (4 * length (flat_map fst ph))%nat.
Proof.
  intros ph Hok U outs. subst U outs.
  destruct (session_obs ph txu_init txu_init_quiet Hok) as [SF SR].
  pose proof (tx_run_trace (tx_session_in 8 txu_init ph)) as T. cbv zeta in T. destruct T as [L R].
  rewrite SF, (session_line ph NzIdle (or_introl eq_refl) Hok) in L. rewrite SR in R. split; assumption.
Qed.
