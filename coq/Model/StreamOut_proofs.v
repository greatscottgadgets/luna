(* C13 -- the bulk OUT endpoint (Model/StreamOut.v).  The packet-level specification machine ss_next delivers whole
   packets (ss_whole_packets_from: delivered ++ queued = framed payloads of the accepted packets) and answers by the
   rules of ss_response and ss_toggle.  so_refines: the code-shaped model (boundary detector + glue registers +
   pointer FIFO) shows in every cycle the outputs (ack, nak, stream) of the specification, for every mps >= 1, every
   depth and all histories that keep the environment assumption.  The simulation relation R is pkt_rel and fifo_rel
   (C16_OutTrack_proofs.v), which the two OUT endpoints share, together with reg_rel (the glue registers) and
   buf_rel (the uncommitted part of the buffer).  so_model_stream and so_model_handshakes carry the specification's
   properties over to the model; so_packed_refines is the form the lock-step tie composes with. *)
From Coq Require Import NArith List Bool Arith Lia.
Import ListNotations.
From LunaLib Require Import Netlist Machine PackN ListFacts SymWord.
From LunaModel Require Import BoundaryDet BoundaryDet_proofs TxFifo TxFifo_proofs C16_OutTrack C16_OutTrack_proofs
  IsoOut StreamOut.
Open Scope nat_scope.

Section Spec.
  Variable mps depth : nat.
  Notation next := (ss_next mps depth).

  Definition ss_popped (s : ss_state) (i : so_in) : list entry :=
    match t_q s with e :: _ => if u_rdy i then [e] else [] | [] => [] end.
  Fixpoint ss_delivered (s : ss_state) (ins : list so_in) : list entry :=
    match ins with
    | [] => []
    | i :: t => ss_popped s i ++ ss_delivered (next s i) t
    end.

  Definition ss_accept_now (s : ss_state) : list (list entry) :=
    match t_ph s with
    | PReport bs c v =>
        if t_tgt s && c && negb v && negb (t_lost s) && t_new s then [frame (t_start s) (length bs <? mps) bs] else []
    | _ => []
    end.
  Fixpoint ss_accepted_frames (s : ss_state) (ins : list so_in) : list (list entry) :=
    match ins with
    | [] => []
    | i :: t => ss_accept_now s ++ ss_accepted_frames (next s i) t
    end.

  Fixpoint ss_run_state (s : ss_state) (ins : list so_in) : ss_state :=
    match ins with
    | [] => s
    | i :: t => ss_run_state (next s i) t
    end.

  Lemma ss_q_next : forall s i,
    t_q (next s i) = (if u_rdy i && negb (is_nil (t_q s)) then tl (t_q s) else t_q s) ++ concat (ss_accept_now s).
  Proof.
    intros. unfold ss_next, ss_accept_now. cbn [t_q].
    destruct (t_ph s); cbn [concat]; rewrite ?app_nil_r; try reflexivity.
    destruct (_ && t_new s); cbn [concat]; rewrite ?app_nil_r; reflexivity.
  Qed.

  Lemma ss_q_step : forall s i, ss_popped s i ++ t_q (next s i) = t_q s ++ concat (ss_accept_now s).
  Proof.
    intros s i. rewrite ss_q_next, app_assoc. f_equal. unfold ss_popped. destruct (t_q s), (u_rdy i); reflexivity.
  Qed.

  (* C13: the consumer sees whole packets only, in order, framed as ss_accept_now says: `first` where a transfer
     starts, `last` at the end of a packet shorter than mps *)
  Theorem ss_whole_packets_from : forall ins s,
    ss_delivered s ins ++ t_q (ss_run_state s ins) = t_q s ++ concat (ss_accepted_frames s ins).
  Proof.
    induction ins as [|i t IH]; intro s; cbn [ss_delivered ss_run_state ss_accepted_frames concat].
    - rewrite app_nil_r. reflexivity.
    - rewrite <- app_assoc, IH, app_assoc, ss_q_step, concat_app, app_assoc. reflexivity.
  Qed.

  (* a data packet with the previous toggle is ACKed: the host missed our ACK *)
  Lemma ss_response : forall s i, u_tgt i = true -> u_rfr i = true -> u_ping i = false ->
    let o := ss_outf mps depth s i in
    (ss_match s i = true -> v_ack o = negb (ss_lost_now depth s i || t_lost s) /\ v_nak o = (ss_lost_now depth s i || t_lost s)) /\
    (ss_match s i = false -> v_ack o = true /\ v_nak o = false).
  Proof.
    intros s i Ht Hr Hp. unfold ss_outf, ss_accepted. rewrite Ht, Hr, Hp. cbn [andb orb].
    split; intro Hm; rewrite Hm; cbn [andb negb orb];
      destruct (t_q s); cbn [v_ack v_nak]; destruct (ss_lost_now depth s i), (t_lost s); split; reflexivity.
  Qed.

  Lemma ss_toggle : forall s i, u_clr i = false ->
    t_tog (next s i) = if u_tgt i && u_rfr i && ss_match s i && negb (ss_lost_now depth s i || t_lost s)
                       then negb (t_tog s) else t_tog s.
  Proof.
    intros s i Hc. unfold ss_next, ss_accepted. cbn [t_tog]. rewrite Hc.
    destruct (u_tgt i), (u_rfr i), (ss_match s i), (ss_lost_now depth s i), (t_lost s); reflexivity.
  Qed.

  Fixpoint so_transfers (ins : list so_in) (outs : list so_out) : list entry :=
    match ins, outs with
    | i :: ti, o :: to =>
        (if v_valid o && u_rdy i then [{| e_data := v_data o; e_first := v_first o; e_last := v_last o |}] else [])
        ++ so_transfers ti to
    | _, _ => []
    end.

  Lemma so_transfers_spec : forall ins s, so_transfers ins (ss_run mps depth s ins) = ss_delivered s ins.
  Proof.
    induction ins as [|i t IH]; intro s; [reflexivity|].
    cbn [ss_run so_transfers ss_delivered]. rewrite IH. f_equal.
    unfold ss_outf, ss_popped. destruct (t_q s) as [|[d f l] q]; [reflexivity|].
    cbn [v_valid v_data v_first v_last andb e_data e_first e_last]. reflexivity.
  Qed.

  Lemma so_transfers_norm : forall ins outs, so_transfers ins (map so_norm outs) = so_transfers ins outs.
  Proof.
    induction ins as [|i t IH]; intros [|o outs]; try reflexivity.
    cbn [map so_transfers]. rewrite IH. f_equal. unfold so_norm. destruct (v_valid o) eqn:E; [rewrite E; reflexivity|].
    reflexivity.
  Qed.
End Spec.

Section Refine.
  Variable mps depth : nat.
  Notation ss_lost_now := (ss_lost_now depth).
  Notation ss_stored := (ss_stored depth).
  Notation ss_accepted := (ss_accepted depth).
  Notation ss_suff := (ss_suff mps depth).

  (* entries of the open packet that are in the buffer (uncommitted), when no byte was lost.  The suffix 13 = C13,
     here and in enc_list13, dec_list13, dec_entry13, marks the counterparts of IsoOut_proofs.stored, enc_list,
     dec_list, dec_entry (the last three with the same bodies; no file imports both). *)
  Definition stored13 (s : ss_state) : list entry :=
    fwd_entries (t_start s) (length (ph_bytes (t_ph s)) <? mps) (t_ph s).

  (* the endpoint's registers; in the cycle after a packet's first byte the gateware's "new packet" pulse can come
     again (see newpkt_rel), hence the last clause *)
  Definition reg_rel (m : so_state) (s : ss_state) : Prop :=
    n_tog m = t_tog s /\ n_ovf m = t_lost s /\ n_act m = t_act s /\ n_nact m = t_full s /\ h_new m = t_new s /\
    n_cnt m = (N.of_nat (t_n s) mod 2 ^ cnt_width mps)%N /\
    h_fwd m = (0 <? n_fwd (t_ph s)) /\
    match t_ph s with POpen bs _ _ _ => length bs = 1 -> t_lost s = false /\ t_full s = false | _ => True end.

  (* the uncommitted part of the buffer: t_n entries; as long as no byte was lost they are those of the open
     packet if it is new data, and there are none if it is not *)
  Definition buf_rel (m : so_state) (s : ss_state) : Prop :=
    let P := aq_pend (tf_abs depth (n_ff m)) in
    let k := n_fwd (t_ph s) in
    length P = t_n s /\ t_n s <= k /\
    (* bytes are stored of addressed packets only: commit / discard, which empty P and clear rx_cnt, come for no
       others, and E4, which keeps rx_cnt from wrapping, bounds no others *)
    (0 < t_n s -> t_tgt s = true) /\ (0 < k -> t_new s = true -> t_tgt s = true) /\
    (t_lost s = false -> 0 < k ->
       P = (if t_new s then map enc_entry (stored13 s) else []) /\ (t_new s = true -> t_n s = k)).

  Definition R (m : so_state) (s : ss_state) : Prop :=
    pkt_rel mps (n_bd m) (h_tgt m) (h_cnt m) (t_ph s) (t_tgt s) /\ reg_rel m s /\
    fifo_rel depth (n_ff m) (t_q s) (t_tent s) /\ buf_rel m s.

  Lemma R_init : R (so_init depth) ss_init.
  Proof.
    split; [split; [apply bd_rel_init | repeat split; try constructor; discriminate]|].
    split; [repeat split|]. split; [apply fifo_rel_init|].
    unfold buf_rel. cbn [so_init ss_init n_ff t_ph t_n n_fwd]. rewrite abs_init. repeat split; intros; lia.
  Qed.

  Lemma ss_env_rx : forall s i, ss_env mps s i = true -> rx_env mps (t_tgt s) (t_ph s) (u_tgt i) (u_rx i) = true.
  Proof.
    intros s i H. unfold ss_env in H. unfold rx_env. apply andb_true_iff in H as [-> H].
    destruct (t_ph s); [reflexivity | | |].
    - apply andb_true_iff in H as [H ->]. do 3 apply andb_true_iff in H as [H _]. rewrite H. reflexivity.
    - do 2 apply andb_true_iff in H as [H _]. apply andb_true_iff in H as [-> H].
      apply negb_true_iff in H. rewrite H. reflexivity.
    - apply andb_true_iff in H as [_ H]. exact H.
  Qed.

  Lemma ss_env_open : forall s i, ss_env mps s i = true -> ph_open (t_ph s) ->
    u_tgt i = t_tgt s /\ (0 < n_fwd (t_ph s) -> t_tgt s && ss_match s i = t_new s).
  Proof.
    intros s i H Ho. unfold ss_env in H.
    destruct (t_ph s); try contradiction; rewrite !andb_true_iff in H;
      [destruct H as (_ & (((Hxt & _) & _) & Hn) & _) | destruct H as (_ & ((Hxt & _) & _) & Hn)];
      (split; [apply eqb_prop, Hxt|]; intro K; apply Nat.ltb_lt in K; rewrite K in Hn; apply eqb_prop, Hn).
  Qed.

  Lemma ss_env_report : forall s i bs c v, ss_env mps s i = true -> t_ph s = PReport bs c v ->
    r_valid (u_rx i) = false /\ (c || v = true -> u_tgt i = t_tgt s).
  Proof.
    intros s i bs c v H E. unfold ss_env in H. rewrite E in H. apply andb_true_iff in H as [_ H].
    apply andb_true_iff in H as [Hv H]. split; [apply negb_true_iff, Hv|]. intro Hcv. rewrite Hcv in H. apply eqb_prop, H.
  Qed.

  (* write-port strobes of the FIFO, in terms of the specification state *)
  Definition ss_commit (s : ss_state) : bool :=
    match t_ph s with PReport _ c v => t_tgt s && c && negb (t_lost s) | _ => false end.
  Definition ss_discard (s : ss_state) : bool :=
    match t_ph s with PReport _ c v => t_tgt s && (v || (c && t_lost s)) | _ => false end.

  Lemma cnt_succ : forall w n, ((N.of_nat n mod 2 ^ w + 1) mod 2 ^ w = N.of_nat (S n) mod 2 ^ w)%N.
  Proof.
    intros w n. rewrite Nat2N.inj_succ, <- N.add_1_r.
    rewrite N.add_mod_idemp_l by apply pow2_nz. reflexivity.
  Qed.

  Section Step.
    Variables (m : so_state) (s : ss_state) (i : so_in).
    Hypothesis HR : R m s.
    Hypothesis Henv : ss_env mps s i = true.
    Let k := so_sig mps depth m i.

    Lemma okay_facts : ss_okay s i = true -> t_tgt s = true /\ t_n s <= mps - 1.
    Proof.
      intro Hs. unfold ss_okay in Hs.
      destruct HR as ((Hbd & _ & _ & _ & Hlen & _) & _ & _ & (_ & Hnk & _ & Hnt & _)).
      destruct (fwd (t_ph s)) as [[[p fi] la]|] eqn:E; [|discriminate].
      destruct (fwd_first _ _ Hbd _ _ _ E) as [E0 Hk]. destruct (ss_env_open s i Henv (fwd_open _ _ E)) as [Hxt _].
      assert (Ht : t_tgt s = true).
      { destruct fi; [apply andb_true_iff in Hs as [Hs _]; congruence|].
        apply Nat.eqb_neq in E0. apply Hnt; [lia | exact Hs]. }
      split; [exact Ht|]. specialize (Hlen Ht). lia.
    Qed.

    Lemma held_rel : aq_held (tf_abs depth (n_ff m)) = ss_held s.
    Proof.
      destruct HR as (_ & _ & Hff & (Hpl & _)). destruct (fifo_rel_held depth _ _ _ Hff) as (-> & _).
      rewrite Hpl. reflexivity.
    Qed.

    Lemma sig_rel :
      k_lost k = ss_lost_now s i /\ k_wen k = ss_stored s i /\ k_accepted k = ss_accepted s i /\
      k_suff k = ss_suff s /\ k_commit k = ss_commit s /\ k_discard k = ss_discard s /\
      k_skip k = (u_tgt i && negb (ss_match s i)) /\
      (ss_stored s i = true -> k_fullpkt k = (t_n s =? mps - 1)) /\
      (forall x, (if k_lastw k then k_fullpkt k else x) =
                 match fwd (t_ph s) with Some (_, _, true) => if ss_stored s i then t_n s =? mps - 1 else x | _ => x end).
    Proof.
      pose proof held_rel as Hheld.
      destruct HR as ((Hbd & _) & (Htog & Hovf & _ & _ & _ & Hcnt & _) & Hff & _).
      destruct (fifo_rel_held depth _ _ _ Hff) as (_ & Hsp & Hfull). rewrite Hheld in Hsp, Hfull.
      pose proof (bd_fwd_rel _ _ Hbd) as Hfw. pose proof (bd_strobes_rel _ _ Hbd) as Hst.
      assert (Hoky : k_okay k && is_some (bd_fwd (n_bd m)) = ss_okay s i).
      { rewrite Hfw. destruct (fwd (t_ph s)) as [[[p fi] la]|] eqn:E.
        - cbn [is_some]. rewrite andb_true_r. unfold k, so_sig, ss_okay, ss_match. cbn [k_okay]. rewrite Htog, E.
          destruct fi; [reflexivity|]. destruct (fwd_first _ _ Hbd _ _ _ E) as [E0 _].
          apply Nat.eqb_neq in E0. destruct (ss_env_open s i Henv (fwd_open _ _ E)) as [-> Hn]. apply Hn. lia.
        - unfold ss_okay. rewrite E. apply andb_false_r. }
      assert (Hwen : k_wen k = ss_stored s i) by (unfold ss_stored; rewrite <- Hoky, <- Hfull; reflexivity).
      assert (Hlost : k_lost k = ss_lost_now s i) by (unfold ss_lost_now; rewrite <- Hoky, <- Hfull; reflexivity).
      split; [exact Hlost|]. split; [exact Hwen|].
      split; [unfold ss_accepted, ss_match; rewrite <- Hlost, <- Htog, <- Hovf; reflexivity|].
      split; [unfold ss_suff; rewrite <- Hsp; reflexivity|].
      assert (Hcd : k_commit k = ss_commit s /\ k_discard k = ss_discard s).
      { unfold k, so_sig, ss_commit, ss_discard. cbn [k_commit k_discard]. rewrite Hovf.
        destruct (t_ph s) as [|bs c v fresh|bs c v|bs c v] eqn:E; cbn [strobes] in Hst; injection Hst as -> ->;
          rewrite ?andb_false_r; try (split; reflexivity).
        destruct (ss_env_report s i _ _ _ Henv E) as [_ Hxt].
        destruct c, v; rewrite ?andb_false_r; try rewrite (Hxt eq_refl); split; reflexivity. }
      split; [apply Hcd|]. split; [apply Hcd|].
      split; [unfold ss_match; rewrite <- Htog; reflexivity|].
      assert (Kfull : ss_stored s i = true -> k_fullpkt k = (t_n s =? mps - 1)).
      { intro Hs. apply andb_true_iff in Hs as [Hs _]. destruct (okay_facts Hs) as [_ Hn]. unfold k, so_sig. cbn [k_fullpkt].
        rewrite Hcnt, N.mod_small by (apply ptr_lt, Hn).
        clear - Hn. (* all that lia needs *)
        destruct (Nat.eqb_spec (t_n s) (mps - 1)) as [E|E]; [apply N.eqb_eq | apply N.eqb_neq]; lia. }
      split; [exact Kfull|]. intro x.
      replace (k_lastw k) with (ss_stored s i && match fwd (t_ph s) with Some (_, _, la) => la | None => false end)
        by (rewrite <- Hfw, <- Hwen; reflexivity).
      destruct (fwd (t_ph s)) as [[[p fi] [|]]|]; rewrite ?andb_false_r; try reflexivity.
      destruct (ss_stored s i); [rewrite (Kfull eq_refl)|]; reflexivity.
    Qed.

    Lemma R_out : so_norm (so_outf mps depth m i) = ss_outf mps depth s i.
    Proof.
      destruct sig_rel as (_ & _ & Hacc & Hsuff & _ & _ & Hskip & _).
      destruct HR as (_ & _ & Hff & _). destruct (fifo_rel_out depth _ _ _ Hff) as [Hem Hrd].
      unfold so_outf, ss_outf, so_norm. cbn [v_valid v_ack v_nak]. fold k. rewrite Hacc, Hsuff, Hskip, Hem.
      change (k_drr k) with (u_tgt i && u_rfr i).
      destruct (t_q s) as [|e q]; [reflexivity|]. destruct (Hrd e q eq_refl) as (-> & -> & ->). reflexivity.
    Qed.

    (* the gateware's "new packet" pulse may come once more in the cycle after the packet's first byte (processed-side
       valid is still low); it then finds the flags it clears already clear *)
    Lemma newpkt_rel : forall x, x = t_lost s \/ x = t_full s ->
      (if k_newpkt k then false else x) = (if r_valid (u_rx i) && ph_idle (t_ph s) then false else x).
    Proof.
      intros x Hx. destruct HR as ((Hbd & _) & (_ & _ & _ & _ & _ & _ & _ & Hyoung) & _).
      pose proof (bd_valid_rel _ _ Hbd) as Hval. unfold k, so_sig. cbn [k_newpkt].
      destruct (t_ph s) as [|bs c v fresh|bs c v|bs c v]; cbn [ph_idle]; try (rewrite Hval, !andb_false_r; reflexivity).
      - rewrite Hval. reflexivity.
      - destruct Hbd as (_ & Hne & _). rewrite andb_false_r.
        destruct (o_valid (out (n_bd m))); [rewrite andb_false_r; reflexivity|].
        assert (L : length bs = 1).
        { destruct bs as [|a [|b t]]; [congruence | reflexivity | discriminate (Hval ltac:(cbn [length]; lia))]. }
        destruct (Hyoung L) as [E1 E2].
        destruct Hx as [-> | ->]; rewrite ?E1, ?E2; destruct (r_valid _ && _); reflexivity.
    Qed.

    Lemma reg_rel_step : reg_rel (so_next mps depth m i) (ss_next mps depth s i).
    Proof.
      destruct sig_rel as (Klost & Kwen & Kacc & _ & Kcom & Kdis & _ & _ & Kfl).
      pose proof (newpkt_rel _ (or_introl eq_refl)) as Nlost. pose proof (newpkt_rel _ (or_intror eq_refl)) as Nfull.
      destruct HR as ((Hbd & _ & _ & _ & _ & Hx) & (Htog & Hovf & Hact & Hnact & Hnew & Hcnt & Hfwd & Hyoung) & _ &
                      (_ & _ & Hnn & _)).
      unfold reg_rel, so_next, ss_next.
      cbn [n_tog n_ovf n_cnt n_act n_nact h_new h_fwd t_ph t_tgt t_new t_n t_lost t_full t_tog t_act].
      fold k. rewrite !Kfl, Klost, Kwen, Kacc, Kcom, Kdis, (bd_fwd_rel _ _ Hbd), Htog, Hovf, Hact, Hnact, Hnew, Hcnt.
      change (k_drr k) with (u_tgt i && u_rfr i). rewrite Nlost, Nfull. clear Nlost Nfull Klost Kwen Kacc Kcom Kdis Kfl.
      split; [reflexivity|]. split; [reflexivity|]. split; [reflexivity|]. split; [reflexivity|].
      split.
      { destruct (fwd (t_ph s)) as [[[p [|]] la]|]; try reflexivity.
        unfold k, so_sig, ss_match. cbn [k_okay]. rewrite Htog. reflexivity. }
      (* of fwd_entries_next only the count of forwarded bytes is used, which the flags do not enter *)
      pose proof (fwd_entries_next _ _ (u_rx i) true true true Hbd) as Hnext.
      unfold ss_commit, ss_discard, ss_lost_now, ss_stored, ss_okay, fwd_entry in *.
      destruct (t_ph s) as [|bs c v fresh|bs c v|bs c v] eqn:E; cbn [fwd trk_next orb andb ph_idle] in *.
      - (* no packet *)
        destruct Hbd as (-> & _). rewrite trk_start_fwd. split; [reflexivity|]. split; [reflexivity|].
        unfold trk_start. destruct (r_valid (u_rx i)); [|exact I]. destruct (r_next (u_rx i)); [|exact I].
        split; reflexivity.
      - (* a packet is open *)
        destruct Hbd as (-> & Hne & _ & _ & _ & _ & _ & _ & _ & _ & _ & _ & Hfr). destruct (Hnext I) as [Hn' _].
        split; [destruct (match (if fresh then _ else _) with Some _ => _ | None => _ end && _);
                  [apply cnt_succ | reflexivity]|].
        split.
        { rewrite Hfwd, Hn'.
          destruct fresh; cbn [is_some length]; [rewrite orb_true_r, Nat.add_1_r | rewrite orb_false_r, Nat.add_0_r];
            reflexivity. }
        destruct (r_valid (u_rx i)); cbn [negb]; [|exact I]. destruct (r_next (u_rx i)).
        + rewrite app_length. cbn [length]. intro L. pose proof (length_pos bs Hne). lia.
        + intro L. destruct fresh; [destruct (Hfr eq_refl); lia|]. exact (Hyoung L).
      - (* the last byte is forwarded *)
        destruct Hbd as (-> & _). destruct (Hnext I) as [Hn' _].
        split; [destruct (_ && _); [apply cnt_succ | reflexivity]|].
        split; [|exact I]. rewrite Hfwd. cbn [n_fwd] in *. rewrite Hn'. cbn [length].
        rewrite orb_true_r, Nat.add_1_r. reflexivity.
      - (* report *)
        destruct Hbd as (-> & _). destruct (ss_env_report s i _ _ _ Henv E) as [Hrv _].
        unfold trk_start. rewrite Hrv. split; [|split; [reflexivity | exact I]].
        (* rx_cnt is back at 0: an addressed packet is committed or discarded (E3), of any other nothing was stored *)
        destruct (t_tgt s).
        + specialize (Hx eq_refl). destruct c, v; try discriminate; [destruct (t_lost s)|]; reflexivity.
        + destruct (t_n s); [reflexivity | discriminate (Hnn ltac:(lia))].
    Qed.

    (* `new` are the entries behind a commit *)
    Lemma so_fifo_step : forall new,
      let P := aq_pend (tf_abs depth (n_ff m)) in
      map enc_entry new = (if ss_discard s then [] else if ss_commit s then P else []) ->
      Forall (fun e => (e_data e < 256)%N) new ->
      let pop := u_rdy i && negb (is_nil (t_q s)) in
      let ff' := n_ff (so_next mps depth m i) in
      fifo_rel depth ff' ((if pop then tl (t_q s) else t_q s) ++ new) pop /\
      aq_pend (tf_abs depth ff') =
        if ss_discard s then []
        else (if ss_commit s then [] else P) ++
             match fwd (t_ph s) with
             | Some (p, fi, la) =>
                 if ss_stored s i
                 then [enc_entry {| e_data := p; e_first := fi && negb (t_act s); e_last := la && negb (t_n s =? mps - 1) |}]
                 else []
             | None => []
             end.
    Proof.
      intros new P Hnew Hnq pop ff'. subst ff'. cbn [so_next n_ff].
      destruct sig_rel as (_ & Kwen & _ & _ & Kcom & Kdis & _ & Kfull & _).
      destruct HR as ((Hbd & _) & (_ & _ & Hact & _) & Hff & _).
      rewrite <- Kcom, <- Kdis in *.
      destruct (fifo_rel_step depth _ _ _ (so_fifo_in mps depth m i) new Hff eq_refl eq_refl Hnew Hnq) as [Hff' ->].
      split; [exact Hff'|]. cbn [so_fifo_in fi_write_en fi_write_commit fi_write_discard fi_write_data]. fold k. fold P.
      rewrite held_rel, Kwen, (bd_fwd_rel _ _ Hbd), Hact.
      replace (ss_stored s i && negb (ss_held s =? depth)) with (ss_stored s i)
        by (unfold ss_stored; destruct (ss_okay s i), (ss_held s =? depth); reflexivity).
      destruct (k_discard k); [reflexivity|]. f_equal.
      destruct (ss_stored s i) eqn:Es; [|destruct (fwd (t_ph s)) as [[[? ?] ?]|]; reflexivity].
      rewrite (Kfull eq_refl). destruct (fwd (t_ph s)) as [[[? ?] ?]|] eqn:E; [reflexivity|].
      unfold ss_stored, ss_okay in Es. rewrite E in Es. discriminate.
    Qed.

    Let m' := so_next mps depth m i.
    Let s' := ss_next mps depth s i.

    Lemma buf_step_open : ph_open (t_ph s) -> fifo_rel depth (n_ff m') (t_q s') (t_tent s') /\ buf_rel m' s'.
    Proof.
      intro Ho.
      assert (Hs' : ss_commit s = false /\ ss_discard s = false /\
                    t_q s' = (if u_rdy i && negb (is_nil (t_q s)) then tl (t_q s) else t_q s) /\ t_tgt s' = t_tgt s /\
                    t_n s' = (if ss_stored s i then S (t_n s) else t_n s) /\
                    t_lost s' = (if ss_lost_now s i then true else t_lost s)).
      { unfold ss_commit, ss_discard, s', ss_next. cbn [t_q t_tgt t_n t_lost].
        destruct (t_ph s); try contradiction; rewrite andb_false_r; repeat split. }
      destruct Hs' as (Hcom & Hdis & Hq' & Htgt' & Hn' & Hlost').
      destruct (so_fifo_step []) as [Hff' Hpe']; [rewrite Hdis, Hcom; reflexivity | constructor|].
      rewrite app_nil_r, <- Hq' in Hff'. split; [exact Hff'|]. clear Hff' Hq'.
      rewrite Hdis, Hcom in Hpe'. fold m' in Hpe'.
      unfold buf_rel. rewrite Hpe', Htgt', Hn', Hlost'. clear Hpe' Htgt' Hn' Hlost' Hdis Hcom.
      destruct HR as ((Hbd & _ & _ & _ & Hlen & _) & _ & _ & (Hpl & Hnk & Hnn & Hnt & Hpe)).
      (* stored13 reads `last` off the bytes seen so far; fwd_entries looks at it only once the packet has ended *)
      destruct (fwd_entries_next _ _ (u_rx i) (t_start s') (length (ph_bytes (t_ph s')) <? mps)
                  (length (ph_bytes (t_ph s)) <? mps) Hbd Ho) as [Hk' Hst'].
      change (fwd_entries _ _ (trk_next _ _)) with (stored13 s') in Hst'.
      change (n_fwd (trk_next _ _)) with (n_fwd (t_ph s')) in Hk'. rewrite Hst', Hk'. clear Hst' Hk'.
      pose proof okay_facts as Hsf.
      unfold fwd_entry, s', ss_next, ss_stored, ss_lost_now, ss_okay in *. cbn [t_ph t_new t_start].
      destruct (fwd (t_ph s)) as [[[p fi] la]|] eqn:E.
      - destruct (fwd_first _ _ Hbd _ _ _ E) as [Efi Hlt]. cbn [length]. rewrite Nat.add_1_r.
        set (new' := if fi then u_tgt i && ss_match s i else t_new s) in *.
        replace (match fi with true => u_tgt i && ss_match s i | false => t_new s end) with new'
          by (destruct fi; reflexivity).
        set (full := ss_held s =? depth) in *. set (start' := if fi then negb (t_act s) else t_start s).
        set (P := aq_pend (tf_abs depth (n_ff m))) in *.
        (* the invariant about the stored entries, read with the flags as they are after this cycle *)
        assert (HP : t_lost s = false ->
          P = (if new' then map enc_entry (fwd_entries start' (length (ph_bytes (t_ph s)) <? mps) (t_ph s)) else []) /\
          (new' = true -> t_n s = n_fwd (t_ph s))).
        { intro Hl. unfold new', start'.
          destruct fi; [apply Nat.eqb_eq in Efi | apply Nat.eqb_neq in Efi; apply Hpe; [exact Hl | lia]].
          rewrite (fwd_entries_0 _ _ _ Efi). rewrite Efi in Hnk. split; [|lia].
          replace P with (@nil N) by (symmetry; apply length_zero_iff_nil; lia). destruct (u_tgt i && _); reflexivity. }
        split; [destruct (new' && negb full); rewrite ?app_nil_r, ?app_length, Hpl; cbn [length]; lia|].
        split; [destruct (new' && negb full); lia|].
        split; [destruct new'; [intros _; apply Hsf; reflexivity | exact Hnn]|].
        split; [intros _ Hn; apply (Hsf Hn)|].
        intros Hl _. destruct new'; cbn [andb] in *.
        + destruct full; [discriminate|]. cbn [negb] in *. destruct (HP Hl) as [-> Hn]. destruct (Hsf eq_refl) as [Ht Hm].
          rewrite (Hn eq_refl) in *. split; [|reflexivity].
          assert (Ef : fi && negb (t_act s) = start' && fi)
            by (unfold start'; destruct fi; [symmetry; apply andb_true_r | rewrite andb_false_r; reflexivity]).
          assert (El : la && negb (n_fwd (t_ph s) =? mps - 1)
                       = (length (ph_bytes (trk_next (t_ph s) (u_rx i))) <? mps) && la).
          { destruct la; [|rewrite andb_false_r; reflexivity].
            destruct (fwd_last_spec _ _ Hbd _ _ (u_rx i) E) as [-> Hlen']. specialize (Hlen Ht). rewrite Hlen' in *.
            clear - Hlen. (* all that lia needs *) rewrite andb_true_r.
            destruct (Nat.eqb_spec (n_fwd (t_ph s)) (mps - 1)), (Nat.ltb_spec (S (n_fwd (t_ph s))) mps);
              try reflexivity; lia. }
          rewrite Ef, El, map_app. reflexivity.
        + destruct (HP Hl) as [-> _]. split; [reflexivity | discriminate].
      - cbn [andb length]. rewrite Nat.add_0_r, !app_nil_r.
        split; [exact Hpl|]. split; [exact Hnk|]. split; [exact Hnn|]. split; [exact Hnt | exact Hpe].
    Qed.

    Lemma buf_step_closed : ~ ph_open (t_ph s) -> fifo_rel depth (n_ff m') (t_q s') (t_tent s') /\ buf_rel m' s'.
    Proof.
      intro Hcl. destruct HR as ((_ & _ & _ & Hby & _ & Hx) & _ & _ & (Hpl & Hnk & Hnn & _ & Hpe)).
      set (P := aq_pend (tf_abs depth (n_ff m))) in *.
      assert (Hs' : fwd (t_ph s) = None /\ t_ph s' = trk_start (u_rx i) /\ t_n s' = 0).
      { unfold s', ss_next, ss_stored, ss_okay. cbn [t_ph t_n].
        destruct (t_ph s); try (contradiction Hcl; exact I); cbn [n_fwd fwd andb] in *; repeat split. lia. }
      destruct Hs' as (Hf & Hph' & Hn').
      (* addressed packets end with exactly one of complete / invalid; of the others nothing was stored *)
      assert (HP : t_tgt s = false -> P = [])
        by (intro Ht; apply length_zero_iff_nil; destruct (t_n s); [exact Hpl | rewrite Ht in Hnn; discriminate Hnn; lia]).
      assert (Hw : map enc_entry (concat (ss_accept_now mps s)) = (if ss_discard s then [] else if ss_commit s then P else []) /\
                   (if ss_discard s then [] else if ss_commit s then [] else P) = []).
      { unfold ss_accept_now, ss_discard, ss_commit, stored13 in *.
        destruct (t_ph s) as [|bs c v fresh|bs c v|bs c v]; try (contradiction Hcl; exact I);
          cbn [fwd_entries n_fwd ph_bytes] in *.
        - split; [reflexivity | apply length_zero_iff_nil; lia].
        - destruct (t_tgt s); [|rewrite (HP eq_refl); split; reflexivity].
          specialize (Hx eq_refl). destruct c, v; try discriminate; [|split; reflexivity].
          destruct (t_lost s); [split; reflexivity|]. cbn [andb negb orb concat]. split; [|reflexivity].
          destruct (Nat.ltb_spec 0 (length bs)) as [K|K];
            [rewrite (proj1 (Hpe eq_refl K)); destruct (t_new s); cbn [concat]; rewrite ?app_nil_r; reflexivity|].
          replace bs with (@nil N) in * by (destruct bs; [reflexivity | cbn [length] in K; lia]).
          replace P with (@nil N) by (symmetry; apply length_zero_iff_nil; cbn [length] in Hnk; lia).
          destruct (t_new s); reflexivity. }
      destruct (so_fifo_step _ (proj1 Hw)) as [Hff' Hpe'].
      { unfold ss_accept_now. destruct (t_ph s) as [| | |bs c v]; try constructor.
        destruct (t_tgt s && c && negb v && negb (t_lost s) && t_new s); cbn [concat]; rewrite ?app_nil_r;
          [apply frame_data_lt, Hby | constructor]. }
      fold m' in Hff', Hpe'. rewrite Hf, app_nil_r in Hpe'.
      split; [unfold s'; rewrite ss_q_next; exact Hff'|].
      unfold buf_rel. cbv zeta. rewrite Hph', trk_start_fwd, Hn', Hpe'. fold P. rewrite (proj2 Hw).
      repeat split; try lia; reflexivity.
    Qed.

    Lemma R_env : so_env mps m i = ss_env mps s i.
    Proof.
      destruct HR as ((Hbd & Hgt & Hcnt & _) & (Htog & _ & _ & _ & Hnew & _ & Hfwd & _) & _).
      unfold so_env, ss_env, ss_match. rewrite Hgt, Hnew, Htog. f_equal.
      destruct (t_ph s) as [|bs c v fresh|bs c v|bs c v].
      - destruct Hbd as (Hf & Hv & _). rewrite Hf, Hv. reflexivity.
      - destruct Hbd as (Hf & _ & _ & _ & Hc & Hv & _). rewrite Hf, Hc, Hv, Hcnt, Hfwd, min_ltb. reflexivity.
      - destruct Hbd as (Hf & _). rewrite Hf, Hfwd. reflexivity.
      - destruct Hbd as (Hf & Hov & _ & Hc & Hv). rewrite Hf, Hov, Hc, Hv. reflexivity.
    Qed.
  End Step.

  (* for pkt_rel_step: a packet of one byte is within mps *)
  Hypothesis Hmps : 1 <= mps.

  Lemma R_step : forall m s i, R m s -> ss_env mps s i = true -> R (so_next mps depth m i) (ss_next mps depth s i).
  Proof.
    intros m s i HR Henv.
    split; [exact (pkt_rel_step mps Hmps _ _ _ _ _ _ _ (proj1 HR) (ss_env_rx s i Henv))|].
    split; [exact (reg_rel_step m s i HR Henv)|].
    destruct (ph_open_dec (t_ph s)); [apply buf_step_open | apply buf_step_closed]; assumption.
  Qed.

  Theorem so_refines_from : forall ins m s, R m s -> ss_env_ok mps depth s ins = true ->
    map so_norm (so_run mps depth m ins) = ss_run mps depth s ins.
  Proof.
    induction ins as [|i t IH]; intros m s HR HE; [reflexivity|].
    cbn [ss_env_ok] in HE. apply andb_true_iff in HE as [He Ht].
    cbn [so_run ss_run map]. rewrite (R_out m s i HR He). f_equal.
    apply IH; [apply R_step; assumption | exact Ht].
  Qed.
End Refine.

Theorem so_refines : forall mps depth, 1 <= mps -> forall ins,
  ss_env_ok mps depth ss_init ins = true ->
  map so_norm (so_run mps depth (so_init depth) ins) = ss_run mps depth ss_init ins.
Proof. intros mps depth H ins HE. apply (so_refines_from mps depth H ins _ _ (R_init mps depth) HE). Qed.

Theorem so_model_stream : forall mps depth, 1 <= mps -> forall ins,
  ss_env_ok mps depth ss_init ins = true ->
  so_transfers ins (so_run mps depth (so_init depth) ins) ++ t_q (ss_run_state mps depth ss_init ins)
  = concat (ss_accepted_frames mps depth ss_init ins).
Proof.
  intros mps depth H ins HE.
  rewrite <- so_transfers_norm, (so_refines mps depth H ins HE), so_transfers_spec.
  apply (ss_whole_packets_from mps depth ins ss_init).
Qed.

Theorem so_model_handshakes : forall mps depth, 1 <= mps -> forall ins,
  ss_env_ok mps depth ss_init ins = true ->
  map (fun o => (v_ack o, v_nak o)) (so_run mps depth (so_init depth) ins)
  = map (fun o => (v_ack o, v_nak o)) (ss_run mps depth ss_init ins).
Proof.
  intros mps depth H ins HE. rewrite <- (so_refines mps depth H ins HE), map_map.
  apply map_ext. intro o. unfold so_norm. destruct (v_valid o); reflexivity.
Qed.

Definition so_wf (mps depth : nat) (m : so_state) : Prop :=
  bd_wf (n_bd m) /\ tf_wf depth 10 (n_ff m) /\ (n_cnt m < 2 ^ cnt_width mps)%N /\ h_cnt m <= S mps.

Lemma so_wf_init : forall mps depth, so_wf mps depth (so_init depth).
Proof.
  intros. split; [exact bd_wf_init|]. split; [apply tf_wf_init|]. split; [apply pow2_pos | cbn; lia].
Qed.

Lemma so_dec_enc : forall mps depth m, so_wf mps depth m -> so_dec mps depth (so_enc mps depth m) = m.
Proof.
  intros mps depth [bd ff tg ov cn ac na ht hn hc hf] (Hb & Hf & Hcn & Hc).
  cbn [n_bd n_ff n_tog n_ovf n_cnt n_act n_nact h_tgt h_new h_cnt h_fwd] in *.
  unfold so_dec, so_enc. cbn [n_bd n_ff n_tog n_ovf n_cnt n_act n_nact h_tgt h_new h_cnt h_fwd]. cbv zeta.
  rewrite !N.land_ones, !N.shiftr_div_pow2.
  pose proof (tf_enc2_lt depth ff Hf) as Hlt. pose proof (ptr_lt _ _ Hc : (_ < 2 ^ hcnt_bits mps)%N) as Hc'.
  rewrite !PackN.pk_div, !PackN.pk_mod by first [apply b2n_lt2 | assumption].
  rewrite !nb_b2n, Nat2N.id, tf_dec_enc2 by assumption. rewrite bd_dec2_eq, bd_dec_enc by assumption. reflexivity.
Qed.

Lemma so_wf_step : forall mps depth ep m w, so_wf mps depth m -> so_wf mps depth (fst (so_mstep mps depth ep m w)).
Proof.
  intros mps depth ep m w (Hb & Hf & Hcn & Hc). cbn [so_mstep fst]. unfold so_next, so_wf.
  cbn [n_bd n_ff n_tog n_ovf n_cnt n_act n_nact h_tgt h_new h_cnt h_fwd]. split; [|split; [|split]].
  - apply bd_wf_next; [exact Hb | apply (bits_lt w 21 8)].
  - apply tf_wf_next; [exact Hf|]. unfold so_fifo_in, bd_fwd. cbn [fi_write_data].
    destruct (o_next (out (n_bd m)) && o_valid (out (n_bd m))); [|cbn; lia].
    apply enc_entry_lt. cbn [e_data]. exact (proj1 Hb).
  - pose proof (pow2_pos (cnt_width mps)) as P0.
    destruct (k_commit _ || k_discard _); [exact P0|]. destruct (k_wen _); [|exact Hcn].
    apply N.mod_lt. lia.
  - destruct (fsm (n_bd m)); [lia | | exact Hc].
    destruct (r_valid (u_rx (so_in_of ep w)) && r_next (u_rx (so_in_of ep w))); lia.
Qed.

Lemma so_mrun : forall mps depth ep tr m,
  run (so_mstep mps depth ep) m tr
  = map (fun o => so_out_pack (so_norm o)) (so_run mps depth m (map (so_in_of ep) tr)).
Proof.
  intros. exact (run_packed (fun m i => (so_next mps depth m i, so_outf mps depth m i)) (so_in_of ep)
                   (fun o => so_out_pack (so_norm o)) tr m).
Qed.

Lemma so_out_of_pack : forall o, (v_data o < 256)%N -> so_out_of (so_out_pack o) = o.
Proof.
  intros [a k v f l d] H. unfold so_out_of, so_out_pack. cbn [v_ack v_nak v_valid v_first v_last v_data] in *.
  set (L := [(1, b2n a); (1, b2n k); (1, b2n v); (1, b2n f); (1, b2n l); (8, d)]%N).
  assert (HL : fields_ok L) by (repeat constructor; cbn [fst snd]; try apply b2n_lt2; exact H).
  replace (b2n a + 2 * b2n k + 4 * b2n v + 8 * b2n f + 16 * b2n l + 32 * d)%N with (fields_word L)
    by (subst L; cbn [fields_word]; lia).
  f_equal; [exact (testbit_fields_word L 0 a HL eq_refl) | exact (testbit_fields_word L 1 k HL eq_refl)
           | exact (testbit_fields_word L 2 v HL eq_refl) | exact (testbit_fields_word L 3 f HL eq_refl)
           | exact (testbit_fields_word L 4 l HL eq_refl) | exact (bits_fields_word L 5 HL)].
Qed.

Lemma so_menv_ok : forall mps depth ep, 1 <= mps -> forall tr,
  ss_env_ok mps depth ss_init (map (so_in_of ep) tr) = true ->
  env_ok so_state (so_mstep mps depth ep) (so_menv mps ep) (so_init depth) tr = true.
Proof.
  intros mps depth ep H tr.
  exact (env_carried (so_in_of ep) (R_env mps depth) (R_step mps depth H) tr _ _ (R_init mps depth)).
Qed.

Lemma so_run_data : forall mps depth ins m o, In o (so_run mps depth m ins) -> (v_data o < 256)%N.
Proof.
  induction ins as [|i t IH]; intros m o H; [contradiction|].
  cbn [so_run] in H. destruct H as [<-|H]; [|exact (IH _ _ H)].
  cbn [so_outf v_data]. apply N.mod_lt. discriminate.
Qed.

Theorem so_packed_refines : forall mps depth ep, 1 <= mps -> forall tr,
  ss_env_ok mps depth ss_init (map (so_in_of ep) tr) = true ->
  map (fun w => so_norm (so_out_of w)) (run (so_mstep mps depth ep) (so_init depth) tr)
  = ss_run mps depth ss_init (map (so_in_of ep) tr).
Proof.
  intros mps depth ep H tr HE. rewrite so_mrun, map_map.
  rewrite <- (so_refines mps depth H _ HE).
  apply map_ext_in. intros o Ho.
  assert (Hd : (v_data (so_norm o) < 256)%N)
    by (unfold so_norm; destruct (v_valid o); [exact (so_run_data _ _ _ _ _ Ho) | cbn; lia]).
  rewrite so_out_of_pack by exact Hd. unfold so_norm. destruct (v_valid o) eqn:E; [rewrite E; reflexivity | reflexivity].
Qed.

(* The specification as a runtime oracle (tie.cmon): the state of ss_next packed into one N (bounded encodings as in
   IsoOut_proofs.v; no theorem depends on them).  ss_mon stops -- None -- where ss_env fails and where the open packet
   has more than mps bytes: E4 does not bound a packet that is not addressed, and enc_list13 holds mps + 2. *)
Open Scope N_scope.

Definition enc_list13 (w : N) (cap : nat) (l : list N) : N * N :=
  (PackN.pk (2 ^ 16) (N.of_nat (length l)) (pack (2 ^ w) (l ++ repeat 0 (cap - length l))), 16 + w * N.of_nat cap).
Definition dec_list13 (w : N) (cap : nat) (x : N) : list N :=
  firstn (N.to_nat (N.land x (N.ones 16))) (unpack2 w cap (N.shiftr x 16)).
Definition dec_entry13 (x : N) : entry :=
  {| e_data := N.land x (N.ones 8); e_first := N.testbit x 9; e_last := N.testbit x 8 |}.

Definition ss_enc (mps depth : nat) (s : ss_state) : N :=
  let '(tag, bs, c, v, fresh) :=
    match t_ph s with
    | PIdle => (0, [], false, false, false)
    | POpen bs c v fresh => (1, bs, c, v, fresh)
    | PEnded bs c v => (2, bs, c, v, false)
    | PReport bs c v => (3, bs, c, v, false)
    end in
  let '(eb, nb_) := enc_list13 8 (mps + 2) bs in
  let '(eq, _) := enc_list13 10 (S depth) (map enc_entry (t_q s)) in
  let b := fun x : bool => PackN.pk 2 (b2n x) in
  b (t_tent s) (b (t_tgt s) (b (t_new s) (b (t_start s) (b (t_lost s) (b (t_full s) (b (t_tog s) (b (t_act s)
    (PackN.pk 4 tag (b c (b v (b fresh (PackN.pk (2 ^ 16) (N.of_nat (t_n s)) (PackN.pk (2 ^ nb_) eb eq))))))))))))).

Definition ss_dec (mps depth : nat) (x : N) : ss_state :=
  let tag := N.land (N.shiftr x 8) 3 in
  let c := N.testbit x 10 in let v := N.testbit x 11 in let fr := N.testbit x 12 in
  let y := N.shiftr x 13 in
  let n := N.to_nat (N.land y (N.ones 16)) in let y := N.shiftr y 16 in
  let nbits := 16 + 8 * N.of_nat (mps + 2) in
  let bs := dec_list13 8 (mps + 2) (N.land y (N.ones nbits)) in let y := N.shiftr y nbits in
  let q := map dec_entry13 (dec_list13 10 (S depth) y) in
  {| t_ph := match tag with 0 => PIdle | 1 => POpen bs c v fr | 2 => PEnded bs c v | _ => PReport bs c v end;
     t_tgt := N.testbit x 1; t_new := N.testbit x 2; t_start := N.testbit x 3; t_n := n;
     t_lost := N.testbit x 4; t_full := N.testbit x 5; t_tog := N.testbit x 6; t_act := N.testbit x 7;
     t_q := q; t_tent := N.testbit x 0 |}.

Definition ss_mon0 : N := 0.

Definition ss_mon (mps depth : nat) (ep : N) (m i o : N) : option (N * bool) :=
  let s := ss_dec mps depth m in
  let ii := so_in_of ep i in
  let short := match t_ph s with POpen bs _ _ _ => (length bs <=? mps)%nat | _ => true end in
  if ss_env mps s ii && short then
    Some (ss_enc mps depth (ss_next mps depth s ii),
          so_out_pack (so_norm (so_out_of o)) =? so_out_pack (ss_outf mps depth s ii))
  else None.
