(* C22 -- the ULPI receive models (Model/UlpiRx.v), on every history and without assumption: the UTMI packets of the
   receive path are the packets the PHY presented (rx_packets); the status outputs are the fields of the most recent
   RxCmd and rx_active says whether a PHY receive is in progress (rx_status); the decoder's last_rx_command is the most
   recent RxCmd, not sampled during register operations (dec_last).  Under the bus turn-around rule the outputs satisfy
   the UTMI rule rx_valid -> rx_active (rx_valid_active).  The packing lemmas (rx_*, dec_* wf_step / dec_enc) serve the lock-step obligations. *)
From Coq Require Import NArith List Bool Lia.
Import ListNotations.
From LunaLib Require Import Netlist Machine BitFacts.
From LunaModel Require Import Handshake UlpiRx.
Open Scope N_scope.

Lemma rxcmd_status_lt : forall c, rxcmd_status c < 256.
Proof.
  intro c. unfold rxcmd_status.
  set (L := [(2, bits c 0 2); (1, b2n (bits c 2 2 =? 3)); (1, b2n (bits c 2 2 =? 2)); (1, b2n (bits c 2 2 =? 0));
             (1, b2n (bits c 4 2 =? 3)); (1, b2n (bits c 4 2 =? 2)); (1, b2n (N.testbit c 6))]).
  assert (HL : fields_ok L) by (repeat constructor; cbn [fst snd]; apply bits_lt || apply b2n_lt2).
  replace (_ + _) with (fields_word L) by (subst L; cbn [fields_word]; lia).
  exact (fields_word_lt L HL).
Qed.

Lemma rx_out_fields : forall s, rx_wf s ->
  d_act (rx_out s) = r_act s /\ d_val (rx_out s) = r_val s /\ d_dat (rx_out s) = r_dat s /\
  o_status (rx_out s) = rxcmd_status (r_last s) /\ o_lastcmd (rx_out s) = r_last s.
Proof.
  intros [pd act val dat last] [Hd Hl]. cbn [r_dat r_last] in *.
  unfold d_act, d_val, d_dat, o_status, o_lastcmd, rx_out. cbn [r_act r_val r_dat r_last].
  set (L := [(1, b2n act); (1, b2n val); (8, dat); (8, rxcmd_status last); (8, last)]).
  assert (HL : fields_ok L)
    by (repeat constructor; cbn [fst snd]; try apply b2n_lt2; try apply rxcmd_status_lt; assumption).
  replace (_ + _) with (fields_word L) by (subst L; cbn [fields_word]; lia).
  repeat split.
  - exact (testbit_fields_word L 0 act HL eq_refl).
  - exact (testbit_fields_word L 1 val HL eq_refl).
  - exact (bits_fields_word L 2 HL).
  - exact (bits_fields_word L 3 HL).
  - exact (bits_fields_word L 4 HL).
Qed.

Lemma rx_wf_init : rx_wf rx_init.
Proof. split; reflexivity. Qed.

Lemma rx_wf_step : forall s i, rx_wf s -> rx_wf (fst (rx_step s i)).
Proof.
  intros s i [Hd Hl]. unfold rx_step, rx_wf. cbn [fst r_dat r_last]. split; [apply bits_lt|].
  destruct (rxcmd_now _ _ _ _); [apply bits_lt | exact Hl].
Qed.

Definition isSome {A} (o : option A) : bool := match o with Some _ => true | None => false end.

Definition rx_sync (s : rx_state) (st : bool * option (list N)) : Prop :=
  r_pd s = fst st /\ r_act s = isSome (snd st).

Lemma rx_sync_step : forall s st i, rx_sync s st -> rx_sync (fst (rx_step s i)) (phy_next st i).
Proof.
  intros s [pd cur] i [Hpd Hact]. cbn [fst snd] in *. split; [reflexivity|].
  unfold rx_step, phy_next, rxcmd_now. cbn [fst snd r_act]. rewrite Hpd, Hact.
  destruct cur, pd, (ri_dir i), (ri_nxt i), (rxcmd_active (ri_data i)); reflexivity.
Qed.

Lemma rx_sync_run : forall h s st, rx_sync s st -> rx_sync (run_state rx_step s h) (fold_left phy_next h st).
Proof. induction h as [|i t IH]; intros s st H; [exact H|]. apply IH, rx_sync_step, H. Qed.

Definition opt_list {A} (o : option A) : list A := match o with Some x => [x] | None => [] end.

(* p: the UTMI packetiser before it has read the current output word rx_out s *)
Definition rx_rel (s : rx_state) (st : bool * option (list N)) (p : option (list N)) (pend : option (list N)) : Prop :=
  rx_wf s /\ rx_sync s st /\ pk_next p (rx_out s) = snd st /\ pk_done p (rx_out s) = pend.

Lemma rx_rel_init : rx_rel rx_init phy0 None None.
Proof. repeat split. Qed.

Lemma rx_rel_step : forall s st p pend i, rx_rel s st p pend ->
  rx_rel (fst (rx_step s i)) (phy_next st i) (pk_next p (rx_out s)) (phy_done st i).
Proof.
  intros s [pd cur] p pend i (Hwf & Hs & Hn & _). cbn [snd] in Hn.
  pose proof (rx_wf_step s i Hwf) as Hwf'. pose proof (rx_sync_step s _ i Hs) as Hs'.
  destruct (rx_out_fields _ Hwf') as (Ea & Ev & Ed & _ & _).
  split; [exact Hwf'|]. split; [exact Hs'|].
  (* the packetiser reads the new output word: rx_active as the PHY side has it, rx_valid = NXT while active *)
  rewrite Hn. unfold pk_next, pk_done, phy_done. rewrite Ea, Ev, Ed, (proj2 Hs').
  destruct Hs as [_ Hact]. unfold phy_next, rx_step, rxcmd_now. cbn [fst snd r_val r_dat] in *. rewrite Hact.
  destruct cur as [l|], pd, (ri_dir i), (ri_nxt i), (rxcmd_active (ri_data i)); split; reflexivity.
Qed.

(* x, the inputs of the cycle after h, is irrelevant: all outputs are registered, so it takes the output word of that
   cycle to show what the last cycle of h did *)
Theorem rx_packets_from : forall h x s st p pend, rx_rel s st p pend ->
  packets_from p (run rx_step s (h ++ [x])) = opt_list pend ++ phy_packets st h.
Proof.
  induction h as [|i t IH]; intros x s st p pend H; cbn [app]; rewrite run_cons;
    change (snd (rx_step s ?j)) with (rx_out s); cbn [packets_from phy_packets].
  - destruct H as (_ & _ & _ & ->). destruct pend; reflexivity.
  - rewrite (IH x _ _ _ _ (rx_rel_step s st p pend i H)).
    destruct H as (_ & _ & _ & ->). destruct pend, (phy_done st i); reflexivity.
Qed.

Theorem rx_packets : forall h x,
  utmi_packets (run rx_step rx_init (h ++ [x])) = phy_packets phy0 h.
Proof. intros h x. exact (rx_packets_from h x _ _ _ _ rx_rel_init). Qed.

Lemma rx_last_run : forall h s, r_last (run_state rx_step s h) = phy_last_rxcmd (r_pd s) (r_last s) h.
Proof. induction h as [|i t IH]; intro s; [reflexivity|]. cbn [run_state phy_last_rxcmd]. rewrite IH. reflexivity. Qed.

Theorem rx_status : forall h x,
  let o := last (run rx_step rx_init (h ++ [x])) 0 in
  o_lastcmd o = phy_last_rxcmd false 0 h /\
  o_status o = rxcmd_status (phy_last_rxcmd false 0 h) /\
  o_active o = isSome (snd (fold_left phy_next h phy0)).
Proof.
  intros h x o. subst o. rewrite run_last. change (snd (rx_step ?s x)) with (rx_out s).
  destruct (rx_out_fields _ (run_state_inv rx_step rx_wf rx_wf_step h rx_init rx_wf_init)) as (Ea & _ & _ & Es & El).
  destruct (rx_sync_run h rx_init phy0 (conj eq_refl eq_refl)) as [_ A].
  rewrite El, Es, (rx_last_run h rx_init), <- A. repeat split. exact Ea.
Qed.

(* UTMI rule rx_valid -> rx_active, given the bus turn-around rule *)
Definition utmi_rx_ok (o : N) : bool := implb (d_val o) (d_act o).

(* kept by every step under the turn-around rule: rx_valid only while rx_active, rx_active only while DIR was high *)
Definition rx_va (s : rx_state) : bool := implb (r_val s) (r_act s) && implb (r_act s) (r_pd s).

Lemma rx_valid_active_from : forall h s, rx_wf s -> rx_va s = true ->
  turnaround_ok (r_pd s) h = true -> forallb utmi_rx_ok (run rx_step s h) = true.
Proof.
  induction h as [|i t IH]; intros s Hwf Hs HT; [reflexivity|].
  rewrite run_cons. cbn [forallb snd rx_step].
  cbn [turnaround_ok] in HT. apply andb_true_iff in HT as [H0 HT].
  destruct (rx_out_fields _ Hwf) as (Ea & Ev & _).
  apply andb_true_iff. split.
  - unfold utmi_rx_ok. rewrite Ea, Ev. apply andb_true_iff in Hs as [Hs _]. exact Hs.
  - apply (IH (fst (rx_step s i))); [apply rx_wf_step, Hwf | | exact HT].
    revert Hs H0. unfold rx_va, rx_step, rxcmd_now. cbn [fst r_val r_act r_pd].
    destruct (r_pd s), (r_act s), (r_val s), (ri_dir i), (ri_nxt i), (rxcmd_active (ri_data i)); cbn; congruence.
Qed.

Theorem rx_valid_active : forall h, turnaround_ok false h = true ->
  forallb utmi_rx_ok (run rx_step rx_init h) = true.
Proof. intros h H. exact (rx_valid_active_from h rx_init rx_wf_init eq_refl H). Qed.

Lemma dec_last_from : forall h s, e_last (run_state dec_step s h) = last_rxcmd (e_dd s) (e_last s) h.
Proof. induction h as [|i t IH]; intro s; [reflexivity|]. cbn [run_state last_rxcmd]. rewrite IH. reflexivity. Qed.

Theorem dec_last : forall h, e_last (run_state dec_step dec_init h) = last_rxcmd false 0 h.
Proof. intro h. apply dec_last_from. Qed.

(* the strobes: rx_start / rx_stop are seen one cycle after an RxCmd that changes the RxActive bit *)
Lemma dec_strobes : forall s i,
  let s' := fst (dec_step s i) in
  let sample := rxcmd_now (e_dd s) (di_dir i) (di_nxt i) (di_regop i) in
  e_start s' = sample && negb (rxcmd_active (e_last s)) && rxcmd_active (di_data i) /\
  e_stop s' = sample && rxcmd_active (e_last s) && negb (rxcmd_active (di_data i)).
Proof. intros. split; reflexivity. Qed.

Lemma rx_dec_enc : forall s, rx_wf s -> rx_dec (rx_enc s) = s.
Proof.
  intros [pd act val dat last] [Hd Hl]. cbn [r_dat r_last] in *.
  unfold rx_dec, rx_enc. cbn [r_pd r_act r_val r_dat r_last].
  set (L := [(1, b2n pd); (1, b2n act); (1, b2n val); (8, dat); (8, last)]).
  assert (HL : fields_ok L) by (repeat constructor; cbn [fst snd]; try apply b2n_lt2; assumption).
  replace (_ + _) with (fields_word L) by (subst L; cbn [fields_word]; lia).
  change 2048 with (2 ^ 11). rewrite <- (bits_top _ 11 8 (fields_word_lt L HL)).
  f_equal.
  - exact (testbit_fields_word L 0 pd HL eq_refl).
  - exact (testbit_fields_word L 1 act HL eq_refl).
  - exact (testbit_fields_word L 2 val HL eq_refl).
  - exact (bits_fields_word L 3 HL).
  - exact (bits_fields_word L 4 HL).
Qed.

Lemma dec_wf_step : forall s i, dec_wf s -> dec_wf (fst (dec_step s i)).
Proof.
  intros s i H. unfold dec_step, dec_wf. cbn [fst e_last].
  destruct (rxcmd_now _ _ _ _); [apply bits_lt | exact H].
Qed.

Lemma dec_dec_enc : forall s, dec_wf s -> dec_dec (dec_enc s) = s.
Proof.
  intros [dd last st sp] H. unfold dec_wf in H. cbn [e_last] in H.
  unfold dec_dec, dec_enc. cbn [e_dd e_last e_start e_stop].
  set (L := [(1, b2n dd); (1, b2n st); (1, b2n sp); (8, last)]).
  assert (HL : fields_ok L) by (repeat constructor; cbn [fst snd]; try apply b2n_lt2; assumption).
  replace (_ + _) with (fields_word L) by (subst L; cbn [fields_word]; lia).
  change 8 with (2 ^ 3) at 1. rewrite <- (bits_top _ 3 8 (fields_word_lt L HL)).
  f_equal.
  - exact (testbit_fields_word L 0 dd HL eq_refl).
  - exact (bits_fields_word L 3 HL).
  - exact (testbit_fields_word L 1 st HL eq_refl).
  - exact (testbit_fields_word L 2 sp HL eq_refl).
Qed.
