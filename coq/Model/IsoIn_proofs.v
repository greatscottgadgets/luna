(* C15 -- proofs about the USBIsochronousStreamInEndpoint model (Model/IsoIn.v).
   Two simulations between the model and the observer of its transmit stream.  `drel` (the observer has a data packet
   open only while the model is in SEND_DATA, and there it has one open or tx.first is up to open one) gives
   `iso_sent_taken`: the bytes sent are, in order, those taken from the stream.  `crel` relates the model's registers
   to the state of the conformance checker: `frel` says that the PID register counts the packets the frame still
   needs down, and that the bytes left take exactly that many packets; the two byte counters agree with the open
   packet.  It gives `iso_conforms`.  The packing lemmas carry both theorems over to the packed machine of the
   lock-step tie (`iso_packed`). *)
From Coq Require Import NArith List Bool Lia ZifyBool.
Import ListNotations.
From LunaLib Require Import Netlist Machine BitFacts ListFacts.
From LunaModel Require Import IsoIn.
Open Scope N_scope.

Lemma len_snoc : forall bs x, len (bs ++ [x]) = len bs + 1.
Proof. intros. unfold len. rewrite app_length. cbn [length]. lia. Qed.

Lemma sent_bytes_app : forall a b, sent_bytes (a ++ b) = sent_bytes a ++ sent_bytes b.
Proof.
  induction a as [|it a IH]; intro b; [reflexivity|].
  destruct it; cbn [app sent_bytes]; rewrite IH; try reflexivity. apply app_assoc.
Qed.

Lemma conf_run_app : forall mps a b c,
  conf_run mps c (a ++ b) = match conf_run mps c a with Some c' => conf_run mps c' b | None => None end.
Proof.
  induction a as [|it a IH]; intros b c; [reflexivity|].
  cbn [app conf_run]. destruct (conf_step mps c it); [apply IH | reflexivity].
Qed.

Definition open_bytes (cur : open_packet) : list N := match cur with Some (_, bs) => bs | None => [] end.

Section Proofs.
  Variables mps ep : N.

  Definition drel (s : iso_state) (cur : open_packet) : Prop :=
    match st s with
    | IDLE => cur = None
    | SEND_ZLP => cur = None /\ first s = false
    | SEND_DATA => match cur with None => first s = true | Some _ => True end
    end.

  Lemma dstep : forall s cur i, drel s cur ->
    drel (iso_next mps ep s i) (snd (obs_step cur (i, iso_outf ep s i))) /\
    sent_bytes (fst (obs_step cur (i, iso_outf ep s i))) ++ open_bytes (snd (obs_step cur (i, iso_outf ep s i)))
    = open_bytes cur ++ (if o_sready (iso_outf ep s i) then [fill i] else []).
  Proof.
    intros [f bf bp p fi ff] cur i H. unfold drel in H. cbn [st first] in H.
    unfold obs_step, tx_step, iso_outf, iso_next, drel, fill.
    cbn [st blf blp pid first ffin o_valid o_first o_last o_sready o_dreq o_pid o_payload].
    destruct f.
    - subst cur. destruct (i_nf i), (req ep i); cbn; try (destruct (bf =? 0)); cbn; auto.
    - destruct cur as [[p0 bs]|]; [|rewrite H]; cbn;
        (destruct (i_rdy i); cbn; [destruct (terminates _); cbn|]); destruct (i_nf i); cbn; rewrite ?app_nil_r; auto.
    - destruct H as [-> ->]. cbn. destruct (i_nf i); cbn; auto.
  Qed.

  Lemma observe_cons : forall cur io t,
    observe cur (io :: t) =
    (fst (obs_step cur io) ++ fst (observe (snd (obs_step cur io)) t), snd (observe (snd (obs_step cur io)) t)).
  Proof.
    intros. cbn [observe]. destruct (obs_step cur io) as [a cur']. cbn [fst snd].
    destruct (observe cur' t) as [b cur'']. reflexivity.
  Qed.

  Lemma sent_taken_gen : forall ins s cur, drel s cur ->
    sent_bytes (fst (observe cur (iso_trace mps ep s ins))) ++ open_bytes (snd (observe cur (iso_trace mps ep s ins)))
    = open_bytes cur ++ taken_bytes (iso_trace mps ep s ins).
  Proof.
    induction ins as [|i t IH]; intros s cur H.
    - cbn. rewrite app_nil_r. reflexivity.
    - cbn [iso_trace]. rewrite observe_cons. cbn [fst snd taken_bytes].
      destruct (dstep s cur i H) as [H1 H2].
      rewrite sent_bytes_app, <- app_assoc, (IH _ _ H1), app_assoc, H2, <- app_assoc. reflexivity.
  Qed.

  (* the bytes of all packets are, in order, what the data stream offered in the stream.ready cycles *)
  Theorem iso_sent_taken : forall ins,
    all_sent (iso_trace mps ep (iso_init mps) ins) = taken_bytes (iso_trace mps ep (iso_init mps) ins).
  Proof.
    intro ins. unfold all_sent.
    pose proof (sent_taken_gen ins (iso_init mps) None eq_refl) as H.
    destruct (observe None _) as [items cur]. cbn [fst snd open_bytes app] in H.
    rewrite <- H. destruct cur as [[p bs]|]; reflexivity.
  Qed.

  (* What holds of the PID register p, the bytes r still to be sent in the frame and the number n of packets
     the frame still needs, whatever the FSM state: the PID counts the needed packets down, and r bytes
     take exactly n packets. *)
  Definition frel (p r n : N) : Prop :=
    r < FW /\ (0 < n -> p = n - 1) /\ n <= 3 /\
    (n = 0 -> r = 0) /\ (n = 1 -> r <= mps) /\ (n = 2 -> mps < r <= 2 * mps) /\ (n = 3 -> 2 * mps < r <= 3 * mps).

  Lemma frel_frame : forall n, n <= 3 * mps -> n < FW -> frel (start_pid mps n) n (packets_needed mps n).
  Proof.
    intros n H3 HF. unfold frel, start_pid, packets_needed. rewrite !N.ltb_antisym.
    destruct (N.leb_spec n mps), (N.leb_spec n (2 * mps)); cbn [negb]; lia.
  Qed.

  Lemma frel_packet : forall p r n, frel p r n -> 0 < r -> frel ((p + 3) mod 4) (r - N.min mps r) (n - 1).
  Proof.
    intros p r n (Hr & Hpn & Hn & H0 & H1 & H2 & H3) Hpos.
    assert (Hd : 1 <= p -> (p + 3) mod 4 = p - 1)
      by (intro; replace (p + 3) with (p + 4 - 1) by lia; apply sub1_mod; lia).
    (* one case per number of packets: with the whole relation at once, lia's certificate is slow to check *)
    assert (n = 1 \/ n = 2 \/ n = 3) as [-> | [-> | ->]] by lia;
      [rewrite N.min_r by lia | rewrite N.min_l by lia ..]; unfold frel; lia.
  Qed.

  Lemma frel_zlp : forall p n, frel p 0 n -> frel p 0 (n - 1).
  Proof. unfold frel. lia. Qed.

  (* once no packet is needed nothing is left to send: what follows is zero-length, and its PID is free *)
  Lemma frel_pid_ok : forall p r n, frel p r n -> forall tk bs, (r = 0 -> len bs = 0) ->
    pid_ok {| rem := r; need := n; tok := tk |} p bs = true.
  Proof. intros p r n (_ & Hpn & _ & H0 & _) tk bs Hbs. unfold pid_ok. cbn [need]. lia. Qed.

  Definition crel (s : iso_state) (cur : open_packet) (c : cstate) : Prop :=
    frel (pid s) (rem c) (need c) /\
    match st s with
    (* the guard on blp is for reset alone: the register starts at mps - 1 (its init=), with rem = 0; a new frame and
       every completed packet set it to mps *)
    | IDLE => cur = None /\ tok c = false /\ blf s = rem c /\ (0 < rem c -> blp s = mps)
    | SEND_ZLP => cur = None /\ tok c = true /\ first s = false /\ blf s = 0 /\ rem c = 0
    | SEND_DATA =>
        (* the packet is not complete yet, and both byte counters agree with what has been sent of it *)
        let bs := open_bytes cur in
        tok c = true /\ len bs < N.min mps (rem c) /\ blf s + len bs = rem c /\ blp s + len bs = mps /\
        match cur with Some (p, _) => p = pid s | None => first s = true end
    end.

  Lemma crel_init : crel (iso_init mps) None c_init.
  Proof. unfold crel, frel, iso_init, c_init, FW. cbn [st blf blp pid first ffin rem need tok]. repeat split; lia. Qed.

  Lemma crel_open_ok : forall s cur c, crel s cur c -> open_ok mps c cur = true.
  Proof.
    intros s [[p0 bs]|] c [HF H]; [|reflexivity].
    destruct (st s); [destruct H; discriminate | | destruct H; discriminate].
    cbn [open_bytes] in H. destruct H as (Htk & Hlen & _ & _ & ->).
    destruct HF as (_ & Hpn & _ & H0 & _).
    unfold open_ok. rewrite Htk. lia.
  Qed.

  Hypothesis Hmps : 1 <= mps.

  Lemma cstep : forall s cur c i, crel s cur c -> env_cycle mps (i, iso_outf ep s i) = true ->
    exists c', conf_run mps c (fst (obs_step cur (i, iso_outf ep s i))) = Some c' /\
               crel (iso_next mps ep s i) (snd (obs_step cur (i, iso_outf ep s i))) c'.
  Proof.
    intros [f bf bp p fi ff] cur [r n tk] i [HF H] He. cbn in HF, H.
    (* per state: first what crel says there, so that its equations are substituted in a small goal; then the
       observer, the checker and the model are evaluated *)
    destruct f;
      [ destruct H as (-> & -> & -> & Hbp)
      | destruct H as (-> & Hlen & Hbf & Hbp & Hcur); set (bs := open_bytes cur) in *
      | destruct H as (-> & -> & -> & -> & ->) ];
      unfold env_cycle in He; unfold obs_step, tx_step, iso_outf, iso_next, terminates, crel in He |- *;
      cbn [st blf blp pid first ffin o_valid o_first o_last o_sready o_dreq o_pid o_payload andb negb] in He |- *.

    - (* IDLE *)
      destruct (i_nf i); cbn [orb] in He.
      + (* new frame: by the environment no token is accepted in this cycle *)
        destruct (req ep i); [discriminate|].
        apply andb_true_iff in He as [H3 HFW]. apply N.leb_le in H3. apply N.ltb_lt in HFW.
        cbn [app fst snd conf_run conf_step tok]. eexists. split; [reflexivity|].
        cbn. split; [apply frel_frame; assumption|]. repeat split.
      + destruct (req ep i); cbn [app fst snd conf_run conf_step tok rem need]; eexists; (split; [reflexivity|]).
        * destruct (N.eqb_spec r 0) as [->|Hr]; cbn;
            (split; [exact HF|]); repeat split; lia.
        * cbn. split; [exact HF|]. repeat split. exact Hbp.

    - (* SEND_DATA *)
      (* while tx.valid is high the environment sends no new_frame *)
      rewrite orb_false_r in He. apply negb_true_iff in He. rewrite He. cbn [app]. clear He.
      assert (E : match cur with Some c => Some c | None => if fi then Some (p, []) else None end = Some (p, bs)).
      { subst bs. destruct cur as [[p0 bs]|]; [subst p0 | rewrite Hcur]; reflexivity. }
      rewrite E. clear E Hcur.
      pose proof HF as (Hr & _).
      destruct (i_rdy i).
      + destruct ((bp <=? 1) || (bf <=? 1)) eqn:T; cbn [fst snd conf_run conf_step tok rem need].
        * rewrite len_snoc.
          assert (Hfin : len bs + 1 = N.min mps r) by lia.
          rewrite Hfin, N.eqb_refl, (frel_pid_ok _ _ _ HF) by lia. cbn [andb]. eexists. split; [reflexivity|].
          cbn. split; [apply frel_packet; [exact HF | lia]|].
          rewrite sub1_mod by lia. repeat split; lia.
        * eexists. split; [reflexivity|].
          cbn. split; [exact HF|].
          assert (HPW : mps < PW mps) by apply N.size_gt.
          rewrite len_snoc, !sub1_mod by lia. repeat split; lia.
      + cbn [fst snd conf_run]. eexists. split; [reflexivity|].
        cbn. split; [exact HF|]. repeat split; assumption.

    - (* SEND_ZLP *)
      rewrite orb_false_r in He. apply negb_true_iff in He. rewrite He. cbn [app fst snd conf_run conf_step tok rem need].
      rewrite (frel_pid_ok _ _ _ HF), N.min_0_r by reflexivity. cbn [len length N.of_nat N.eqb andb]. eexists. split; [reflexivity|].
      cbn. split; [exact (frel_zlp _ _ HF)|]. repeat split; intro H; discriminate H.
  Qed.

  Lemma conform_gen : forall ins s cur c, crel s cur c ->
    iso_env mps (iso_trace mps ep s ins) = true ->
    exists c', conf_run mps c (fst (observe cur (iso_trace mps ep s ins))) = Some c' /\
               open_ok mps c' (snd (observe cur (iso_trace mps ep s ins))) = true.
  Proof.
    induction ins as [|i t IH]; intros s cur c H He.
    - exists c. split; [reflexivity|]. cbn. exact (crel_open_ok _ _ _ H).
    - cbn [iso_trace] in He |- *. unfold iso_env in He. cbn [forallb] in He.
      apply andb_true_iff in He as [He1 He2].
      destruct (cstep s cur c i H He1) as (c1 & Hc1 & Hr1).
      destruct (IH _ _ _ Hr1 He2) as (c2 & Hc2 & Ho2).
      exists c2. rewrite observe_cons. cbn [fst snd]. rewrite conf_run_app, Hc1. split; assumption.
  Qed.

  (* every frame is sent as the specification demands *)
  Theorem iso_conforms : forall ins,
    iso_env mps (iso_trace mps ep (iso_init mps) ins) = true ->
    iso_spec mps (iso_trace mps ep (iso_init mps) ins) = true.
  Proof.
    intros ins He. unfold iso_spec.
    destruct (conform_gen ins _ _ _ crel_init He) as (c' & H1 & H2).
    destruct (observe None _) as [items cur]. cbn [fst snd] in H1, H2. rewrite H1. exact H2.
  Qed.
End Proofs.

(* sanity of the specification: for byte counts up to 3 * mps, packets_needed is the number of packets
   of at most mps bytes needed for n bytes -- at least one (a frame of 0 bytes needs one zero-length packet) *)
Lemma packets_needed_ceil : forall mps n, 1 <= mps -> n <= 3 * mps ->
  packets_needed mps n = N.max 1 ((n + mps - 1) / mps).
Proof.
  intros mps n Hm Hn. unfold packets_needed.
  destruct (n <=? mps) eqn:E1; [|destruct (n <=? 2 * mps) eqn:E2].
  - destruct (N.eq_dec n 0) as [->|Hz].
    + rewrite N.div_small by lia. reflexivity.
    + replace ((n + mps - 1) / mps) with 1; [reflexivity|].
      apply (N.div_unique _ _ _ (n - 1)); lia.
  - replace ((n + mps - 1) / mps) with 2; [reflexivity|].
    apply (N.div_unique _ _ _ (n - mps - 1)); lia.
  - replace ((n + mps - 1) / mps) with 3; [reflexivity|].
    apply (N.div_unique _ _ _ (n - 2 * mps - 1)); lia.
Qed.

Lemma nb_b2n : forall b, nb (b2n b) = b.
Proof. destruct b; reflexivity. Qed.

Lemma fsm_code_lt : forall f, fsm_code f < 4.
Proof. destruct f; reflexivity. Qed.

Lemma fsm_of_code : forall f, fsm_of (fsm_code f) = f.
Proof. destruct f; reflexivity. Qed.

Definition iso_wf (s : iso_state) : Prop := blf s < FW /\ pid s < 4.

(* the decoders peel one digit after the other off the word, lowest first *)
Lemma iso_dec_enc : forall s, iso_wf s -> iso_dec (iso_enc s) = s.
Proof.
  intros [f bf bp p fi ff] [Hb Hp]. cbn [blf pid] in *.
  unfold iso_dec, iso_enc, pk. cbv zeta. cbn [st blf blp pid first ffin].
  rewrite (digit_mod 4), (digit_div 4) by apply fsm_code_lt.
  do 2 rewrite (digit_mod 2), (digit_div 2) by apply b2n_lt2.
  rewrite (digit_mod 4), (digit_div 4) by exact Hp.
  rewrite digit_mod, digit_div by exact Hb.
  rewrite !nb_b2n, fsm_of_code. reflexivity.
Qed.

Lemma start_pid_lt : forall mps n, start_pid mps n < 4.
Proof. intros. unfold start_pid. destruct (2 * mps <? n); [lia|]. destruct (mps <? n); lia. Qed.

Lemma iso_wf_next : forall mps ep s i, iso_wf s -> i_bif i < FW -> iso_wf (iso_next mps ep s i).
Proof.
  intros mps ep s i [Hb Hp] Hi. unfold iso_wf, iso_next.
  assert (Hm : forall x, x mod FW < FW) by (intro; apply N.mod_lt; discriminate).
  assert (Hm4 : forall x, x mod 4 < 4) by (intro; apply N.mod_lt; discriminate).
  pose proof (start_pid_lt mps (i_bif i)) as Hs.
  destruct (i_nf i);
    (destruct (st s); [destruct (req ep i); [destruct (blf s =? 0)|] | destruct (i_rdy i); [destruct (terminates s)|] |]);
    cbn [blf pid]; split; auto.
Qed.

Lemma iso_wf_step : forall mps ep s w, iso_wf s -> iso_wf (fst (iso_mstep mps ep s w)).
Proof. intros. cbn [iso_mstep fst]. apply iso_wf_next; [assumption | apply (bits_lt w 17 12)]. Qed.

Lemma iso_wf_init : forall mps, iso_wf (iso_init mps).
Proof. intro. unfold iso_wf, iso_init, FW. cbn [blf pid]. lia. Qed.

Lemma iso_out_of_pack : forall o, o_pid o < 4 -> o_payload o < 256 -> iso_out_of (iso_out_pack o) = o.
Proof.
  intros [v f l r d ff p pl] Hp Hpl. cbn [o_pid o_payload] in *.
  unfold iso_out_of, iso_out_pack, pk. cbv zeta.
  cbn [o_valid o_first o_last o_sready o_dreq o_ffin o_pid o_payload].
  do 6 rewrite (digit_mod 2), (digit_div 2) by apply b2n_lt2.
  rewrite (digit_mod 4), (digit_div 4) by exact Hp.
  rewrite !nb_b2n, N.mod_small by exact Hpl. reflexivity.
Qed.

Lemma iso_outf_bounds : forall ep s w, iso_wf s ->
  o_pid (iso_outf ep s (iso_in_of w)) < 4 /\ o_payload (iso_outf ep s (iso_in_of w)) < 256.
Proof.
  intros ep s w [_ Hp]. unfold iso_outf. cbn [o_pid o_payload]. split; [exact Hp|].
  destruct (st s); try lia. destruct (i_sv _); [|lia]. cbn [iso_in_of i_sp]. apply (bits_lt w 9 8).
Qed.

Lemma iso_decode_run : forall mps ep ws s, iso_wf s ->
  decode_trace ws (run (iso_mstep mps ep) s ws) = iso_trace mps ep s (map iso_in_of ws).
Proof.
  induction ws as [|w t IH]; intros s Hs; [reflexivity|].
  cbn [run iso_mstep map iso_trace]. unfold decode_trace. cbn [map combine].
  destruct (iso_outf_bounds ep s w Hs) as [H1 H2].
  rewrite iso_out_of_pack by assumption. f_equal.
  apply IH, (iso_wf_step mps ep s w Hs).
Qed.

Lemma iso_env_ok : forall mps ep ws s,
  env_ok iso_state (iso_mstep mps ep) (iso_menv mps ep) s ws = iso_env mps (iso_trace mps ep s (map iso_in_of ws)).
Proof.
  induction ws as [|w t IH]; intros s; [reflexivity|].
  cbn [env_ok map iso_trace]. unfold iso_env. cbn [forallb]. f_equal. apply IH.
Qed.

(* What the lock-step tie needs: both theorems about the decoded packed run of the model. *)
Theorem iso_packed : forall mps ep, 1 <= mps -> forall ws,
  env_ok iso_state (iso_mstep mps ep) (iso_menv mps ep) (iso_init mps) ws = true ->
  let tr := decode_trace ws (run (iso_mstep mps ep) (iso_init mps) ws) in
  iso_spec mps tr = true /\ all_sent tr = taken_bytes tr.
Proof.
  intros mps ep Hm ws He. cbv zeta. rewrite iso_decode_run by apply iso_wf_init. split.
  - apply iso_conforms; [exact Hm|]. rewrite <- iso_env_ok. exact He.
  - apply iso_sent_taken.
Qed.
