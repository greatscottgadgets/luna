(* C09 -- proofs about the block-ROM GET_DESCRIPTOR handler model (Model/DescBlock.v).  block_refines: for every
   well-formed collection and packet size the model, configured the way the constructor configures the gateware (ROM
   image rom_of, widths, index map), is output-equivalent to the specification machine s_step (resp_of c mps) on every
   input history that respects s_env.  The simulation relation `rel` has one case per state of the handler's FSM, and
   so has the proof of its step; what the specification machine does in those cycles comes from DescCommon.v. *)
From Coq Require Import NArith List Bool Lia ZifyN.
Import ListNotations.
From LunaLib Require Import Netlist Machine ListFacts.
From LunaModel Require Import DescSpec DescRom DescRom_proofs DescCommon DescBlock.
From LunaLib Require Import BitFacts.
Open Scope N_scope.

Lemma div4_lt : forall x pw, 2 <= pw -> x < 2 ^ pw -> x / 4 < 2 ^ (pw - 2).
Proof.
  intros x pw Hp Hx. apply N.div_lt_upper_bound; [discriminate|].
  change 4 with (2 ^ 2). rewrite <- N.pow_add_r. replace (2 + (pw - 2)) with pw by lia. exact Hx.
Qed.

Lemma size_ge_2 : forall x, 2 <= x -> 2 <= N.size x.
Proof.
  intros x H. rewrite N.size_log2 by lia. pose proof (N.log2_le_mono 2 x H) as L. change (N.log2 2) with 1 in L. lia.
Qed.

Lemma bk_lat_pos : forall c q, 1 <= bk_lat c q.
Proof. intros c q. unfold bk_lat. destruct (_ <? _); [lia|]. destruct (find_desc _ _ _); lia. Qed.

Section Refine.
  Variable c : dcoll.
  Variable mps : N.
  Hypothesis F : coll_facts c.

  Local Notation cfg := (block_cfg c mps).
  Local Notation rom := (rom_of c).
  Local Notation aw := (N.size (nlen (rom_of c) - 1)).
  Local Notation pw := (N.size (max_desc_len c)).
  Local Notation resp := (resp_of c mps).
  Local Notation lat := (bk_lat c).
  Local Notation lenq := (DescCommon.lenq mps).
  Local Notation fd := (DescCommon.fd c).

  Definition pending (len : N) (q : dreq) : Prop := legal c q /\ len = lenq q.

  (* One case per FSM state; k counts the silent cycles the specification machine still waits. *)
  Inductive rel (st : bk_state) : sstate -> Prop :=
  | R_idle : b_fsm st = B_IDLE -> rel st SIdle
  | R_start : forall q k, b_fsm st = B_START -> pending (b_len st) q -> k + 1 = lat q -> b_sent st = 0 ->
      rel st (SWait k q)
  | R_type : forall q k, b_fsm st = B_LOOKUP_TYPE -> pending (b_len st) q -> k + 2 = lat q -> b_sent st = 0 ->
      v_type (q_value q) <= max_type c -> (forall d, fd q = Some d -> b_pos st = q_sp q) ->
      b_rd st = rom_read rom (v_type (q_value q)) -> (k_indirect cfg = true -> b_didx st = didx_val c (q_value q)) ->
      rel st (SWait k q)
  | R_desc : forall q d B, b_fsm st = B_LOOKUP_DESCRIPTOR -> pending (b_len st) q -> fd q = Some d -> data_at c B d ->
      b_sent st = 0 -> b_pos st = q_sp q -> b_rd st = entry (nlen d) (4 * B) -> rel st (SWait 1 q)
  | R_zlp : forall q d, b_fsm st = B_SEND_ZLP -> fd q = Some d -> nlen d <= q_sp q -> rel st (SWait 0 q)
  | R_send : forall q d B s, b_fsm st = B_SEND_DESCRIPTOR -> b_len st = lenq q -> data_at c B d ->
      serving c mps d q (b_sent st) s -> b_pos st = q_sp q + b_sent st ->
      b_dlen st = nlen d -> b_base st = B -> b_rd st = rom_read rom (B + b_pos st / 4) -> rel st s.

  Definition cycle_ok (st : bk_state) (s : sstate) (i : N) : Prop :=
    bk_out cfg st i = snd (s_step resp lat s i) /\ rel (bk_next cfg st i) (fst (s_step resp lat s i)).

  Lemma rom_bounds : nlen rom <= 2 ^ aw /\ aw <= 14 /\ ntypes c <= nlen rom.
  Proof. apply rom_aw_facts. exact F. Qed.

  Lemma rom_read_trunc : forall a, a < nlen rom -> rom_read rom (trunc aw a) = rom_read rom a.
  Proof. intros a H. destruct rom_bounds as (H1 & _). rewrite trunc_small by lia. reflexivity. Qed.

  Lemma pending_held : forall len q i, pending len q -> held q i = true -> pending (len_next cfg i) q.
  Proof.
    intros len q i (Hl & _) HE. destruct (held_fields _ _ HE) as (_ & Ew & Es & _).
    exact (conj Hl (held_len c mps q i Hl Ew Es)).
  Qed.

  Lemma lat_cases : forall q,
    (max_type c < v_type (q_value q) /\ lat q = 1 /\ fd q = None) \/
    (v_type (q_value q) <= max_type c /\ lat q = match fd q with None => 2 | Some _ => 4 end).
  Proof.
    intros q. unfold bk_lat. fold (fd q). destruct (N.ltb_spec (max_type c) (v_type (q_value q))) as [H|H]; [left | right].
    - split; [exact H|]. split; [reflexivity|]. unfold DescCommon.fd, find_desc.
      destruct (assoc (v_type (q_value q)) c) as [idxs|] eqn:Ea; [|reflexivity].
      destruct (cf_group c F _ _ Ea) as (_ & _ & _ & _ & _ & Hle). lia.
    - split; [exact H | reflexivity].
  Qed.

  Lemma didx_of_val : forall st i q, i_value i = q_value q ->
    (k_indirect cfg = true -> b_didx st = didx_val c (q_value q)) -> didx_of cfg st i = didx_val c (q_value q).
  Proof.
    intros st i q Ev H. unfold didx_of, didx_val, k_indirect in *. cbn [block_cfg k_imap] in *.
    destruct (index_map c); [rewrite Ev; reflexivity | apply H; reflexivity].
  Qed.

  Lemma imap_lookup_val : forall v, k_indirect cfg = true -> imap_lookup cfg v = didx_val c v.
  Proof.
    intros v H. unfold imap_lookup, didx_val, k_indirect in *. cbn [block_cfg k_imap] in *.
    destruct (index_map c); [discriminate | reflexivity].
  Qed.

  Lemma pw_facts : forall d : desc, nlen d <= max_desc_len c -> nlen d < 2 ^ pw.
  Proof. intros d H. pose proof (N.size_gt (max_desc_len c)). lia. Qed.

  Lemma step_idle : forall st s i, b_fsm st = B_IDLE -> rel st s -> s_env (req_legal c) s i = true -> cycle_ok st s i.
  Proof.
    intros st s i Hf HR HE. destruct HR; try congruence.
    unfold cycle_ok, bk_out, bk_next. rewrite Hf. cbn [s_step s_env] in *.
    destruct (i_start i); [|split; [reflexivity | apply R_idle; reflexivity]].
    pose proof (bk_lat_pos c (req_of i)) as Hl. rewrite wait_later by lia.
    split; [reflexivity|]. apply R_start; [reflexivity | | lia | reflexivity].
    assert (Hq : legal c (req_of i)) by (split; [apply req_of_bounded | exact HE]).
    exact (conj Hq (held_len c mps _ i Hq eq_refl eq_refl)).
  Qed.

  Lemma step_start : forall st s i, b_fsm st = B_START -> rel st s -> s_env (req_legal c) s i = true -> cycle_ok st s i.
  Proof.
    intros st s i Hf HR HE. destruct HR as [|q k _ Hp Hk Hs| | | |]; try congruence. cbn [s_env] in HE. pose proof (pending_held _ _ i Hp HE) as Hp'.
    destruct (held_fields _ _ HE) as (Ev & _ & Esp & _). destruct Hp as ([(Hv & _) Hl] & _).
    destruct rom_bounds as (_ & _ & Hnt).
    unfold cycle_ok, bk_out, bk_next, bk_addr. rewrite Hf, Ev. cbn [s_step block_cfg k_maxtype k_pw k_rom k_aw].
    destruct (lat_cases q) as [(Ht & El & Ef) | (Ht & El)].
    - (* the type lies beyond the table *)
      replace k with 0 by lia. destruct (N.leb_spec (v_type (q_value q)) (max_type c)); [lia|].
      rewrite wait_now, deliver_absent by exact Ef. split; [reflexivity | apply R_idle; reflexivity].
    - destruct (N.leb_spec (v_type (q_value q)) (max_type c)); [|lia].
      rewrite wait_later by (destruct (fd q); lia). split; [reflexivity|].
      apply R_type; cbn [b_fsm b_len b_sent b_pos b_rd b_didx]; try assumption; try reflexivity.
      + destruct (fd q); lia.
      + (* start_position fits position_in_stream when the descriptor exists *)
        intros d Hd. rewrite Esp. apply trunc_small.
        destruct (walk_present c (q_value q) d F Hv Hd) as (n & A & B & _ & _ & _ & _ & _ & _ & _ & (_ & _ & Hmax & _)).
        pose proof (req_legal_sp_le c q d Hl Hd). pose proof (pw_facts d Hmax). lia.
      + apply rom_read_trunc. unfold ntypes in Hnt. lia.
      + intro Hind. rewrite Hind. apply imap_lookup_val. exact Hind.
  Qed.

  (* declared only here: `lia` in the proofs above would otherwise make them take it as an argument *)
  Hypothesis Hmps : 1 <= mps.

  Lemma step_type : forall st s i, b_fsm st = B_LOOKUP_TYPE -> rel st s -> s_env (req_legal c) s i = true ->
    cycle_ok st s i.
  Proof.
    intros st s i Hf HR HE. destruct HR as [| |q k _ Hp Hk Hs Ht Hpos Hrd Hdidx| | |]; try congruence. cbn [s_env] in HE.
    pose proof (pending_held _ _ i Hp HE) as Hp'.
    destruct (held_fields _ _ HE) as (Ev & _). destruct Hp as (Hl & Hlen). pose proof Hl as [(Hv & _) _].
    destruct (lenq_bounds c mps q Hmps Hl) as [Hl1 _].
    clear HE Hl. (* lia would split cases on their boolean atoms *)
    destruct rom_bounds as (Hrom & Haw & _).
    unfold cycle_ok, bk_out, bk_next, bk_addr. rewrite Hf, (didx_of_val st i q Ev Hdidx), Hrd, Hlen.
    cbn [s_step block_cfg k_rom k_aw].
    destruct (lat_cases q) as [? | (_ & El)]; [lia|]. destruct (fd q) as [d|] eqn:Ef.
    - (* present *)
      destruct (walk_present c (q_value q) d F Hv Ef) as (n & A & B & _ & Hr1 & Hn & HA & Hdn & HAd & Hr2 & Hda).
      rewrite Hr1, (e_hi_entry n (4 * A)) by lia. destruct (N.leb_spec n (didx_val c (q_value q))); [lia|].
      destruct (N.eqb_spec (lenq q) 0); [lia|]. rewrite wait_later by lia. split; [reflexivity|].
      replace (k - 1) with 1 by lia.
      apply (R_desc _ q d B); cbn [b_fsm b_len b_sent b_pos b_rd]; try assumption; try reflexivity.
      + exact (Hpos d eq_refl).
      + rewrite (ptr_entry n A aw) by lia. rewrite trunc_small by lia. exact Hr2.
    - (* absent *)
      replace k with 0 by lia. rewrite wait_now, deliver_absent by exact Ef.
      pose proof (walk_absent c (q_value q) F Hv Ht Ef) as Hwa.
      destruct (N.leb_spec (e_hi (rom_read rom (v_type (q_value q)))) (didx_val c (q_value q))); [|lia].
      split; [reflexivity | apply R_idle; reflexivity].
  Qed.

  Lemma step_desc : forall st s i, b_fsm st = B_LOOKUP_DESCRIPTOR -> rel st s -> s_env (req_legal c) s i = true ->
    cycle_ok st s i.
  Proof.
    intros st s i Hf HR HE. destruct HR as [| | |q d B _ Hp Ef Hda Hs Hpos Hrd| |]; try congruence. cbn [s_env] in HE.
    destruct (pending_held _ _ i Hp HE) as [Hl Hlen']. clear HE Hp.
    destruct rom_bounds as (Hrom & Haw & _). pose proof Hda as (Hd16 & HB16 & _ & Hbytes).
    unfold cycle_ok, bk_out, bk_next, bk_addr. rewrite Hf, Hrd, Hpos, Hs. cbn [s_step block_cfg k_rom k_aw].
    rewrite wait_later by discriminate. split; [reflexivity|]. cbn [fst N.sub].
    rewrite (e_hi_entry (nlen d) (4 * B)) by lia.
    destruct (N.leb_spec (nlen d) (q_sp q)) as [Hz|Hz]; [apply (R_zlp _ q d); [reflexivity | exact Ef | exact Hz]|].
    destruct (Hbytes (q_sp q) Hz) as [Hin _].
    apply (R_send _ q d B); cbn [b_fsm b_len b_sent b_pos b_dlen b_base b_rd]; try assumption; try reflexivity.
    - apply serving_begin; assumption.
    - lia.
    - apply ptr_entry; lia.
    - rewrite lookup_addr by lia. reflexivity.
  Qed.

  Lemma step_zlp : forall st s i, b_fsm st = B_SEND_ZLP -> rel st s -> cycle_ok st s i.
  Proof.
    intros st s i Hf HR. destruct HR as [| | | |q d _ Ef Hz|]; try congruence.
    unfold cycle_ok, bk_out, bk_next. rewrite Hf. cbn [s_step].
    rewrite wait_now, (deliver_zlp c mps q d i Ef Hz). split; [reflexivity | apply R_idle; reflexivity].
  Qed.

  Lemma step_send : forall st s i, b_fsm st = B_SEND_DESCRIPTOR -> rel st s -> s_env (req_legal c) s i = true ->
    cycle_ok st s i.
  Proof.
    intros st s i Hf HR HE. destruct HR as [| | | | |q d B s _ Hlen Hda Hs Hpos Hdl Hbase Hrd]; try congruence.
    rewrite (serving_env c mps _ d q (b_sent st) s i Hs) in HE. destruct (held_fields _ _ HE) as (_ & Ew & Esp & _).
    pose proof Hs as (Hl & _ & Hlt & Hsl & _). pose proof (held_len c mps q i Hl Ew Esp) as Hlen'.
    destruct (lenq_bounds c mps q Hmps Hl) as [_ Hl2]. clear HE Hl.
    destruct rom_bounds as (Hrom & Haw & _). pose proof Hda as (_ & _ & Hdmax & Hbytes).
    rewrite <- Hpos in Hlt. destruct (Hbytes _ Hlt) as [Hin Hbyte].
    destruct (serving_step c mps lat d q (b_sent st) s i Hs) as [Ho Hn]. rewrite <- Hpos in *.
    unfold cycle_ok, bk_out, bk_next, bk_addr, on_first, on_last. rewrite Hf, Ho, Hdl, Hlen, Hbase, Esp.
    cbn [block_cfg k_rom k_aw k_pw].
    set (last := (nlen d =? b_pos st + 1) || (lenq q <=? b_sent st + 1)) in *. split.
    - rewrite Hrd, bits_0. change (2 ^ 2) with 4. rewrite Hbyte. f_equal. rewrite Hpos. lia.
    - revert Hn. subst last. destruct (i_ready i); [destruct (_ || _) eqn:El|]; intro Hn.
      + rewrite Hn. apply R_idle. reflexivity.
      + (* accepted *)
        assert (Hp1 : b_pos st + 1 < nlen d) by lia.
        pose proof (pw_facts d Hdmax). destruct (Hbytes _ Hp1) as [Hin1 _].
        rewrite (trunc_small pw), (trunc_small 16) by (change (2 ^ 16) with 65536; lia).
        apply (R_send _ q d B); cbn [b_fsm b_len b_sent b_pos b_dlen b_base b_rd negb andb];
          try assumption; try reflexivity; try lia.
        rewrite bits_spec. change (2 ^ 2) with 4.
        rewrite (N.mod_small ((b_pos st + 1) / 4)) by (apply div4_lt; [apply size_ge_2|]; lia).
        rewrite trunc_small by lia. reflexivity.
      + apply (R_send _ q d B); cbn [b_fsm b_len b_sent b_pos b_dlen b_base b_rd andb]; try assumption; try reflexivity.
        rewrite N.shiftr_div_pow2. change (2 ^ 2) with 4. rewrite trunc_small by lia. reflexivity.
  Qed.

  Lemma rel_step : forall st s i, rel st s -> s_env (req_legal c) s i = true -> cycle_ok st s i.
  Proof.
    intros st s i HR HE. destruct (b_fsm st) eqn:Hf.
    - apply step_idle; assumption.
    - apply step_start; assumption.
    - apply step_type; assumption.
    - apply step_desc; assumption.
    - apply step_send; assumption.
    - apply step_zlp; assumption.
  Qed.

  Theorem block_refines_from : forall tr st s, rel st s ->
    env_ok sstate (s_step resp lat) (s_env (req_legal c)) s tr = true ->
    run (bk_step cfg) st tr = run (s_step resp lat) s tr.
  Proof. apply sim_run. intros st s i HR HE. apply and_comm, rel_step; assumption. Qed.
End Refine.

(* C09: the block-ROM handler answers every legal request sequence as the specification machine does *)
Theorem block_refines : forall c mps, coll_okb c = true -> 1 <= mps /\ mps < 65536 -> forall tr,
  env_ok sstate (s_step (resp_of c mps) (bk_lat c)) (s_env (req_legal c)) SIdle tr = true ->
  run (bk_step (block_cfg c mps)) bk_init tr = run (s_step (resp_of c mps) (bk_lat c)) SIdle tr.
Proof.
  intros c mps Hc Hm tr HE. apply (block_refines_from c mps (coll_ok_facts c Hc) (proj1 Hm)); [apply R_idle; reflexivity | exact HE].
Qed.

Lemma bk_dec_enc : forall c st, bk_wf c st -> bk_dec c (bk_enc c st) = st.
Proof.
  intros c [f len pos sent dlen base didx rd] (H1 & H2 & H3 & H4 & H5 & H6).
  assert (Hf : fsm_code f < 2 ^ 3) by (destruct f; reflexivity).
  unfold bk_dec, bk_enc, pair. cbn [b_fsm b_len b_pos b_sent b_dlen b_base b_didx b_rd] in *.
  rewrite !unpair_hi, !unpair_lo by assumption. destruct f; reflexivity.
Qed.

Lemma len_next_lt : forall c i, len_next c i < 2 ^ 16.
Proof.
  intros c i. unfold len_next. pose proof (i_wlen_lt i).
  destruct (i_wlen i <? i_sp i); [apply trunc_lt|].
  destruct (i_wlen i - i_sp i <=? k_mps c); [change (2 ^ 16) with 65536; lia | apply trunc_lt].
Qed.

Lemma imap_lookup_lt : forall c v, imap_lookup c v < 2 ^ 8.
Proof. intros. unfold imap_lookup. destruct (assoc v (k_imap c)); [apply trunc_lt | reflexivity]. Qed.

Lemma bk_wf_step : forall c st i, bk_wf c st -> bk_wf c (fst (bk_step c st i)).
Proof.
  intros c st i (H1 & H2 & H3 & H4 & H5 & H6). unfold bk_step, bk_next, bk_wf. cbn [fst].
  pose proof (len_next_lt c i) as HL. pose proof (pow2_pos 16) as P16. pose proof (pow2_pos (k_aw c)) as Paw.
  destruct (b_fsm st); cbn [b_len b_pos b_sent b_dlen b_base b_didx].
  - repeat split; assumption.
  - repeat split; try assumption; [apply trunc_lt|]. destruct (k_indirect c); [apply imap_lookup_lt | assumption].
  - repeat split; assumption.
  - repeat split; try assumption; apply bits_lt.
  - destruct (i_ready i); [destruct (on_last st)|]; cbn [b_len b_pos b_sent b_dlen b_base b_didx];
      repeat split; try assumption; apply trunc_lt.
  - repeat split; assumption.
Qed.

Lemma bk_wf_init : forall c, bk_wf c bk_init.
Proof. intros c. repeat split; apply pow2_pos. Qed.
