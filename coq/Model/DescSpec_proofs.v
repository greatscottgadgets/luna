(* C09 -- proofs about the protocol-level specification of Model/DescSpec.v: a host that reads a descriptor in
   max-packet-size pieces from a responder that answers each IN transaction as `respond` says receives exactly
   the first min(wLength, len) bytes, in full packets followed by one short packet (a ZLP exactly when the total
   is a multiple of the packet size below wLength). *)
From Coq Require Import NArith List Bool Lia ZifyBool.
Import ListNotations.
From LunaLib Require Import ListFacts.
From LunaModel Require Import DescSpec.
Open Scope N_scope.

Lemma nlen_app : forall (A : Type) (a b : list A), nlen (a ++ b) = nlen a + nlen b.
Proof. intros. unfold nlen. rewrite app_length. lia. Qed.

Lemma nlen_firstn : forall (A : Type) n (l : list A), nlen (firstn n l) = N.min (N.of_nat n) (nlen l).
Proof. intros. unfold nlen. rewrite firstn_length. lia. Qed.

Lemma nlen_skipn : forall (A : Type) n (l : list A), nlen (skipn n l) = nlen l - N.of_nat n.
Proof. intros. unfold nlen. rewrite skipn_length. lia. Qed.

(* what the host must end up with *)
Definition stage_ok (d : desc) (mps wlen : N) (pkts : list (list N)) : Prop :=
  concat pkts = firstn (N.to_nat (N.min wlen (nlen d))) d /\
  Forall (fun p => nlen p <= mps) pkts /\
  exists init lastp, pkts = init ++ [lastp] /\
    Forall (fun p => nlen p = mps) init /\ nlen (concat init) < wlen /\
    (nlen lastp < mps \/ nlen (concat pkts) = wlen).

Section Stage.
  Variable d : desc.
  Variables mps wlen : N.

  Let pkt (sp : N) : list N := firstn (N.to_nat (N.min mps (wlen - sp))) (skipn (N.to_nat sp) d).

  Lemma pkt_len : forall sp, nlen (pkt sp) = N.min (N.min mps (wlen - sp)) (nlen d - sp).
  Proof. intros sp. unfold pkt. rewrite nlen_firstn, nlen_skipn. lia. Qed.

  (* each hypothesis is declared where it is first needed: declared earlier, `lia` would make every lemma after it take it *)
  Hypothesis HL : nlen d < 2048.

  (* the next offset is not wrapped by the 11-bit start_position *)
  Lemma stage_continues : forall sp, sp <= nlen d ->
    (nlen (pkt sp) <? mps) || (wlen <=? sp + nlen (pkt sp)) = false ->
    nlen (pkt sp) = mps /\ sp_next mps sp = sp + mps /\ sp + mps <= nlen d /\ sp + mps < wlen.
  Proof.
    intros sp Hsp Hgo. pose proof (pkt_len sp) as Hp.
    assert (Hfull : nlen (pkt sp) = mps) by lia.
    repeat split; try lia. apply N.mod_small. lia.
  Qed.

  (* any responder that answers with these pieces; `respond` is one when the collection has d *)
  Variable resp : N -> response.
  Hypothesis Hresp : forall sp, resp sp = RData (pkt sp).

  Lemma offsets_legal : forall fuel sp, sp <= nlen d -> sp < wlen ->
    Forall (fun o => o < wlen /\ o <= nlen d) (offsets fuel resp mps wlen sp sp).
  Proof.
    induction fuel as [|fuel IH]; intros sp Hsp Hlt; [constructor|].
    cbn [offsets]. constructor; [split; assumption|]. rewrite Hresp.
    destruct ((nlen (pkt sp) <? mps) || (wlen <=? sp + nlen (pkt sp))) eqn:Estop; [constructor|].
    destruct (stage_continues sp Hsp Estop) as (Hfull & Hnext & Hsp' & Hlt').
    rewrite Hnext, Hfull. apply IH; assumption.
  Qed.

  Hypothesis Hmps : 1 <= mps.

  Lemma stage_from : forall fuel sp, sp <= nlen d -> sp < wlen -> (N.to_nat (nlen d - sp) < fuel)%nat ->
    exists pkts, data_stage fuel resp mps wlen sp sp = (pkts, false) /\
      firstn (N.to_nat sp) d ++ concat pkts = firstn (N.to_nat (N.min wlen (nlen d))) d /\
      Forall (fun p => nlen p <= mps) pkts /\
      exists init lastp, pkts = init ++ [lastp] /\ Forall (fun p => nlen p = mps) init /\
        sp + nlen (concat init) < wlen /\
        (nlen lastp < mps \/ sp + nlen (concat pkts) = wlen).
  Proof.
    induction fuel as [|fuel IH]; intros sp Hsp Hlt Hf; [lia|].
    cbn [data_stage]. rewrite Hresp.
    destruct ((nlen (pkt sp) <? mps) || (wlen <=? sp + nlen (pkt sp))) eqn:Estop.
    - (* short packet, or the host has everything it asked for: the stage ends *)
      pose proof (pkt_len sp) as Hp.
      exists [pkt sp]. split; [reflexivity|]. cbn [concat]. rewrite app_nil_r. split; [|split].
      + unfold pkt. rewrite <- firstn_plus, firstn_clip, (firstn_clip (N.to_nat (N.min _ _))).
        unfold nlen in *. f_equal. lia.
      + constructor; [lia | constructor].
      + exists [], (pkt sp). split; [reflexivity|]. split; [constructor|]. cbn [concat]. change (nlen (@nil N)) with 0. lia.
    - (* a full packet and more to come *)
      destruct (stage_continues sp Hsp Estop) as (Hfull & Hnext & Hsp' & Hlt').
      rewrite Hnext, Hfull.
      destruct (IH (sp + mps) Hsp' Hlt') as (pk & E & Hc & Hall & init & lastp & Epk & Hinit & Hbelow & Hlast); [lia|].
      rewrite E. exists (pkt sp :: pk). split; [reflexivity|]. split; [|split].
      + rewrite <- Hc. cbn [concat]. rewrite app_assoc. f_equal.
        replace (N.to_nat (sp + mps)) with (N.to_nat sp + N.to_nat mps)%nat by lia.
        rewrite firstn_plus. unfold pkt. do 3 f_equal. lia.
      + constructor; [lia | exact Hall].
      + exists (pkt sp :: init), lastp. split; [rewrite Epk; reflexivity|].
        split; [constructor; assumption|].
        cbn [concat]. rewrite !nlen_app, Hfull. lia.
  Qed.

  Hypothesis Hw : 1 <= wlen.

  Theorem data_stage_present :
    exists pkts, data_stage (S (length d)) resp mps wlen 0 0 = (pkts, false) /\ stage_ok d mps wlen pkts.
  Proof.
    (* stage_from at offset 0 is this statement, up to computation *)
    apply (stage_from (S (length d)) 0); unfold nlen; lia.
  Qed.
End Stage.

(* the zero-length-packet rule follows from the shape *)
Lemma stage_zlp_rule : forall d mps wlen pkts, 1 <= mps -> stage_ok d mps wlen pkts ->
  forall init lastp, pkts = init ++ [lastp] ->
  (lastp = [] <-> nlen (concat pkts) mod mps = 0 /\ nlen (concat pkts) < wlen).
Proof.
  intros d mps wlen pkts Hm (Hc & Hall & init0 & last0 & E0 & Hinit & Hbelow & Hlast) init lastp E.
  rewrite E in E0. apply app_inj_tail in E0 as [<- <-].
  assert (Hci : nlen (concat init) = nlen init * mps).
  { clear -Hinit. induction Hinit as [|p l Hp _ IH]; [reflexivity|].
    cbn [concat]. rewrite nlen_app, IH, Hp. unfold nlen. cbn [length]. lia. }
  assert (Htot : nlen (concat pkts) = nlen init * mps + nlen lastp).
  { rewrite E, concat_app, nlen_app. cbn [concat]. rewrite app_nil_r, Hci. reflexivity. }
  split.
  - intros ->. change (nlen (@nil N)) with 0 in *. rewrite N.add_0_r in Htot.
    split; [rewrite Htot; apply N.mod_mul; lia | lia].
  - intros [Hmod Hlt].
    destruct Hlast as [H|H]; [|lia].
    rewrite Htot in Hmod. rewrite N.add_comm, N.mod_add in Hmod by lia.
    rewrite N.mod_small in Hmod by exact H.
    destruct lastp; [reflexivity | unfold nlen in Hmod; cbn [length] in Hmod; lia].
Qed.

Lemma respond_present : forall c mps value wlen d, find_desc c (v_type value) (v_index value) = Some d ->
  forall sp, respond c mps value wlen sp = RData (firstn (N.to_nat (N.min mps (wlen - sp))) (skipn (N.to_nat sp) d)).
Proof. intros c mps value wlen d H sp. unfold respond. rewrite H. reflexivity. Qed.

Theorem data_stage_respond : forall c mps value wlen d,
  find_desc c (v_type value) (v_index value) = Some d -> 1 <= mps -> 1 <= wlen -> nlen d < 2048 ->
  exists pkts, data_stage (S (length d)) (respond c mps value wlen) mps wlen 0 0 = (pkts, false) /\ stage_ok d mps wlen pkts.
Proof.
  intros c mps value wlen d Hf Hm Hw HL.
  exact (data_stage_present d mps wlen HL _ (respond_present c mps value wlen d Hf) Hm Hw).
Qed.

Theorem offsets_respond_legal : forall c mps value wlen d fuel,
  find_desc c (v_type value) (v_index value) = Some d -> 1 <= mps -> 1 <= wlen -> nlen d < 2048 ->
  Forall (fun o => o < wlen /\ o <= nlen d) (offsets fuel (respond c mps value wlen) mps wlen 0 0).
Proof.
  intros c mps value wlen d fuel Hf Hm Hw HL.
  apply (offsets_legal d mps wlen HL _ (respond_present c mps value wlen d Hf)); lia.
Qed.
