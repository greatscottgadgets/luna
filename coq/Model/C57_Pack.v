(* C57 -- a self-delimiting pairing N * N -> N (linear in the operands' sizes, no bounds needed), used to pack the
   structured state of specification observers (several unbounded byte queues at once) into the single N the
   run-time oracle machinery (Machine.first_bad) carries.

     npair a b = 2^t + 2^(t+1) * (s + 2^t * (a + 2^s * b))      with s = N.size a, t = N.size s

   read from the least significant end: t zeros and a one (t in unary), s in t bits, a in s bits, then b. *)
From Coq Require Import NArith List Lia.
Import ListNotations.
From LunaLib Require Import BitFacts.
Open Scope N_scope.

Fixpoint ctz_pos (p : positive) : N :=
  match p with xO q => N.succ (ctz_pos q) | _ => 0 end.
Definition ctz (n : N) : N := match n with 0 => 0 | Npos p => ctz_pos p end.

(* written with shifts and masks (linear time in the VM); the arithmetic reading is npair_arith / nunpair_arith *)
Definition npair (a b : N) : N :=
  let s := N.size a in let t := N.size s in
  N.shiftl (N.shiftl (N.shiftl b s + a) t + s) (t + 1) + N.shiftl 1 t.

Definition nunpair (m : N) : N * N :=
  let t := ctz m in
  let m1 := N.shiftr m (t + 1) in
  let s := N.land m1 (N.ones t) in
  let m2 := N.shiftr m1 t in
  (N.land m2 (N.ones s), N.shiftr m2 s).

Lemma npair_arith : forall a b,
  npair a b = let s := N.size a in let t := N.size s in 2 ^ t + 2 ^ (t + 1) * (s + 2 ^ t * (a + 2 ^ s * b)).
Proof. intros. unfold npair. cbv zeta. rewrite !N.shiftl_mul_pow2. lia. Qed.

Lemma nunpair_arith : forall m,
  nunpair m = let t := ctz m in let m1 := m / 2 ^ (t + 1) in let s := m1 mod 2 ^ t in let m2 := m1 / 2 ^ t in
              (m2 mod 2 ^ s, m2 / 2 ^ s).
Proof. intros. unfold nunpair. cbv zeta. rewrite !N.shiftr_div_pow2, !N.land_ones. reflexivity. Qed.

Lemma ctz_double : forall n, n <> 0 -> ctz (2 * n) = N.succ (ctz n).
Proof. intros [|p] H; [contradiction | reflexivity]. Qed.

Lemma ctz_odd : forall k, ctz (2 * k + 1) = 0.
Proof. intros [|p]; reflexivity. Qed.

Lemma ctz_pow2_odd : forall t k, ctz (2 ^ t * (2 * k + 1)) = t.
Proof.
  intro t. induction t as [|t IH] using N.peano_ind; intro k.
  - rewrite N.pow_0_r, N.mul_1_l. apply ctz_odd.
  - rewrite N.pow_succ_r', <- N.mul_assoc, ctz_double, IH; [reflexivity|].
    pose proof (pow2_pos t). lia.
Qed.

(* each field is a digit of what is left of the word: its bound is that of N.size *)
Theorem nunpair_npair : forall a b, nunpair (npair a b) = (a, b).
Proof.
  intros a b. rewrite nunpair_arith, npair_arith. cbv zeta.
  set (s := N.size a). set (t := N.size s). set (X := s + 2 ^ t * (a + 2 ^ s * b)).
  assert (Ht : 2 ^ t < 2 ^ (t + 1)) by (apply N.pow_lt_mono_r; lia).
  assert (Ec : ctz (2 ^ t + 2 ^ (t + 1) * X) = t).
  { replace (2 ^ t + 2 ^ (t + 1) * X) with (2 ^ t * (2 * X + 1)) by (rewrite N.pow_add_r, N.pow_1_r; lia).
    apply ctz_pow2_odd. }
  rewrite Ec, (digit_div (2 ^ (t + 1))) by exact Ht. unfold X.
  rewrite (digit_mod (2 ^ t)), (digit_div (2 ^ t)) by apply N.size_gt.
  rewrite digit_mod, digit_div by apply N.size_gt. reflexivity.
Qed.

(* fixed-length lists of arbitrary numbers *)
Fixpoint lenc (l : list N) : N :=
  match l with [] => 0 | x :: t => npair x (lenc t) end.
Fixpoint ldec (k : nat) (m : N) : list N :=
  match k with O => [] | S k' => let (x, r) := nunpair m in x :: ldec k' r end.

Theorem ldec_lenc : forall l, ldec (length l) (lenc l) = l.
Proof.
  induction l as [|x l IH]; [reflexivity|]. cbn [length lenc ldec]. rewrite nunpair_npair, IH. reflexivity.
Qed.
