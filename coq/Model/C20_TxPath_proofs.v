(* C20 -- proofs about Model/C20_TxPath.v.  The one-hot multiplexer (any number of sources) passes a source through
   unchanged when it alone is valid and the or-lines of the others are 0, and shows source 0's data when two are
   valid together.  The transmit path of USBDevice refines the bus-owner specification under the request discipline;
   its three sources are then never valid together, and every completed tx_valid run is a well-formed packet.  The
   boolean packet checker of the observers decides the declarative predicate, and the wire observer's state survives
   its packing. *)
From Coq Require Import NArith Arith List Bool Lia.
Import ListNotations.
From LunaLib Require Import Netlist Machine BitFacts.
From LunaModel Require Import Crc Handshake Handshake_proofs Usb2DataTx Usb2DataTx_proofs TokenDet TokenDet_proofs C20_TxPath.
Open Scope N_scope.

Definition src_at (l : list ohm_src) (j : nat) : ohm_src := nth j l ohm_idle.

Lemma valid_idx_none : forall l k, (forall j, s_valid (src_at l j) = false) -> valid_idx k l = [].
Proof.
  induction l as [|s l IH]; intros k H; [reflexivity|]. cbn [valid_idx].
  rewrite (H 0%nat : s_valid s = false). exact (IH (S k) (fun j => H (S j))).
Qed.

(* a valid source lies within the list: beyond it src_at is ohm_idle *)
Lemma valid_idx_one : forall l k j, s_valid (src_at l j) = true ->
  (forall j', j' <> j -> s_valid (src_at l j') = false) -> valid_idx k l = [(k + j)%nat].
Proof.
  induction l as [|s l IH]; intros k j Hv Ho; [destruct j; discriminate Hv|]. cbn [valid_idx].
  destruct j as [|j].
  - rewrite (Hv : s_valid s = true), Nat.add_0_r. cbn [app]. f_equal.
    apply valid_idx_none. intro j. exact (Ho (S j) ltac:(lia)).
  - rewrite (Ho 0%nat ltac:(lia) : s_valid s = false), <- Nat.add_succ_comm.
    apply IH; [exact Hv | intros j' Hn; exact (Ho (S j') ltac:(lia))].
Qed.

Lemma valid_idx_in : forall l k j, s_valid (src_at l j) = true -> In (k + j)%nat (valid_idx k l).
Proof.
  induction l as [|s l IH]; intros k j Hv; [destruct j; discriminate Hv|]. cbn [valid_idx]. apply in_or_app.
  destruct j as [|j].
  - left. rewrite (Hv : s_valid s = true), Nat.add_0_r. left. reflexivity.
  - right. rewrite <- Nat.add_succ_comm. apply IH, Hv.
Qed.

Lemma existsb_valid : forall l j, s_valid (src_at l j) = true -> existsb s_valid l = true.
Proof.
  induction l as [|s l IH]; intros j Hv; [destruct j; discriminate Hv|]. cbn [existsb].
  destruct j as [|j]; [rewrite (Hv : s_valid s = true); reflexivity | rewrite (IH j Hv); apply orb_true_r].
Qed.

Lemma or_fold_none : forall l, (forall j, s_or (src_at l j) = 0) -> fold_right (fun s acc => N.lor (s_or s) acc) 0 l = 0.
Proof.
  induction l as [|s l IH]; intro H; [reflexivity|]. cbn [fold_right].
  rewrite (H 0%nat : s_or s = 0). exact (IH (fun j => H (S j))).
Qed.

Lemma or_fold_one : forall l j, (forall j', j' <> j -> s_or (src_at l j') = 0) ->
  fold_right (fun s acc => N.lor (s_or s) acc) 0 l = s_or (src_at l j).
Proof.
  induction l as [|s l IH]; intros j H; [destruct j; reflexivity|]. cbn [fold_right].
  destruct j as [|j].
  - rewrite or_fold_none; [apply N.lor_0_r | intro j; exact (H (S j) ltac:(lia))].
  - rewrite (H 0%nat ltac:(lia) : s_or s = 0). apply IH. intros j' Hn. exact (H (S j') ltac:(lia)).
Qed.

Theorem ohm_exclusive : forall l j, s_valid (src_at l j) = true ->
  (forall j', j' <> j -> s_valid (src_at l j') = false /\ s_or (src_at l j') = 0) ->
  ohm_out l = src_at l j.
Proof.
  intros l j Hv Ho. unfold ohm_out, ohm_sel.
  rewrite (valid_idx_one l 0 j Hv (fun j' Hn => proj1 (Ho j' Hn))). cbn [Nat.add].
  rewrite (existsb_valid l j Hv), (or_fold_one l j (fun j' Hn => proj2 (Ho j' Hn))).
  fold (src_at l j). destruct (src_at l j) as [v o d]. cbn [s_valid s_or s_data] in *. subst v. reflexivity.
Qed.

Theorem ohm_none : forall l, (forall j, s_valid (src_at l j) = false) -> s_valid (ohm_out l) = false.
Proof.
  intros l H. unfold ohm_out. cbn [s_valid]. apply not_true_is_false. intro E.
  apply existsb_exists in E as [s [Hin Hs]]. apply (In_nth _ _ ohm_idle) in Hin as [j [Hj E]].
  pose proof (H j) as Hf. unfold src_at in Hf. rewrite E in Hf. congruence.
Qed.

Theorem ohm_valid_or : forall l, s_valid (ohm_out l) = existsb s_valid l.
Proof. reflexivity. Qed.

(* Encoder reports `invalid` with o = 0: this is why mutual exclusion is needed *)
Theorem ohm_overlap : forall l j k, j <> k ->
  s_valid (src_at l j) = true -> s_valid (src_at l k) = true ->
  s_valid (ohm_out l) = true /\ s_data (ohm_out l) = s_data (src_at l 0).
Proof.
  intros l j k Hn Vj Vk. split; [exact (existsb_valid l j Vj)|].
  unfold ohm_out, ohm_sel. cbn [s_data].
  pose proof (valid_idx_in l 0 j Vj) as Ij. pose proof (valid_idx_in l 0 k Vk) as Ik. cbn [Nat.add] in *.
  destruct (valid_idx 0 l) as [|a [|b r]]; try reflexivity.
  cbn [In] in Ij, Ik. destruct Ij as [Ij|[]]; destruct Ik as [Ik|[]]. congruence.
Qed.

Lemma testbit_top : forall lo k b, lo < 2 ^ k -> N.testbit (lo + 2 ^ k * b2n b) k = b.
Proof.
  intros lo k b H. apply testbit_b2n. rewrite digit_div by exact H. apply N.mod_small, b2n_lt2.
Qed.

Lemma pi_hs_ready : forall i, g_ready (pi_hs_word i) = pi_ready i.
Proof. intro i. exact (testbit_top (bits i 0 3) 3 (pi_ready i) (bits_lt i 0 3)). Qed.

Lemma pi_tx_ready : forall i, tx_ready (pi_tx_word i) = pi_ready i.
Proof.
  intro i. apply (testbit_top (pi_dpid i + 4 * bits i 5 3 + 32 * pi_payload i) 13).
  pose proof (bits_lt i 3 2 : pi_dpid i < 4). pose proof (bits_lt i 5 3 : _ < 8). pose proof (bits_lt i 8 8 : pi_payload i < 256).
  change (2 ^ 13) with 8192. lia.
Qed.

Lemma mux3 : forall c cd v d h hd, c && v = false -> c && h = false -> v && h = false ->
  ohm_out [ {| s_valid := c; s_or := 0; s_data := cd |}; {| s_valid := v; s_or := 0; s_data := d |};
            {| s_valid := h; s_or := 0; s_data := hd |} ]
  = {| s_valid := c || v || h; s_or := 0; s_data := if v then d else if h then hd else cd |}.
Proof. intros [] cd [] d [] hd; try discriminate; reflexivity. Qed.

Definition tx_part (s : txp_state) : tx_state := {| t_core := p_core s; t_crc := p_crc s |}.

Lemma txp_tstep_parts : forall s i,
  p_hs (fst (txp_tstep s i)) = fst (gen_step (p_hs s) (pi_hs_word i)) /\
  p_core (fst (txp_tstep s i)) = t_core (fst (tx_step (tx_part s) (pi_tx_word i))).
Proof.
  intros s i. unfold txp_tstep, tx_step, tx_part. cbn [t_core t_crc].
  destruct (gen_step _ _), (txo_core _ _ _ _ _ _ _ _) as [c' [[[txv txd] srdy] start]]. split; reflexivity.
Qed.

Lemma txp_tstep_data : forall s i, pi_chirp i = false -> g_tx (p_hs s) = false -> pi_rxvalid i = false ->
  tx_part (fst (txp_tstep s i)) = fst (tx_step (tx_part s) (pi_tx_word i)).
Proof.
  intros s i Hc Hh Hr. unfold txp_tstep, tx_step, tx_part. cbn [t_core t_crc].
  destruct (gen_step_out (p_hs s) (pi_hs_word i)) as [Ho _]. destruct (gen_step _ _) as [hs' ho]. cbn [snd] in Ho.
  destruct (txo_core _ _ _ _ _ _ _ _) as [c' [[[txv txd] srdy] start]].
  rewrite Ho, Hc, Hh, Hr, mux3 by (reflexivity || apply andb_false_r). cbn [fst p_core p_crc s_valid s_data crc_reg_next].
  destruct txv; reflexivity.
Qed.

Definition txp_rel (s : txp_state) (q : txq_state) : Prop :=
  gen_rel (p_hs s) (fst q) /\ tx_rel (tx_part s) (snd q) /\ txo_wf (p_core s).

Lemma txp_rel_init : txp_rel txp_init txq_init.
Proof. repeat split. Qed.

Lemma txp_tstep_out : forall s d i, tx_rel (tx_part s) d -> txo_wf (p_core s) ->
  let od := snd (txs_step d (pi_tx_word i)) in
  let m := ohm_out [ {| s_valid := pi_chirp i; s_or := 0; s_data := pi_chirpd i |};
                     {| s_valid := to_txvalid od; s_or := 0; s_data := to_txdata od |};
                     {| s_valid := g_tx (p_hs s); s_or := 0; s_data := g_data (p_hs s) |} ] in
  snd (txp_tstep s i) =
  {| po_valid := s_valid m; po_data := s_data m; po_sready := to_sready od;
     po_vrst := pi_chirp i; po_vdata := to_txvalid od; po_vhs := g_tx (p_hs s) |}.
Proof.
  intros s d i Hd Hw. set (w := pi_tx_word i). cbv zeta.
  destruct (tx_rel_step (tx_part s) d w Hd) as [_ <-].
  pose proof (txo_core_data_lt (p_core s) (tx_dpid w) (tx_svalid w) (tx_first w) (tx_last w) (tx_payload w) (tx_ready w)
                (crc_out (p_crc s)) Hw (tx_payload_lt w)) as Hlt.
  unfold txp_tstep, tx_step, tx_part. fold w. cbn [t_core t_crc].
  destruct (gen_step_out (p_hs s) (pi_hs_word i)) as [Ho Hd2]. destruct (gen_step _ _) as [hs' ho].
  destruct (txo_core _ _ _ _ _ _ _ _) as [c' [[[txv txd] srdy] start]]. cbn [fst snd] in *.
  destruct (tx_out_decode txv txd srdy Hlt) as (-> & -> & ->). rewrite Ho, Hd2. reflexivity.
Qed.

Lemma txq_tstep_next : forall h d i,
  fst (txq_tstep (h, d) i) = (fst (gsp_step h (pi_hs_word i)), fst (txs_step d (pi_tx_word i))).
Proof. intros. unfold txq_tstep. destruct (txs_step _ _). reflexivity. Qed.

Lemma no_hs_request : forall i, pi_hs_req i = false -> gen_request (pi_hs_word i) = None.
Proof.
  intros i H. unfold pi_hs_req in H. cbv zeta in H. unfold gen_request.
  destruct (g_stall _), (g_nak _), (g_ack _); try discriminate; reflexivity.
Qed.

Lemma no_data_request : forall i, pi_data_req i = false -> fst (txs_step S_IDLE (pi_tx_word i)) = S_IDLE.
Proof.
  intros i H. unfold pi_data_req in H. cbv zeta in H. cbn [txs_step fst].
  destruct (tx_svalid _), (tx_first _), (tx_last _); try discriminate; reflexivity.
Qed.

Lemma txq_env_data : forall d i, d <> S_IDLE -> txq_env (None, d) i = true ->
  pi_hs_req i = false /\ pi_chirp i = false /\ pi_rxvalid i = false /\ txs_env d (pi_tx_word i) = true.
Proof.
  intros d i Hd He.
  assert (E : negb (pi_hs_req i) && negb (pi_chirp i) && negb (pi_rxvalid i) && txs_env d (pi_tx_word i) = true)
    by (destruct d; [contradiction | exact He ..]).
  destruct (pi_hs_req i), (pi_chirp i), (pi_rxvalid i); try discriminate. auto.
Qed.

(* txq_env is false when a handshake and a data packet are in flight together, so txp_rel need not exclude it *)
Lemma txq_env_hs : forall x d i, txq_env (Some x, d) i = true ->
  d = S_IDLE /\ pi_data_req i = false /\ pi_chirp i = false.
Proof.
  intros x d i He. destruct d; try discriminate He. cbn [txq_env] in He.
  destruct (pi_data_req i), (pi_chirp i); try discriminate He. auto.
Qed.

Lemma txp_tx_rel_step : forall s q i, txp_rel s q -> txq_env q i = true ->
  tx_rel (tx_part (fst (txp_tstep s i))) (fst (txs_step (snd q) (pi_tx_word i))).
Proof.
  intros s [h d] i (Hh & Hd & _) He. cbn [fst snd] in *.
  destruct (tx_rel_step (tx_part s) d (pi_tx_word i) Hd) as [Hd' _].
  destruct (txs_busy d) eqn:Eb.
  - assert (Hn : d <> S_IDLE) by (intros ->; discriminate).
    destruct h as [x|]; [destruct (Hn (proj1 (txq_env_hs x d i He)))|].
    apply txq_env_data in He as (_ & Hc & Hr & _); [|exact Hn].
    rewrite txp_tstep_data by assumption. exact Hd'.
  - (* the CRC unit may see anything: it is cleared with the next PID byte *)
    assert (d = S_IDLE) as -> by (clear - Eb; destruct d; [reflexivity | discriminate ..]).
    refine (tx_rel_core_only _ _ _ _ (txs_idle_next _) Hd'). symmetry. apply txp_tstep_parts.
Qed.

Lemma txp_out_step : forall s q i, txp_rel s q -> txq_env q i = true ->
  txp_norm (snd (txp_tstep s i)) = snd (txq_tstep q i).
Proof.
  intros s [h d] i (Hh & Hd & Hw) He. cbn [fst snd] in *.
  rewrite (txp_tstep_out s d i Hd Hw). cbv zeta. unfold txq_tstep. destruct h as [x|]; cbn [gen_rel] in Hh.
  - destruct Hh as [-> ->]. destruct (txq_env_hs x d i He) as (-> & _ & ->). reflexivity.
  - rewrite Hh. destruct d; [destruct (pi_chirp i); reflexivity | ..];
      (apply txq_env_data in He as (_ & Hc & _); [|discriminate]);
      rewrite Hc, mux3 by (reflexivity || apply andb_false_r);
      destruct (txs_step _ _) as [d' od]; cbn [snd]; destruct (to_txvalid od); reflexivity.
Qed.

Lemma txp_rel_step : forall s q i, txp_rel s q -> txq_env q i = true ->
  txp_rel (fst (txp_tstep s i)) (fst (txq_tstep q i)) /\
  txp_norm (snd (txp_tstep s i)) = snd (txq_tstep q i).
Proof.
  intros s q i H He. split; [|apply txp_out_step; assumption].
  pose proof (txp_tx_rel_step s q i H He) as Hd'.
  destruct q as [h d]. destruct H as (Hh & _ & Hw). rewrite txq_tstep_next in *.
  destruct (txp_tstep_parts s i) as [E1 E2].
  split; [|split]; cbn [fst snd]; [rewrite E1; apply gen_rel_step, Hh | exact Hd' | rewrite E2; apply tx_step_core_wf, Hw].
Qed.

Theorem txp_refines : forall tr s q, txp_rel s q -> tenv_ok txq_tstep txq_env q tr = true ->
  map txp_norm (trun txp_tstep s tr) = trun txq_tstep q tr.
Proof.
  induction tr as [|i tr IH]; intros s q H He; [reflexivity|].
  cbn [tenv_ok] in He. apply andb_true_iff in He as [He1 He2].
  destruct (txp_rel_step s q i H He1) as [Hr Ho]. cbn [trun].
  destruct (txp_tstep s i) as [s' o]. destruct (txq_tstep q i) as [q' o']. cbn [fst snd map] in *.
  rewrite Ho. f_equal. apply IH; assumption.
Qed.

Corollary txp_from_reset : forall tr, tenv_ok txq_tstep txq_env txq_init tr = true ->
  map txp_norm (trun txp_tstep txp_init tr) = trun txq_tstep txq_init tr.
Proof. intros tr H. apply txp_refines; [apply txp_rel_init | exact H]. Qed.

Definition at_most_one (o : txp_out) : bool :=
  negb (po_vrst o && po_vdata o) && negb (po_vrst o && po_vhs o) && negb (po_vdata o && po_vhs o).

Lemma txq_out_excl : forall q i, at_most_one (snd (txq_tstep q i)) = true.
Proof.
  intros [h d] i. unfold txq_tstep. destruct (txs_step d (pi_tx_word i)) as [d' od]. cbn [snd].
  destruct h; [reflexivity|]. unfold at_most_one.
  destruct d; cbn [po_vrst po_vdata po_vhs]; rewrite ?andb_false_r, ?andb_false_l; reflexivity.
Qed.

Lemma trun_length : forall {S O} (step : S -> N -> S * O) tr s, length (trun step s tr) = length tr.
Proof. induction tr as [|i tr IH]; intros s; [reflexivity|]. cbn [trun]. destruct (step s i). cbn [length]. rewrite IH. reflexivity. Qed.

Lemma forallb_trun_spec : forall tr q, forallb at_most_one (trun txq_tstep q tr) = true.
Proof.
  induction tr as [|i tr IH]; intros q; [reflexivity|]. cbn [trun].
  pose proof (txq_out_excl q i) as E. destruct (txq_tstep q i) as [q' o]. cbn [snd forallb] in *. rewrite E, IH. reflexivity.
Qed.

(* under the request discipline the three sources of the multiplexer are never valid together *)
Theorem txp_exclusive_from : forall tr s q, txp_rel s q -> tenv_ok txq_tstep txq_env q tr = true ->
  forallb at_most_one (trun txp_tstep s tr) = true.
Proof.
  intros tr s q R H. pose proof (forallb_trun_spec tr q) as F.
  rewrite <- (txp_refines tr s q R H) in F. rewrite forallb_forall in F |- *. intros o Ho.
  (* normalisation leaves the source lines alone *)
  change (at_most_one o) with (at_most_one (txp_norm o)). apply F, in_map, Ho.
Qed.

Theorem txp_exclusive : forall tr, tenv_ok txq_tstep txq_env txq_init tr = true ->
  forallb at_most_one (trun txp_tstep txp_init tr) = true.
Proof. intros tr H. exact (txp_exclusive_from tr _ _ txp_rel_init H). Qed.

Definition nochirp (tr : list N) : Prop := Forall (fun i => pi_chirp i = false) tr.

Definition txs_good (d : txs_state) : Prop :=
  match d with
  | S_IDLE => True
  | S_PID p _ => In p data_pid_bytes
  | S_PAYLOAD p sent | S_CRC1 p sent | S_CRC2 p sent => In p data_pid_bytes /\ Forall (fun b => b < 256) sent
  end.

Lemma data_pid_lt : forall p, In p data_pid_bytes -> p < 256.
Proof. intros p H. cbn in H. repeat (destruct H as [H|H]; [subst; reflexivity|]). contradiction. Qed.

Lemma txs_good_wf : forall d, txs_good d -> txs_wf d.
Proof. intros d H. destruct d; cbn [txs_good txs_wf] in *; try exact I; apply data_pid_lt; tauto. Qed.

Lemma tx_pid_byte_in : forall d, d < 4 -> In (tx_pid_byte d) data_pid_bytes.
Proof.
  intros d B. assert (d = 0 \/ d = 1 \/ d = 2 \/ d = 3) as [E|[E|[E|E]]] by lia; rewrite E; cbn; tauto.
Qed.

Lemma txs_good_step : forall d w, txs_good d -> txs_good (fst (txs_step d w)).
Proof.
  intros d w H. pose proof (tx_pid_byte_in _ (bits_lt w 0 2 : tx_dpid w < 4)) as P. pose proof (tx_payload_lt w) as L.
  destruct d; cbn [txs_step fst txs_good] in *.
  - destruct (tx_svalid w && tx_first w); [exact P|]. destruct (tx_svalid w && tx_last w); [exact P | exact I].
  - destruct (tx_ready w); [destruct zlp; split; auto | exact H].
  - destruct H as [Hp Hs].
    assert (Forall (fun b => b < 256) (sent ++ [tx_payload w])) by (apply Forall_app; split; [exact Hs | constructor; [exact L | constructor]]).
    destruct (tx_ready w && tx_svalid w); [destruct (tx_last w); split; auto|]. destruct (tx_ready w); split; auto.
  - destruct (tx_ready w); exact H.
  - destruct (tx_ready w); [exact I | exact H].
Qed.

Lemma wf_hs : forall x, wf_tx_packet [hs_byte x].
Proof. intro x. left. exists x. reflexivity. Qed.

Lemma wf_data : forall p sent, In p data_pid_bytes -> Forall (fun b => b < 256) sent ->
  wf_tx_packet ((p :: sent ++ [crc16_usb sent mod 256]) ++ [crc16_usb sent / 256]).
Proof.
  intros p sent Hp Hs. right. exists p, sent. split; [exact Hp|]. split; [exact Hs|].
  unfold tx_wire. cbn [app]. rewrite <- app_assoc. reflexivity.
Qed.

Lemma txq_busy_step : forall q i, txs_good (snd q) -> txq_idle q = false -> txq_env q i = true ->
  let q' := fst (txq_tstep q i) in let o := snd (txq_tstep q i) in
  po_valid o = true /\
  if pi_ready i
  then if txq_idle q' then wf_tx_packet (txq_partial q ++ [po_data o]) else txq_partial q' = txq_partial q ++ [po_data o]
  else q' = q.
Proof.
  intros [h d] i Hg Hb He. cbv zeta. rewrite txq_tstep_next. unfold txq_tstep. cbn [snd] in Hg.
  destruct h as [x|].
  - (* a handshake *)
    destruct (txq_env_hs x d i He) as (-> & Hq & _).
    rewrite (no_data_request i Hq), <- pi_hs_ready. destruct (txs_step _ _) as [d' od]. cbn [snd gsp_step fst po_valid po_data].
    split; [reflexivity|]. destruct (g_ready _); [apply wf_hs | reflexivity].
  - (* a data packet *)
    assert (Hn : d <> S_IDLE) by (intros ->; discriminate).
    apply txq_env_data in He as (Hh & _ & _ & Hv); [|exact Hn].
    destruct (txs_out_fields d (pi_tx_word i) (txs_good_wf d Hg)) as (Fv & Fd & _). cbv zeta in Fv, Fd.
    cbn [gsp_step fst]. rewrite (no_hs_request i Hh), <- pi_tx_ready.
    destruct d as [|p z|p sent|p sent|p sent]; [contradiction | ..]; cbn [txs_env] in Hv;
      cbn [txs_step fst snd po_valid po_data] in *; rewrite ?Hv in *; rewrite Fv, Fd; (split; [reflexivity|]);
      destruct (tx_ready _); cbn [andb]; try reflexivity.
    + destruct z; reflexivity.
    + destruct (tx_last _); reflexivity.
    + exact (wf_data p sent (proj1 Hg) (proj2 Hg)).
Qed.

Lemma txq_idle_step : forall i, pi_chirp i = false ->
  po_valid (snd (txq_tstep (None, S_IDLE) i)) = false /\ txq_partial (fst (txq_tstep (None, S_IDLE) i)) = [].
Proof.
  intros i Hc. rewrite txq_tstep_next. split; [cbn; exact Hc|].
  cbn [gsp_step fst]. destruct (gen_request _); [reflexivity | apply txs_idle_next].
Qed.

Definition txw_bytes (m : option (list N)) : list N := match m with Some l => l | None => [] end.

(* the run splitter against the specification: between packets it holds at most a complete well-formed run that the
   next idle cycle closes; during a packet it holds the bytes accepted so far *)
Definition txw_inv (q : txq_state) (m : option (list N)) : Prop :=
  if txq_idle q then match m with Some l => wf_tx_packet l | None => True end else txw_bytes m = txq_partial q.

Lemma txw_step_valid : forall m ready data,
  txw_step m true ready data = (Some (if ready then txw_bytes m ++ [data] else txw_bytes m), None).
Proof. intros [l|] ready data; reflexivity. Qed.

Lemma txw_step_idle : forall m ready data, txw_step m false ready data = (None, m).
Proof. intros [l|] ready data; reflexivity. Qed.

Lemma txw_spec_step : forall q m i, txs_good (snd q) -> txw_inv q m ->
  txq_env q i = true -> pi_chirp i = false ->
  let o := snd (txq_tstep q i) in
  let r := txw_step m (po_valid o) (pi_ready i) (po_data o) in
  txw_inv (fst (txq_tstep q i)) (fst r) /\ match snd r with Some l => wf_tx_packet l | None => True end.
Proof.
  intros q m i Hg Hi He Hc. cbv zeta. unfold txw_inv in *. destruct (txq_idle q) eqn:Eq.
  - assert (q = (None, S_IDLE)) as -> by (destruct q as [[x|] []]; try discriminate; reflexivity).
    destruct (txq_idle_step i Hc) as [-> Hp]. rewrite txw_step_idle. cbn [fst snd txw_bytes].
    split; [|exact Hi]. rewrite Hp. destruct (txq_idle (fst _)); [exact I | reflexivity].
  - destruct (txq_busy_step q i Hg Eq He) as [-> Hs]. cbv zeta in Hs. rewrite txw_step_valid, Hi. cbn [fst snd txw_bytes].
    split; [|exact I]. destruct (pi_ready i).
    + destruct (txq_idle (fst _)); [exact Hs | symmetry; exact Hs].
    + rewrite Hs, Eq. reflexivity.
Qed.

Lemma tx_runs_spec : forall tr q m, txs_good (snd q) -> txw_inv q m ->
  tenv_ok txq_tstep txq_env q tr = true -> nochirp tr ->
  Forall wf_tx_packet (tx_runs m (combine tr (trun txq_tstep q tr))).
Proof.
  induction tr as [|i tr IH]; intros q m Hg Hi He Hc; [constructor|].
  cbn [tenv_ok] in He. apply andb_true_iff in He as [He1 He2]. inversion Hc as [|? ? Hc1 Hc2]; subst.
  pose proof (txw_spec_step q m i Hg Hi He1 Hc1) as S. cbv zeta in S.
  assert (Hg' : txs_good (snd (fst (txq_tstep q i)))).
  { destruct q as [h d]. rewrite txq_tstep_next. apply txs_good_step, Hg. }
  cbn [trun]. destruct (txq_tstep q i) as [q' o]. cbn [fst snd combine tx_runs] in *.
  destruct (txw_step m (po_valid o) (pi_ready i) (po_data o)) as [m' fin]. cbn [fst snd] in S.
  destruct S as [Hi' Hf].
  destruct fin as [l|]; [constructor; [exact Hf|]|]; apply IH; assumption.
Qed.

(* the run splitter reads tx_data only while tx_valid is high: normalisation does not matter *)
Lemma tx_runs_norm : forall tr outs m,
  tx_runs m (combine tr (map txp_norm outs)) = tx_runs m (combine tr outs).
Proof.
  induction tr as [|i tr IH]; intros outs m; [reflexivity|].
  destruct outs as [|o outs]; [reflexivity|]. cbn [map combine tx_runs].
  assert (E : txw_step m (po_valid (txp_norm o)) (pi_ready i) (po_data (txp_norm o))
              = txw_step m (po_valid o) (pi_ready i) (po_data o)).
  { unfold txp_norm. cbn [po_valid po_data]. destruct (po_valid o); [reflexivity|]. rewrite !txw_step_idle. reflexivity. }
  rewrite E. destruct (txw_step m (po_valid o) (pi_ready i) (po_data o)) as [m' fin].
  rewrite IH. reflexivity.
Qed.

(* C20: every completed maximal tx_valid run hands the PHY exactly one well-formed packet *)
Theorem txp_runs_wellformed_from : forall tr s q m, txp_rel s q -> txs_good (snd q) -> txw_inv q m ->
  tenv_ok txq_tstep txq_env q tr = true -> nochirp tr ->
  Forall wf_tx_packet (tx_runs m (combine tr (trun txp_tstep s tr))).
Proof.
  intros tr s q m R Hg Hi He Hc. rewrite <- tx_runs_norm, (txp_refines tr s q R He).
  apply tx_runs_spec; assumption.
Qed.

Theorem txp_runs_wellformed : forall tr, tenv_ok txq_tstep txq_env txq_init tr = true -> nochirp tr ->
  Forall wf_tx_packet (tx_runs None (combine tr (trun txp_tstep txp_init tr))).
Proof. intros tr He Hc. exact (txp_runs_wellformed_from tr _ _ None txp_rel_init I I He Hc). Qed.

Lemma c20_list_eqb_eq : forall a b, c20_list_eqb a b = true <-> a = b.
Proof. exact list_eqb_eq. Qed.

Lemma mem_N_In : forall x l, mem_N x l = true <-> In x l.
Proof.
  intros x l. unfold mem_N. rewrite existsb_exists. split.
  - intros [y [Hy E]]. apply N.eqb_eq in E. subst. exact Hy.
  - intro H. exists x. split; [exact H | apply N.eqb_refl].
Qed.

Lemma is_hs_packetb_spec : forall l, is_hs_packetb l = true <-> exists h, l = [hs_byte h].
Proof.
  intro l. split.
  - destruct l as [|b [|c r]]; cbn [is_hs_packetb]; try discriminate. intro H.
    apply existsb_exists in H as [h [_ E]]. apply N.eqb_eq in E. exists h. subst. reflexivity.
  - intros [h ->]. cbn [is_hs_packetb]. apply existsb_exists. exists h. split; [destruct h; cbn; tauto | apply N.eqb_refl].
Qed.

Lemma is_data_packetb_wire : forall p payload, In p data_pid_bytes -> Forall (fun b => b < 256) payload ->
  is_data_packetb (tx_wire p payload) = true.
Proof.
  intros p payload Hp Hb. unfold tx_wire, is_data_packetb.
  set (tl2 := [crc16_usb payload mod 256; crc16_usb payload / 256]).
  assert (Hl : length (payload ++ tl2) = (length payload + 2)%nat) by (rewrite app_length; reflexivity).
  rewrite Hl. replace (length payload + 2 - 2)%nat with (length payload) by lia.
  rewrite firstn_app, Nat.sub_diag, firstn_all. cbn [firstn]. rewrite app_nil_r.
  rewrite skipn_app, Nat.sub_diag, skipn_all. cbn [skipn app].
  apply andb_true_iff. split; [|apply c20_list_eqb_eq; reflexivity].
  apply andb_true_iff. split; [|apply forallb_forall; intros b Hin; rewrite Forall_forall in Hb; apply N.ltb_lt, Hb, Hin].
  apply andb_true_iff. split; [apply mem_N_In; exact Hp | apply Nat.leb_le; lia].
Qed.

Theorem wf_tx_packetb_spec : forall l, wf_tx_packetb l = true <-> wf_tx_packet l.
Proof.
  intro l. unfold wf_tx_packetb, wf_tx_packet. rewrite orb_true_iff, is_hs_packetb_spec. split.
  - intros [H|H]; [left; exact H | right].
    destruct l as [|p rest]; [discriminate|]. unfold is_data_packetb in H.
    repeat (apply andb_true_iff in H as [H ?]).
    apply mem_N_In in H. apply Nat.leb_le in H2. apply c20_list_eqb_eq in H0.
    exists p, (firstn (length rest - 2) rest). split; [exact H|]. split.
    + apply Forall_forall. intros b Hb. rewrite forallb_forall in H1. apply N.ltb_lt, H1, Hb.
    + unfold tx_wire. f_equal. rewrite <- H0. symmetry. apply firstn_skipn.
  - intros [H|(p & payload & Hp & Hb & ->)]; [left; exact H | right; apply is_data_packetb_wire; assumption].
Qed.

(* the observer's state packing is faithful on well-formed states (the runtime oracle evaluates the typed
   observer c20_wire_step through it) *)
Definition w_wf (s : wstate) : Prop :=
  w_wait s < 65536 /\
  match w_ph s with
  | W_IDLE => True
  | W_RX l => Forall (fun b => b < 256) l
  | W_TX l src => Forall (fun b => b < 256) l /\ src < 8
  end.

Lemma w_dec_enc : forall s, w_wf s -> w_dec (w_enc s) = s.
Proof.
  intros [ph c e k w] [Hw Hp]. cbn [w_ph w_credit w_expect w_dataok w_wait] in *. unfold w_dec, w_enc.
  cbn [w_ph w_credit w_expect w_dataok w_wait]. rewrite (N.mod_small w 65536) by exact Hw.
  set (r := match ph with W_IDLE => 0 | W_RX l => 1 + 4 * bytes_enc l | W_TX l src => 2 + 4 * (src mod 8 + 8 * bytes_enc l) end).
  set (L := [(1, b2n c); (1, b2n e); (1, b2n k); (16, w)]).
  assert (HL : fields_ok L) by (repeat constructor; cbn [fst snd]; try apply b2n_lt2; exact Hw).
  replace (b2n c + 2 * b2n e + 4 * b2n k + 8 * w + 524288 * r) with (fields_under L r) by (cbn [fields_under L]; lia).
  rewrite (odd_b2n_add_2 c _ : N.odd (fields_under L r) = c),
          (fields_under_flag L r 1 e HL eq_refl : N.odd (_ / 2) = e),
          (fields_under_flag L r 2 k HL eq_refl : N.odd (_ / 4) = k),
          (fields_under_digit L r 3 HL : (_ / 8) mod 65536 = w),
          (fields_under_rest L r HL : _ / 524288 = r).
  f_equal. subst r.
  destruct ph as [|l|l src].
  - reflexivity.
  - rewrite (digit_mod 4), (digit_div 4) by reflexivity. rewrite bytes_dec_enc by exact Hp. reflexivity.
  - destruct Hp as [Hl Hs]. rewrite (N.mod_small src 8) by exact Hs.
    rewrite (digit_mod 4), (digit_div 4) by reflexivity. rewrite digit_mod, digit_div by exact Hs.
    rewrite bytes_dec_enc by exact Hl. reflexivity.
Qed.

Lemma ohm_run_map : forall n ow dw tr,
  run (ohm_mstep n ow dw) tt tr = map (fun i => snd (ohm_mstep n ow dw tt i)) tr.
Proof. induction tr as [|i tr IH]; [reflexivity|]. cbn [run map]. unfold ohm_mstep at 1. cbn [snd]. rewrite IH. reflexivity. Qed.
