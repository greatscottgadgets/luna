(* C57 -- proofs about Model/C57_Serial.v: what the ACMRequestHandlers model does, how the device specification
   classifies the requests the property is about, and the observer's state packing. *)
From Coq Require Import NArith List Bool Lia.
Import ListNotations.
From LunaLib Require Import Netlist Machine.
From LunaModel Require Import TokenDet TokenDet_proofs C57_Pack C57_Serial.
Open Scope N_scope.

Definition ao_claim (o : N) : bool := N.testbit o 0.
Definition ao_ack (o : N) : bool := N.testbit o 1.
Definition ao_txvalid (o : N) : bool := N.testbit o 2.
Definition ao_txlast (o : N) : bool := N.testbit o 3.

Lemma acm_out_bits : forall a b c d : bool,
  let o := b2n a + 2 * b2n b + 4 * b2n c + 8 * b2n d in
  N.testbit o 0 = a /\ N.testbit o 1 = b /\ N.testbit o 2 = c /\ N.testbit o 3 = d.
Proof. intros [] [] [] []; cbn; auto. Qed.

(* ACMRequestHandlers claims exactly the class request SET_LINE_CODING (0x20) and drives nothing otherwise *)
Theorem acm_reading : forall i,
  let o := snd (acm_step tt i) in
  (ao_claim o = true <-> (bits i 0 2 = 1 /\ bits i 2 8 = 32)) /\
  ao_ack o = (ao_claim o && N.testbit i 10) /\
  ao_txvalid o = (ao_claim o && N.testbit i 11) /\
  ao_txlast o = ao_txvalid o.
Proof.
  intro i. cbv zeta. unfold acm_step, ao_claim, ao_ack, ao_txvalid, ao_txlast. cbn [snd].
  destruct (acm_out_bits (acm_claim i) (acm_claim i && N.testbit i 10) (acm_claim i && N.testbit i 11) (acm_claim i && N.testbit i 11))
    as (-> & -> & -> & ->).
  split; [|repeat split]. unfold acm_claim. rewrite andb_true_iff, !N.eqb_eq. reflexivity.
Qed.

(* a SETUP packet's eight bytes as the request word classify_request reads *)
Definition mk_req (bm br wvalue windex wlength : N) : N :=
  bm + 256 * br + 65536 * wvalue + 4294967296 * windex + 281474976710656 * wlength.

Definition rq_type (req : N) : N := (rq_byte req 0 / 32) mod 4.

Theorem classify_vendor_reserved : forall P req, rq_type req = 2 \/ rq_type req = 3 -> classify_request P req = C_STALL.
Proof.
  intros P req H. unfold classify_request. fold (rq_type req).
  destruct H as [-> | ->]; reflexivity.
Qed.

Theorem classify_class_other : forall P req, rq_type req = 1 -> rq_byte req 1 <> 32 -> classify_request P req = C_STALL.
Proof.
  intros P req H Hn. unfold classify_request. fold (rq_type req). rewrite H. cbn [N.eqb Pos.eqb].
  apply N.eqb_neq in Hn. rewrite Hn. reflexivity.
Qed.

(* SET_LINE_CODING: bmRequestType 0x21, bRequest 0x20 *)
Theorem classify_set_line_coding : forall P req, rq_byte req 0 = 33 -> rq_byte req 1 = 32 -> rq_word req 6 <> 0 ->
  classify_request P req = C_OUT_DATA (rq_word req 6) DATA1B.
Proof.
  intros P req H0 H1 Hl. unfold classify_request. rewrite H0, H1. cbn.
  apply N.eqb_neq in Hl. rewrite Hl. reflexivity.
Qed.

Theorem classify_get_descriptor : forall P req, rq_byte req 0 = 128 -> rq_byte req 1 = 6 -> rq_word req 6 <> 0 ->
  classify_request P req =
  match lookup (rq_word req 2) (sp_desc P) with Some _ => C_IN (rq_word req 2) 0 (rq_word req 6) DATA1B | None => C_STALL end.
Proof.
  intros P req H0 H1 Hl. unfold classify_request. rewrite H0, H1. cbn.
  apply N.eqb_neq in Hl. rewrite Hl. reflexivity.
Qed.

Definition bytes_ok (l : list N) : Prop := Forall (fun b => b < 256) l.
Definition s_wf (s : sstate) : Prop :=
  match z_rx s with Some l => bytes_ok l | None => True end /\
  match z_tx s with Some l => bytes_ok l | None => True end /\
  bytes_ok (z_outq s) /\ bytes_ok (z_inq s).

Lemma olist_dec_enc : forall o, match o with Some l => bytes_ok l | None => True end -> olist_dec (olist_enc o) = o.
Proof.
  intros [l|] H; [|reflexivity]. unfold olist_enc, olist_dec.
  pose proof (bytes_enc_pos l) as P. destruct (bytes_enc l) eqn:E; [lia|]. rewrite <- E, bytes_dec_enc by exact H. reflexivity.
Qed.

Lemma s_fields_length : forall s, length (s_fields s) = 19%nat.
Proof. intros s. unfold s_fields. destruct (z_ctl s), (z_pend s); reflexivity. Qed.

Theorem s_dec_enc : forall s, s_wf s -> s_dec (s_enc s) = s.
Proof.
  intros s (Hrx & Htx & Ho & Hi). unfold s_dec, s_enc.
  rewrite <- (s_fields_length s), ldec_lenc.
  destruct s as [rx tx addr cfg tok ctl pend wait naks otog itog outq tent inq].
  cbn [z_rx z_tx z_outq z_inq] in *. unfold s_fields.
  cbn [z_rx z_tx z_addr z_cfg z_tok z_ctl z_pend z_wait z_naks z_otog z_itog z_outq z_tent z_inq].
  destruct ctl, pend; cbn [cphase_enc pend_enc app s_of_fields cphase_dec pend_dec];
    rewrite (olist_dec_enc rx Hrx), (olist_dec_enc tx Htx), (bytes_dec_enc outq Ho), (bytes_dec_enc inq Hi); reflexivity.
Qed.

Lemma acm_run_map : forall tr, run acm_step tt tr = map (fun i => snd (acm_step tt i)) tr.
Proof. induction tr as [|i tr IH]; [reflexivity|]. cbn [run map]. unfold acm_step at 1. cbn [snd]. rewrite IH. reflexivity. Qed.
