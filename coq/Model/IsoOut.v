(* C16 -- luna/gateware/usb/usb2/endpoints/isochronous_stream_out.py: USBIsochronousStreamOutEndpoint,
   parametric in max_packet_size (mps), the buffer size (depth) and the endpoint number.

   Reading guide
     1. io_in / io_out               one record per clock cycle of the "usb" domain
     2. is_state / is_next / is_outf the SPECIFICATION: a packet-level machine.  It collects the bytes of the
                                     packet being received in a list, decides ONCE per packet whether the packet is
                                     admitted (is there room for a maximum-size packet?), and when the packet has
                                     ended CRC-valid, addressed to the endpoint and admitted, appends its framed
                                     payload -- the whole of it, in one step -- to the output queue.  Nothing else
                                     ever enters the queue; the output stream shows the head of the queue.
     3. is_env                       the environment assumption (what an EndpointInterface guarantees)
     4. is_delivered / is_accepted   stream-level reading of a run of the specification (for the corollaries)
     5. io_state / io_next / io_outf the code-shaped MODEL: boundary-detector model (C28) + glue + FIFO model (C18)
     6. packing                      for the lock-step tie against the regenerated netlist

   DEFECT in the tree as found (findings/C16-truncated-packet.json/.diff): the gateware re-evaluates
   `sufficient_space` (space_available >= max_packet_size) for every byte; as soon as the packet's own first byte
   is in the buffer the test fails if exactly max_packet_size entries were free, the rest of the packet is
   refused, and the one-byte stump is committed.  The model below is the property-satisfying behaviour: the
   decision is taken when the packet's first byte reaches the buffer and latched for the rest of the packet
   (register m_adm; the fix 0002234, findings/C16-truncated-packet.diff). *)
From Coq Require Import NArith List Bool Arith.
Import ListNotations.
From LunaLib Require Import Netlist Machine PackN.
From LunaModel Require Import BoundaryDet TxFifo C16_OutTrack.
Open Scope nat_scope.

(* ------------------------------------------------------------------------------------------ *)
(* 1. Interface                                                                                *)
Record io_in := {
  x_tgt : bool;       (* tokenizer.endpoint == endpoint_number  &  tokenizer.is_out *)
  x_rdy : bool;       (* stream.ready *)
  x_rx  : rx_in       (* interface.rx.valid / next / payload, rx_complete, rx_invalid *)
}.

Record io_out := { y_valid : bool; y_first : bool; y_last : bool; y_data : N }.

Definition io_zero : io_out := {| y_valid := false; y_first := false; y_last := false; y_data := 0%N |}.
(* payload, first and last mean something only while valid is high *)
Definition io_norm (o : io_out) : io_out := if y_valid o then o else io_zero.

Section IsoOut.
  Variable mps : nat.      (* max_packet_size *)
  Variable depth : nat.    (* buffer_size *)

  (* ---------------------------------------------------------------------------------------- *)
  (* 2. Specification                                                                          *)
  Record is_state := {
    s_ph   : phase;        (* packet tracker (C16_OutTrack.v): bytes of the open packet, its strobes, timing *)
    s_tgt  : bool;         (* the open packet is addressed to this endpoint (sampled at its first byte) *)
    s_adm  : bool;         (* the open packet has been admitted *)
    s_q    : list entry;   (* accepted payload not yet delivered *)
    s_tent : bool          (* an entry was delivered in the previous cycle; its slot is released one cycle later *)
  }.

  Definition is_init : is_state :=
    {| s_ph := PIdle; s_tgt := false; s_adm := false; s_q := []; s_tent := false |}.

  (* free buffer slots as the endpoint sees them while no byte of the open packet is stored yet *)
  Definition is_free (s : is_state) : nat := depth - length (s_q s) - (if s_tent s then 1 else 0).

  Definition is_outf (s : is_state) : io_out :=
    match s_q s with
    | [] => io_zero
    | e :: _ => {| y_valid := true; y_first := e_first e; y_last := e_last e; y_data := e_data e |}
    end.

  Definition is_next (s : is_state) (i : io_in) : is_state :=
    let ph := s_ph s in
    (* output side: the head is taken when the consumer is ready *)
    let pop := x_rdy i && negb (match s_q s with [] => true | _ => false end) in
    let q1 := if pop then tl (s_q s) else s_q s in
    (* admission: decided in the cycle in which the packet's first byte is forwarded to the buffer *)
    let adm := match fwd ph with Some (_, true, _) => mps <=? is_free s | _ => s_adm s end in
    (* outcome: a CRC-valid, addressed, admitted packet is appended as a whole *)
    let q2 := match ph with
              | PReport bs c v => if s_tgt s && c && negb v && adm then q1 ++ frame true true bs else q1
              | _ => q1
              end in
    {| s_ph := trk_next ph (x_rx i);
       s_tgt := match ph with PIdle | PReport _ _ _ => x_tgt i | _ => s_tgt s end;
       s_adm := adm; s_q := q2; s_tent := pop |}.

  Fixpoint is_run (s : is_state) (ins : list io_in) : list io_out :=
    match ins with
    | [] => []
    | i :: t => is_outf s :: is_run (is_next s i) t
    end.

  (* ---------------------------------------------------------------------------------------- *)
  (* 3. Environment assumption, cycle by cycle (see props/C16.py ASSUMPTIONS for the justification):
        E0  payload bytes are bytes;
        E1  the addressing (tokenizer fields) does not change while a packet is being received and
            until its outcome has been acted upon;
        E2  no byte is presented in the cycle right after a packet ended (C28's assumption);
        E3  a packet addressed to the endpoint ends with exactly one of rx_complete / rx_invalid;
        E4  a packet addressed to the endpoint has at most max_packet_size bytes.                *)
  Definition rx_env (tgt : bool) (ph : phase) (xt : bool) (r : rx_in) : bool :=
    (r_pay r <? 256)%N &&
    match ph with
    | PIdle => true
    | POpen bs c v _ =>
        eqb xt tgt &&
        (if tgt then
           if negb (r_valid r) then xorb (c || r_cin r) (v || r_iin r)
           else if r_next r then length bs <? mps else true
         else true)
    | PEnded _ _ _ => eqb xt tgt && negb (r_valid r && r_next r)
    | PReport _ c v => if c || v then eqb xt tgt else true
    end.

  Definition is_env (s : is_state) (i : io_in) : bool := rx_env (s_tgt s) (s_ph s) (x_tgt i) (x_rx i).

  Fixpoint is_env_ok (s : is_state) (ins : list io_in) : bool :=
    match ins with
    | [] => true
    | i :: t => is_env s i && is_env_ok (is_next s i) t
    end.

  (* ---------------------------------------------------------------------------------------- *)
  (* 4. Stream-level reading of the specification                                               *)
  (* entries handed to the consumer (valid & ready), in order *)
  Fixpoint is_delivered (s : is_state) (ins : list io_in) : list entry :=
    match ins with
    | [] => []
    | i :: t => (match s_q s with e :: _ => if x_rdy i then [e] else [] | [] => [] end)
                ++ is_delivered (is_next s i) t
    end.

  (* payloads of the packets accepted (appended to the queue), in order *)
  Definition is_accept_now (s : is_state) : list (list N) :=
    match s_ph s with
    | PReport bs c v =>
        let adm := s_adm s in
        if s_tgt s && c && negb v && adm then [bs] else []
    | _ => []
    end.
  Fixpoint is_accepted (s : is_state) (ins : list io_in) : list (list N) :=
    match ins with
    | [] => []
    | i :: t => is_accept_now s ++ is_accepted (is_next s i) t
    end.

  (* payloads of ALL packets that ended CRC-valid and addressed to the endpoint, in order *)
  Definition is_good_now (s : is_state) : list (list N) :=
    match s_ph s with
    | PReport bs c v => if s_tgt s && c && negb v then [bs] else []
    | _ => []
    end.
  Fixpoint is_good (s : is_state) (ins : list io_in) : list (list N) :=
    match ins with
    | [] => []
    | i :: t => is_good_now s ++ is_good (is_next s i) t
    end.

  Fixpoint is_run_state (s : is_state) (ins : list io_in) : is_state :=
    match ins with
    | [] => s
    | i :: t => is_run_state (is_next s i) t
    end.

  (* ---------------------------------------------------------------------------------------- *)
  (* 5. Model                                                                                  *)
  Record io_state := {
    m_bd  : bd_state;      (* USBOutStreamBoundaryDetector (Model/BoundaryDet.v) *)
    m_ff  : tf_state;      (* TransactionalizedFIFO(width=10, depth=buffer_size) (Model/TxFifo.v) *)
    m_adm : bool;          (* the latched admission decision (the repair; see header) *)
    (* ghost registers, read only by the environment predicate io_env: *)
    g_tgt : bool;          (* x_tgt at the first byte of the packet *)
    g_cnt : nat            (* bytes of the packet so far, saturating at mps + 1 *)
  }.

  Definition io_init : io_state :=
    {| m_bd := bd_init; m_ff := tf_init depth; m_adm := false; g_tgt := false; g_cnt := 0 |}.

  Definition io_outf (m : io_state) : io_out :=
    let f := tf_outputs depth (m_ff m) in
    let rd := fo_read_data f in
    {| y_valid := negb (fo_empty f); y_first := N.testbit rd 9; y_last := N.testbit rd 8;
       y_data := (rd mod 256)%N |}.

  (* the FIFO's inputs in a cycle *)
  Definition io_fifo_in (m : io_state) (i : io_in) : tf_in :=
    let o := out (m_bd m) in
    let sufficient_space := mps <=? fo_space (tf_outputs depth (m_ff m)) in
    match bd_fwd (m_bd m) with               (* rx.next & rx.valid: a byte is presented *)
    | Some (p, fi, la) =>
        let receiving := if fi then sufficient_space else m_adm m in
        {| fi_read_en := x_rdy i; fi_read_commit := true; fi_read_discard := false;
           fi_write_en := x_tgt i && receiving;
           fi_write_commit := x_tgt i && o_complete o; fi_write_discard := x_tgt i && o_invalid o;
           fi_write_data := enc_entry {| e_data := p; e_first := fi; e_last := la |} |}
    | None =>
        {| fi_read_en := x_rdy i; fi_read_commit := true; fi_read_discard := false;
           fi_write_en := false;
           fi_write_commit := x_tgt i && o_complete o; fi_write_discard := x_tgt i && o_invalid o;
           fi_write_data := 0%N |}
    end.

  Definition io_next (m : io_state) (i : io_in) : io_state :=
    let r := x_rx i in
    let sufficient_space := mps <=? fo_space (tf_outputs depth (m_ff m)) in
    {| m_bd := bd_next (m_bd m) (rx_bd r);
       m_ff := tf_next_state depth (m_ff m) (io_fifo_in m i);
       m_adm := match bd_fwd (m_bd m) with Some (_, true, _) => sufficient_space | _ => m_adm m end;
       g_tgt := match fsm (m_bd m) with WAIT_FOR_FIRST_BYTE => x_tgt i | _ => g_tgt m end;
       g_cnt := match fsm (m_bd m) with
                | WAIT_FOR_FIRST_BYTE => 1
                | RECEIVE_AND_TRANSMIT => if r_valid r && r_next r then Nat.min (S (g_cnt m)) (S mps) else g_cnt m
                | OUTPUT_STROBES => g_cnt m
                end |}.

  Fixpoint io_run (m : io_state) (ins : list io_in) : list io_out :=
    match ins with
    | [] => []
    | i :: t => io_outf m :: io_run (io_next m i) t
    end.

  (* the environment assumption phrased on the model's registers (equal to is_env on related states) *)
  Definition io_env (m : io_state) (i : io_in) : bool :=
    let r := x_rx i in
    let b := m_bd m in
    (r_pay r <? 256)%N &&
    match fsm b with
    | WAIT_FOR_FIRST_BYTE =>
        if o_complete (out b) || o_invalid (out b) then eqb (x_tgt i) (g_tgt m) else true
    | RECEIVE_AND_TRANSMIT =>
        eqb (x_tgt i) (g_tgt m) &&
        (if g_tgt m then
           if negb (r_valid r) then xorb (buf_c b || r_cin r) (buf_i b || r_iin r)
           else if r_next r then g_cnt m <? mps else true
         else true)
    | OUTPUT_STROBES => eqb (x_tgt i) (g_tgt m) && negb (r_valid r && r_next r)
    end.
End IsoOut.

(* ------------------------------------------------------------------------------------------ *)
(* 6. Packed form.  Input word (LSB first): is_out, rx_valid, rx_next, rx_complete, rx_invalid, ready,
      endpoint[4], rx_payload[8].  Output word: valid, first, last, data[8].                   *)
Open Scope N_scope.

Definition io_in_of (ep : N) (w : N) : io_in :=
  {| x_tgt := (bits w 6 4 =? ep) && N.testbit w 0;
     x_rdy := N.testbit w 5;
     x_rx := {| r_valid := N.testbit w 1; r_next := N.testbit w 2; r_cin := N.testbit w 3;
                r_iin := N.testbit w 4; r_pay := bits w 10 8 |} |}.

Definition io_out_pack (o : io_out) : N :=
  b2n (y_valid o) + 2 * b2n (y_first o) + 4 * b2n (y_last o) + 8 * y_data o.

Definition io_out_of (w : N) : io_out :=
  {| y_valid := N.testbit w 0; y_first := N.testbit w 1; y_last := N.testbit w 2; y_data := bits w 3 8 |}.

(* the lock-step targets expose the stream fields masked by stream.valid (payload, first and last are don't-care
   while valid is low), so the packed model does the same *)
Definition io_mstep (mps depth : nat) (ep : N) (m : io_state) (w : N) : io_state * N :=
  (io_next mps depth m (io_in_of ep w), io_out_pack (io_norm (io_outf depth m))).

Definition io_menv (mps : nat) (ep : N) (m : io_state) (w : N) : bool := io_env mps m (io_in_of ep w).

(* state packing: bit fields (adm, g_tgt, g_cnt, FIFO state, boundary-detector state on top) *)
Definition cnt_bits (mps : nat) : N := N.size (N.of_nat (S mps)).

Definition io_enc (mps depth : nat) (m : io_state) : N :=
  PackN.pk (2 ^ 1) (b2n (m_adm m)) (PackN.pk (2 ^ 1) (b2n (g_tgt m)) (PackN.pk (2 ^ cnt_bits mps) (N.of_nat (g_cnt m))
    (PackN.pk (2 ^ tf_bits2 depth) (tf_enc2 depth (m_ff m)) (bd_enc (m_bd m))))).

Definition io_dec (mps depth : nat) (x : N) : io_state :=
  let a := N.land x (N.ones 1) in let x := N.shiftr x 1 in
  let g := N.land x (N.ones 1) in let x := N.shiftr x 1 in
  let c := N.land x (N.ones (cnt_bits mps)) in let x := N.shiftr x (cnt_bits mps) in
  let f := N.land x (N.ones (tf_bits2 depth)) in let x := N.shiftr x (tf_bits2 depth) in
  {| m_bd := bd_dec2 x; m_ff := tf_dec2 depth f; m_adm := nb a; g_tgt := nb g; g_cnt := N.to_nat c |}.

(* output words compared modulo don't-care fields *)
Definition io_normN (w : N) : N := io_out_pack (io_norm (io_out_of w)).
