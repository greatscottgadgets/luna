(* C48 (part 1) -- hand model and specification of
     luna/gateware/usb/usb3/application/request.py : SuperSpeedSetupDecoder.

   One cycle's packed input word :  sink.valid(4) first(1) last(1) data(32) header_in.setup(1) rx_good(1) rx_bad(1)
   One cycle's packed output word:  packet = recipient(5) type(2) is_in_request(1) request(8) value(16) index(16)
                                    length(16)  [= the eight setup bytes, little endian]  then received(1).

   The model has a switch `fixed`:
     sd_step false  is the code as it stood in /repo before c36ffb5 (three-state FSM);
     sd_step true   is the property-satisfying behaviour (the fixes c36ffb5, findings/C48-short-setup-packet.diff,
                    and 26e2331, findings/C48-abort-on-first-word.diff): a first word that is also the last word, or that
                    comes with rx_bad (packet aborted in that very cycle), does not start a setup parse; a partial
                    or non-last second word abandons the parse, and so does rx_good or rx_bad while the second
                    word is awaited or delivered.
   The code before c36ffb5 waited in PARSE_SECOND across packet boundaries when a good setup-flagged packet of
   4..7 bytes arrived: it then glued the first word of a LATER packet onto the stale first word (reporting a
   setup packet nobody sent) or dropped a genuine setup packet. *)
From Coq Require Import NArith List Bool.
Import ListNotations.
From LunaLib Require Import Netlist Machine.
Open Scope N_scope.

(* ---- reading one cycle's input word ---- *)
Definition sd_v (i : N) : N := bits i 0 4.
Definition sd_first (i : N) : bool := N.odd (bits i 4 1).
Definition sd_last (i : N) : bool := N.odd (bits i 5 1).
Definition sd_data (i : N) : N := bits i 6 32.
Definition sd_setup (i : N) : bool := N.odd (bits i 38 1).
Definition sd_good (i : N) : bool := N.odd (bits i 39 1).
Definition sd_bad (i : N) : bool := N.odd (bits i 40 1).
Definition sd_full (i : N) : bool := sd_v i =? 15.          (* sink.valid.all() *)
Definition sd_word (i : N) : bool := negb (sd_v i =? 0).    (* sink.valid.any(): a word is delivered *)

Definition sd_pack_out (out : N) (rcv : bool) : N := out + N.shiftl (b2n rcv) 64.

(* =====================  MODEL (code-shaped)  ===================== *)
Inductive sd_fsm := WaitFirst | ParseSecond | WaitValid.
Record sd_st := { d_fsm : sd_fsm; d_w0 : N; d_w1 : N;    (* local `packet` capture: two 32-bit words *)
                  d_out : N; d_rcv : bool }.             (* self.packet (64 bits) and its received strobe *)

Definition sd_init : sd_st := {| d_fsm := WaitFirst; d_w0 := 0; d_w1 := 0; d_out := 0; d_rcv := false |}.

Section Decoder.
  Variable fixed : bool.

  Definition sd_next (st : sd_st) (i : N) : sd_st :=
    match d_fsm st with
    | WaitFirst =>
        if sd_full i && sd_first i && sd_setup i && (if fixed then negb (sd_last i) && negb (sd_bad i) else true)
        then {| d_fsm := ParseSecond; d_w0 := sd_data i; d_w1 := d_w1 st; d_out := d_out st; d_rcv := false |}
        else {| d_fsm := WaitFirst; d_w0 := d_w0 st; d_w1 := d_w1 st; d_out := d_out st; d_rcv := false |}
    | ParseSecond =>
        let looks := if fixed then sd_word i else sd_full i in
        let take := looks && sd_full i && sd_last i in
        let nxt := if looks then (if take then WaitValid else WaitFirst) else ParseSecond in
        let nxt := if sd_bad i || (fixed && sd_good i) then WaitFirst else nxt in
        {| d_fsm := nxt; d_w0 := d_w0 st; d_w1 := if take then sd_data i else d_w1 st;
           d_out := d_out st; d_rcv := false |}
    | WaitValid =>
        if sd_good i
        then {| d_fsm := WaitFirst; d_w0 := d_w0 st; d_w1 := d_w1 st;
                d_out := d_w0 st + 2 ^ 32 * d_w1 st; d_rcv := true |}
        else {| d_fsm := if sd_bad i then WaitFirst else WaitValid; d_w0 := d_w0 st; d_w1 := d_w1 st;
                d_out := d_out st; d_rcv := false |}
    end.

  Definition sd_step (st : sd_st) (i : N) : sd_st * N := (sd_next st i, sd_pack_out (d_out st) (d_rcv st)).
End Decoder.

(* =====================  SPECIFICATION  =====================
   A machine that merely accumulates the words of the packet being delivered -- (data, valid mask) pairs, the
   header's setup flag sampled with the first word -- and decides, when the packet is reported good, with a
   declarative predicate on the complete word list. *)
Definition is_setup_packet (flag : bool) (ws : list (N * N)) : option N :=
  match ws with
  | [(d0, v0); (d1, v1)] => if flag && (v0 =? 15) && (v1 =? 15) then Some (d0 + 2 ^ 32 * d1) else None
  | _ => None
  end.

Record ssd_st := { s_cur : option (bool * list (N * N)); s_out : N; s_rcv : bool }.
Definition ssd_init : ssd_st := {| s_cur := None; s_out := 0; s_rcv := false |}.

Definition ssd_next (s : ssd_st) (i : N) : ssd_st :=
  let cur1 :=
    if sd_word i then
      if sd_first i then Some (sd_setup i, [(sd_data i, sd_v i)])
      else match s_cur s with Some (f, ws) => Some (f, ws ++ [(sd_data i, sd_v i)]) | None => None end
    else s_cur s in
  if sd_good i then
    match cur1 with
    | Some (f, ws) =>
        match is_setup_packet f ws with
        | Some p => {| s_cur := None; s_out := p; s_rcv := true |}
        | None => {| s_cur := None; s_out := s_out s; s_rcv := false |}
        end
    | None => {| s_cur := None; s_out := s_out s; s_rcv := false |}
    end
  else if sd_bad i then {| s_cur := None; s_out := s_out s; s_rcv := false |}
  else {| s_cur := cur1; s_out := s_out s; s_rcv := false |}.

Definition ssd_step (s : ssd_st) (i : N) : ssd_st * N := (ssd_next s i, sd_pack_out (s_out s) (s_rcv s)).

(* ---- environment: data packets as the link layer's DataPacketReceiver delivers them.
   Between packets (E0) a packet may start (first word: `first`, full unless it is also the last) or a verdict
   may arrive for a packet without payload; inside a packet (EIn) words continue (no `first`; full unless last)
   or the packet is aborted by rx_bad; after the last word (EAwait) nothing but the verdict arrives.
   rx_good never shares a cycle with a word and never coincides with rx_bad.  rx_bad MAY share a cycle with a
   word of the packet (the receiver aborts a packet on a K-symbol in the payload by strobing packet_bad in the
   very cycle it presents that word -- first, middle or last): the packet ends there, aborted. *)
Inductive sd_est := E0 | EIn | EAwait.
Definition sd_env_core (e : sd_est) (i : N) : option sd_est :=
  let w := sd_word i in let strobe := sd_good i || sd_bad i in
  match e with
  | E0 => if w then (if sd_first i then (if sd_last i then Some EAwait else if sd_full i then Some EIn else None)
                     else None)
          else Some E0
  | EIn => if w then (if sd_first i then None
                      else if sd_last i then Some EAwait else if sd_full i then Some EIn else None)
           else if sd_good i then None else if sd_bad i then Some E0 else Some EIn
  | EAwait => if w then None else if strobe then Some E0 else Some EAwait
  end.
(* without a verdict in the cycle of a word *)
Definition sd_env_plain (e : sd_est) (i : N) : option sd_est :=
  if (sd_word i && (sd_good i || sd_bad i)) || (sd_good i && sd_bad i) then None else sd_env_core e i.
Definition sd_env_next (e : sd_est) (i : N) : option sd_est :=
  if (sd_word i && sd_good i) || (sd_good i && sd_bad i) then None
  else if sd_word i && sd_bad i
       then match sd_env_core e i with Some _ => Some E0 | None => None end     (* a legal word, and the abort *)
       else sd_env_core e i.
Fixpoint sd_env_ok (e : sd_est) (tr : list N) : bool :=
  match tr with
  | [] => true
  | i :: t => match sd_env_next e i with Some e' => sd_env_ok e' t | None => false end
  end.

(* ---- packing for the lock-step obligation ---- *)
Definition sd_enc (st : sd_st) : N :=
  (match d_fsm st with WaitFirst => 0 | ParseSecond => 1 | WaitValid => 2 end)
  + 4 * (b2n (d_rcv st) + 2 * (d_w0 st + 2 ^ 32 * (d_w1 st + 2 ^ 32 * d_out st))).
Definition sd_dec (m : N) : sd_st :=
  let a := N.shiftr m 2 in let b := N.shiftr a 1 in let c := N.shiftr b 32 in
  {| d_fsm := match N.land m 3 with 0 => WaitFirst | 1 => ParseSecond | _ => WaitValid end;
     d_rcv := N.odd a; d_w0 := N.land b (N.ones 32); d_w1 := N.land c (N.ones 32); d_out := N.shiftr c 32 |}.
Definition sd_wf (st : sd_st) : Prop := d_w0 st < 2 ^ 32 /\ d_w1 st < 2 ^ 32.

(* the model paired with the environment tracker, so that the lock-step obligation can be restricted to
   environment-respecting histories (its counterexamples are then violations of the property itself) *)
Definition sd_est_code (e : sd_est) : N := match e with E0 => 0 | EIn => 1 | EAwait => 2 end.
Definition sd_est_of (n : N) : sd_est := match n with 0 => E0 | 1 => EIn | _ => EAwait end.
Definition sde_st := (sd_st * sd_est)%type.
Definition sde_step (fixed : bool) (s : sde_st) (i : N) : sde_st * N :=
  ((sd_next fixed (fst s) i, match sd_env_next (snd s) i with Some e' => e' | None => snd s end),
   sd_pack_out (d_out (fst s)) (d_rcv (fst s))).
Definition sde_env (s : sde_st) (i : N) : bool :=
  match sd_env_next (snd s) i with Some _ => true | None => false end.
Definition sde_enc (s : sde_st) : N := sd_est_code (snd s) + 4 * sd_enc (fst s).
Definition sde_dec (m : N) : sde_st := (sd_dec (N.shiftr m 2), sd_est_of (N.land m 3)).
Definition sde_wf (s : sde_st) : Prop := sd_wf (fst s).

(* input alphabet for the lock-step obligation: every combination of the control bits and valid masks
   {0000, 0011, 1111} with each of the given data words *)
Definition sd_in (v : N) (first last : bool) (data : N) (setup good bad : bool) : N :=
  v + N.shiftl (b2n first) 4 + N.shiftl (b2n last) 5 + N.shiftl data 6 + N.shiftl (b2n setup) 38
  + N.shiftl (b2n good) 39 + N.shiftl (b2n bad) 40.
Definition sd_alphabet (datas : list N) (vs : list N) : list N :=
  flat_map (fun d => flat_map (fun v => flat_map (fun c =>
    [sd_in v (N.testbit c 0) (N.testbit c 1) d (N.testbit c 2) (N.testbit c 3) (N.testbit c 4)])
    (range_bits 5)) vs) datas.

(* ---- the specification as a monitor over simulator traces (runtime oracle).  The specification state is
   packed with the word list cut after three words (longer packets are all alike: not a setup packet). *)
Definition sd_word_enc (w : N * N) : N := fst w + 2 ^ 32 * snd w.           (* 36 bits *)
Definition sd_word_dec (n : N) : N * N := (n mod 2 ^ 32, n / 2 ^ 32).
Definition sd_mon_enc (e : sd_est) (s : ssd_st) : N :=
  let '(some, f, ws) := match s_cur s with Some (f, ws) => (true, f, firstn 3 ws) | None => (false, false, []) end in
  sd_est_code e + 4 * (b2n some + 2 * (b2n f + 2 * (N.of_nat (length ws) + 4 * (
    sd_word_enc (nth 0 ws (0, 0)) + 2 ^ 36 * (sd_word_enc (nth 1 ws (0, 0)) + 2 ^ 36 * (sd_word_enc (nth 2 ws (0, 0))
    + 2 ^ 36 * (b2n (s_rcv s) + 2 * s_out s))))))).
Definition sd_mon_dec (m : N) : sd_est * ssd_st :=
  let a := m / 4 in let b := a / 2 in let c := b / 2 in let d := c / 4 in
  let d1 := d / 2 ^ 36 in let d2 := d1 / 2 ^ 36 in let d3 := d2 / 2 ^ 36 in
  let ws := firstn (N.to_nat (c mod 4)) [sd_word_dec (d mod 2 ^ 36); sd_word_dec (d1 mod 2 ^ 36); sd_word_dec (d2 mod 2 ^ 36)] in
  (sd_est_of (m mod 4),
   {| s_cur := if N.odd (a mod 2) then Some (N.odd (b mod 2), ws) else None;
      s_rcv := N.odd (d3 mod 2); s_out := d3 / 2 |}).
Definition sd_mon (m i o : N) : option (N * bool) :=
  let (e, s) := sd_mon_dec m in
  match sd_env_next e i with
  | None => None
  | Some e' => let (s', o') := ssd_step s i in Some (sd_mon_enc e' s', N.eqb o o')
  end.

(* ---- composed scenario: the real DataPacketReceiver feeding the decoder.  The target's output word carries the
   decoder's input interface as driven by the receiver, followed by the decoder's outputs:
     source.valid(4) first(1) last(1) data(32) header.setup(1) packet_good(1) packet_bad(1) | packet(64) received(1)
   so the referee "a setup request is reported iff a good setup-flagged 8-byte data packet was received, with exactly
   its bytes" is the same specification, read off the interface the real receiver drives.  Unlike sd_mon, a cycle in
   which the receiver leaves the environment sd_env_next is a FAILURE here: the composition also validates the
   environment assumption against the real upstream module. *)
Definition sdc_mon (m i o : N) : option (N * bool) :=
  let ii := bits o 0 41 in let oo := N.shiftr o 41 in
  let (e, s) := sd_mon_dec m in
  match sd_env_next e ii with
  | None => Some (m, false)
  | Some e' => let (s', o') := ssd_step s ii in Some (sd_mon_enc e' s', N.eqb oo o')
  end.
