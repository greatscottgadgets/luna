(* C53 -- the HyperRAMInterface model (Model/HyperRam.v).  hyperram_refines: the code-shaped model equals the HyperBus
   transaction specification hb_step on every input trace (outputs compared after hr_norm), for every latency
   L < 2^lw; the invariant `inv` bounds the latency counter by the loaded value.  hb_command_phase, hb_latency_phase,
   hb_bus_released: closed-form shape of a transaction of the specification (command phase, latency phase, bus
   ownership in every phase).  Packing lemmas for the lock-step obligations at the end. *)
From Coq Require Import NArith List Bool Lia.
Import ListNotations.
From LunaLib Require Import Netlist Machine BitFacts.
From LunaModel Require Import HyperRam.
Open Scope N_scope.

Lemma hb_ca_word_lt : forall ca k, hb_ca_word ca k < 2^16.
Proof.
  intros ca k. unfold hb_ca_word.
  destruct k as [|[p|p|]]; apply N.mod_lt; discriminate.
Qed.

Definition bus_of (st : hr_state) : bus_cycle :=
  if negb (r_cs st) then Deselect
  else if negb (r_clk_en st) then Setup
  else if negb (r_dq_e st) then Listen
  else if r_rwds_e st then DriveMasked (r_dq_o st) else Drive (r_dq_o st).

Definition phase_of (st : hr_state) : hb_phase :=
  match fsm st with
  | H_IDLE => PIdle | H_LATCH_RWDS => PCommand 0 | H_SHIFT0 => PCommand 1 | H_SHIFT1 => PCommand 2
  | H_SHIFT2 => PCommand 3 | H_LATENCY => PLatency (lat st) | H_READ => PRead | H_WRITE => PWrite
  | H_RECOVERY => PRecover
  end.

Definition abs (st : hr_state) : hb_state :=
  {| ph := phase_of st; c_read := is_read st; c_reg := is_reg st; c_linear := is_multi st; c_addr := cur_addr st;
     bus := bus_of st; p_rwds0 := lh_rwds st; p_dq_lo := lh_dq st |}.

Definition flags_ok (st : hr_state) : bool :=
  implb (r_clk_en st) (r_cs st) && implb (r_dq_e st) (r_clk_en st) && implb (r_rwds_e st) (r_dq_e st).

Definition inv (L : N) (st : hr_state) : Prop :=
  flags_ok st = true /\ r_dq_o st < 2^16 /\ (fsm st = H_LATENCY -> lat st <= L).

Lemma inv_init : forall L, inv L hr_init.
Proof. intros L. repeat split; reflexivity || discriminate. Qed.

Lemma pack_status_mult : forall a r w, exists y, pack_status a r w = 2^23 * y.
Proof.
  intros a r w. unfold pack_status. destruct r as [x|].
  - exists (b2n a + 4 * b2n w + (2 + 8 * x)). lia.
  - exists (b2n a + 4 * b2n w). lia.
Qed.

(* hr_norm tests bit 17 (dq_e) and, if it is clear, subtracts the field at bits 1..16 (dq_o) *)
Lemma norm_phy : forall c q e r s y, q < 2^16 ->
  hr_norm (pack_phy c q e r s + 2^23 * y) = pack_phy c (if e then q else 0) e r s + 2^23 * y.
Proof.
  intros c q e r s y Hq. unfold hr_norm.
  set (W := [(1, b2n c); (16, q); (1, b2n e)]).
  assert (HW : fields_ok W) by (repeat constructor; cbn [fst snd]; try apply b2n_lt2; exact Hq).
  replace (pack_phy c q e r s + 2^23 * y) with (fields_under W (4 * b2n r + 8 * b2n s + 32 * y))
    by (subst W; unfold pack_phy; cbn [fields_under]; lia).
  rewrite (fields_under_digit W _ 2 HW : (_ / 2^17) mod 2 = b2n e),
    (fields_under_digit W _ 1 HW : (_ / 2) mod 2^16 = q), b2n_eqb1.
  subst W. unfold pack_phy. cbn [fields_under]. destruct e; lia.
Qed.

Lemma norm_out : forall c q e r s a rd w, q < 2^16 ->
  hr_norm (pack_phy c q e r s + pack_status a rd w) = pack_phy c (if e then q else 0) e r s + pack_status a rd w.
Proof. intros c q e r s a rd w Hq. destruct (pack_status_mult a rd w) as [y ->]. apply norm_phy, Hq. Qed.

Lemma render_bus_of : forall st, flags_ok st = true ->
  render (bus_of st) = pack_phy (r_clk_en st) (if r_dq_e st then r_dq_o st else 0) (r_dq_e st) (r_rwds_e st) (r_cs st).
Proof.
  intros st H. unfold bus_of. unfold flags_ok in H.
  destruct (r_cs st), (r_clk_en st), (r_dq_e st), (r_rwds_e st); reflexivity || discriminate H.
Qed.

Lemma abs_out : forall L st d, inv L st -> hr_norm (hr_out st d) = hb_out (abs st) d.
Proof.
  intros L st d (Hf & Hq & _). unfold hr_out, hb_out, abs, phase_of. cbn [ph bus p_rwds0 p_dq_lo].
  rewrite (render_bus_of st Hf). destruct (fsm st); apply norm_out, Hq.
Qed.

Ltac hr_simpl :=
  cbn [fsm is_read is_reg is_multi cur_addr extra_lat lat lh_rwds lh_dq r_clk_en r_cs r_rwds_e r_dq_e r_dq_o
       ph c_read c_reg c_linear c_addr bus p_rwds0 p_dq_lo negb].

Lemma dq_o_next : forall L lw st d, r_dq_o st < 2^16 -> i_wdata d < 2^16 -> r_dq_o (hr_next L lw st d) < 2^16.
Proof.
  intros L lw st d Hq Hw. unfold hr_next.
  destruct (fsm st); [destruct (i_start d)|..]; hr_simpl; first [assumption | apply hb_ca_word_lt | reflexivity].
Qed.

Lemma flags_next : forall L lw st d, flags_ok (hr_next L lw st d) = true.
Proof.
  intros L lw st d. unfold hr_next, flags_ok.
  destruct (fsm st), (i_start d), (is_reg st); reflexivity.
Qed.

Section Step.
  Variables L lw : N.
  Hypothesis HL : L < 2 ^ lw.

  (* the counter register wraps modulo 2^lw; up to L it never does *)
  Lemma dec_wrap : forall n, n <> 0 -> n <= L -> (n + 2^lw - 1) mod 2^lw = n - 1.
  Proof.
    intros n H0 H1. apply sub1_mod; lia.
  Qed.

  Lemma inv_next : forall st d, inv L st -> i_wdata d < 2^16 -> inv L (hr_next L lw st d).
  Proof.
    intros st d (_ & Hq & Hl) Hw.
    split; [apply flags_next|]. split; [apply dq_o_next; assumption|].
    (* the counter is loaded with L in SHIFT2 and counts down from there *)
    unfold hr_next. destruct (fsm st); [destruct (i_start d)|..]; hr_simpl; try discriminate.
    - destruct (is_reg st && negb (is_read st)); [discriminate | intros _; apply N.le_refl].
    - destruct (lat st =? 0) eqn:E0; [destruct (is_read st); discriminate|]. apply N.eqb_neq in E0.
      intros _. rewrite dec_wrap by auto. specialize (Hl eq_refl). lia.
    - destruct (match read_word _ _ _ with Some _ => _ | None => _ end); discriminate.
    - destruct (is_reg st); [|destruct (i_final d)]; discriminate.
  Qed.

  Lemma abs_next : forall st d, inv L st -> hb_next L (abs st) d = abs (hr_next L lw st d).
  Proof.
    intros st d (_ & _ & Hl). unfold abs, phase_of, bus_of, hb_next, hr_next, with_phase, hb_cmd_ca, hr_ca.
    destruct st as [f rd rg mu ad el la lr ld ce cs re de dq]. hr_simpl.
    destruct f; hr_simpl; try reflexivity.
    - destruct (i_start d); reflexivity.
    - change (3 <? 3) with false. cbv iota. destruct (rg && negb rd); reflexivity.
    - destruct (la =? 0) eqn:E0; [destruct rd; reflexivity|]. apply N.eqb_neq in E0.
      hr_simpl. rewrite dec_wrap by auto. reflexivity.
    - destruct (match read_word lr ld d with Some _ => i_final d | None => false end); reflexivity.
    - destruct rg; [|destruct (i_final d)]; reflexivity.
  Qed.

  Theorem hyperram_refines_from : forall tr st, inv L st ->
    map hr_norm (run (hr_step L lw) st tr) = run (hb_step L) (abs st) tr.
  Proof.
    induction tr as [|i t IH]; intros st Hi; [reflexivity|].
    cbn [run hr_step hb_step map].
    rewrite (abs_out L st _ Hi), (abs_next st _ Hi). f_equal. apply IH, inv_next; [exact Hi | apply bits_lt].
  Qed.

  Corollary hyperram_refines : forall tr,
    map hr_norm (run (hr_step L lw) hr_init tr) = run (hb_step L) hb_init tr.
  Proof. intros tr. apply (hyperram_refines_from tr hr_init), inv_init. Qed.
End Step.

Section SpecShape.
  Variable L : N.

  Definition hb_quiet (b : bus_cycle) : N := render b + pack_status false None false.

  (* C53: an accepted request is followed, whatever the inputs, by two Setup cycles, the three CA words, write or latency *)
  Theorem hb_command_phase : forall s i0 i1 i2 i3 i4,
    ph s = PIdle -> i_start (hr_decode i0) = true ->
    let d := hr_decode i0 in
    let ca := hb_ca (negb (i_write d)) (i_reg d) (negb (i_single d)) (i_addr d) in
    let s' := run_state (hb_step L) s [i0; i1; i2; i3; i4] in
    tl (run (hb_step L) s [i0; i1; i2; i3; i4])
      = [hb_quiet Setup; hb_quiet Setup; hb_quiet (Drive (hb_ca_word ca 0)); hb_quiet (Drive (hb_ca_word ca 1))]
    /\ bus s' = Drive (hb_ca_word ca 2)
    /\ ph s' = (if i_reg d && i_write d then PWrite else PLatency L)
    /\ c_read s' = negb (i_write d) /\ c_reg s' = i_reg d /\ c_linear s' = negb (i_single d) /\ c_addr s' = i_addr d.
  Proof.
    intros s i0 i1 i2 i3 i4 Hp Hs. cbv zeta.
    destruct s as [p cr cg cl ca b pr pd]. cbn [ph] in Hp. subst p.
    cbn [run run_state hb_step fst tl].
    destruct (hr_decode i0) as [a rg w sg st fi wd dq rw]. cbn [i_start] in Hs. subst st.
    repeat split. destruct w; reflexivity.
  Qed.

  Lemma hb_out_latency : forall s d n, ph s = PLatency n -> hb_out s d = hb_quiet (bus s).
  Proof. intros s d n H. unfold hb_out. rewrite H. reflexivity. Qed.

  Lemma hb_next_latency_0 : forall s d, ph s = PLatency 0 ->
    hb_next L s d = with_phase s (if c_read s then PRead else PWrite) Listen.
  Proof. intros s d H. unfold hb_next. rewrite H. reflexivity. Qed.

  Lemma hb_next_latency_succ : forall s d n, ph s = PLatency (N.succ n) ->
    hb_next L s d = with_phase s (PLatency n) Listen.
  Proof.
    intros s d n H. unfold hb_next. rewrite H, N.sub_1_r, N.pred_succ.
    destruct (N.eqb_spec (N.succ n) 0) as [E|_]; [destruct (N.neq_succ_0 n E) | reflexivity].
  Qed.

  (* C53: the latency phase is n+1 cycles: what the previous phase handed over, then n Listen cycles, then the data phase *)
  Theorem hb_latency_phase : forall n s tr,
    ph s = PLatency (N.of_nat n) -> length tr = S n ->
    let s' := run_state (hb_step L) s tr in
    run (hb_step L) s tr = hb_quiet (bus s) :: repeat (hb_quiet Listen) n
    /\ ph s' = (if c_read s then PRead else PWrite) /\ bus s' = Listen
    /\ c_read s' = c_read s /\ c_reg s' = c_reg s /\ c_linear s' = c_linear s /\ c_addr s' = c_addr s.
  Proof.
    induction n as [|n IH]; intros s tr Hp Hl; cbv zeta.
    - destruct tr as [|i [|? ?]]; try discriminate. cbn [run run_state hb_step fst repeat].
      rewrite (hb_out_latency _ _ _ Hp), (hb_next_latency_0 _ _ Hp). repeat split.
    - destruct tr as [|i tr]; [discriminate|]. injection Hl as Hl. rewrite Nat2N.inj_succ in Hp.
      cbn [run run_state hb_step fst].
      rewrite (hb_out_latency _ _ _ Hp), (hb_next_latency_succ _ _ _ Hp).
      destruct (IH (with_phase s (PLatency (N.of_nat n)) Listen) tr eq_refl Hl) as [R Rest].
      split; [rewrite R; reflexivity | exact Rest].
  Qed.

  (* C53: DQ is driven only out of a CA-word or write phase, RWDS only out of a memory-space write phase *)
  Theorem hb_bus_released : forall s d,
    (drives_dq (bus (hb_next L s d)) = true -> (exists k, ph s = PCommand k /\ k <> 0) \/ ph s = PWrite) /\
    (drives_rwds (bus (hb_next L s d)) = true -> ph s = PWrite /\ c_reg s = false) /\
    (selected (bus (hb_next L s d)) = false -> (ph s = PIdle /\ i_start d = false) \/ ph s = PRecover).
  Proof.
    intros s d. destruct s as [p cr cg cl ca b pr pd]. unfold hb_next, with_phase. cbn [ph c_reg c_read].
    destruct p as [|[|q]|n| | |]; [destruct (i_start d) | | | | | destruct cg | ];
      cbn [bus drives_dq drives_rwds selected]; repeat split; try discriminate; auto.
    intros _. left. exists (N.pos q). split; [reflexivity | discriminate].
  Qed.

  Definition hb_cmd_ok (s : hb_state) : Prop :=
    match ph s with PRead => c_read s = true | PWrite => c_read s = false | _ => True end.

  Lemma hb_cmd_ok_next : forall s d, hb_cmd_ok s -> hb_cmd_ok (hb_next L s d).
  Proof.
    intros s d H. destruct s as [p cr cg cl ca b pr pd]. unfold hb_cmd_ok, hb_next, with_phase in *.
    destruct p as [|k|n| | |]; cbn [ph c_read c_reg p_rwds0 p_dq_lo] in *.
    - destruct (i_start d); exact I.
    - destruct k as [|q]; [exact I|]. cbn [ph c_read]. destruct (N.pos q <? 3); [exact I|].
      destruct cg, cr; cbn [andb negb ph]; try exact I; reflexivity.
    - destruct (n =? 0); [|exact I]. destruct cr; reflexivity.
    - destruct (match read_word pr pd d with Some _ => i_final d | None => false end); [exact I | exact H].
    - destruct cg; cbn [ph c_read]; [exact I|]. destruct (i_final d); [exact I | exact H].
    - exact I.
  Qed.

  Theorem hb_data_phase_matches_command : forall tr, hb_cmd_ok (run_state (hb_step L) hb_init tr).
  Proof. intro tr. apply run_state_inv; [intros s i; apply hb_cmd_ok_next | exact I]. Qed.
End SpecShape.

(* closed forms of the three command-address words: with A = a / 8 < 2^29 split at bit 16, the CA word is the
   layout  a mod 8 (16 bits) | A mod 2^16 | A / 2^16 + the three flags (16 bits) *)
Lemma hb_ca_words : forall rd rg li a, a < 2^32 ->
  let ca := hb_ca rd rg li a in
  hb_ca_word ca 0 = b2n rd * 2^15 + b2n rg * 2^14 + b2n li * 2^13 + a / 2^19 /\
  hb_ca_word ca 1 = (a / 8) mod 2^16 /\
  hb_ca_word ca 2 = a mod 8.
Proof.
  intros rd rg li a Ha. cbv zeta. unfold hb_ca, hb_ca_word.
  assert (HA : a / 8 < 2^29) by (apply N.div_lt_upper_bound; [discriminate | exact Ha]).
  rewrite (N.mod_small _ _ HA). change (2^19) with (8 * 2^16). rewrite <- N.div_div by discriminate.
  pose proof (N.div_mod (a / 8) (2^16)) as EA.
  assert (Hhi : a / 8 / 2^16 < 2^13) by (apply N.div_lt_upper_bound; [discriminate | exact HA]).
  assert (Hlo : (a / 8) mod 2^16 < 2^16) by (apply N.mod_lt; discriminate).
  assert (H8 : a mod 8 < 8) by (apply N.mod_lt; discriminate).
  pose proof (b2n_lt2 rd). pose proof (b2n_lt2 rg). pose proof (b2n_lt2 li).
  set (A := a / 8) in *. set (hi := A / 2^16) in *. set (lo := A mod 2^16) in *. set (m := a mod 8) in *.
  clearbody A hi lo m. (* lia below works with the four names A, hi, lo, m and EA, Hhi, Hlo, H8 *)
  specialize (EA ltac:(discriminate)).
  set (top := b2n rd * 2^15 + b2n rg * 2^14 + b2n li * 2^13 + hi).
  set (W := [(16, m); (16, lo); (16, top)]).
  assert (HW : fields_ok W) by (repeat constructor; cbn [fst snd]; subst top; lia).
  replace (_ + m) with (fields_word W) by (subst W top; cbn [fields_word]; lia).
  repeat split.
  - rewrite <- bits_spec. exact (bits_fields_word W 2 HW).
  - rewrite <- bits_spec. exact (bits_fields_word W 1 HW).
  - rewrite <- bits_0. exact (bits_fields_word W 0 HW).
Qed.

(* HyperRam.pk puts a w-bit digit below the rest with a shift; hr_dec takes digits off with masks and shifts, flags
   with N.odd and N.div2.  hpk_mod / hpk_div are unpair_lo / unpair_hi with pk folded and trunc unfolded, the form
   autorewrite meets in hr_dec (hr_enc st). *)
Lemma hpk_digit : forall w a r, pk w a r = a + 2^w * r.
Proof. intros. unfold pk. rewrite N.shiftl_mul_pow2. apply f_equal, N.mul_comm. Qed.

Lemma hpk_mod : forall w a r, a < 2^w -> N.land (pk w a r) (N.ones w) = a.
Proof. exact unpair_lo. Qed.

Lemma hpk_div : forall w a r, a < 2^w -> N.shiftr (pk w a r) w = r.
Proof. exact unpair_hi. Qed.

Lemma hpk_odd : forall b r, N.odd (pk 1 (b2n b) r) = b.
Proof. intros b r. rewrite hpk_digit. apply odd_b2n_add_2. Qed.

Lemma hpk_div2 : forall b r, N.div2 (pk 1 (b2n b) r) = r.
Proof. intros b r. rewrite N.div2_spec. apply hpk_div, b2n_lt2. Qed.

Lemma hr_fsm_code_lt : forall f, hr_fsm_code f < 2^4.
Proof. destruct f; reflexivity. Qed.

#[local] Hint Rewrite hpk_mod hpk_div using (apply hr_fsm_code_lt || assumption) : hpk.
#[local] Hint Rewrite hpk_odd hpk_div2 : hpk.

Lemma hr_dec_enc : forall st, hr_wf st -> hr_dec (hr_enc st) = st.
Proof.
  intros [f rd rg mu ad el la lr ld ce cs re de dq] (Ha & Hd & Hq).
  cbn [cur_addr lh_dq r_dq_o] in *. unfold hr_enc, hr_dec. cbv zeta. hr_simpl.
  autorewrite with hpk. destruct f; reflexivity.
Qed.

Lemma hr_wf_step : forall L lw st i, hr_wf st -> hr_wf (fst (hr_step L lw st i)).
Proof.
  intros L lw st i (Ha & Hd & Hq). unfold hr_step. cbn [fst].
  pose proof (bits_lt i 0 32 : i_addr (hr_decode i) < 2^32) as Ia.
  pose proof (bits_lt i 37 16 : i_wdata (hr_decode i) < 2^16) as Iw.
  split; [|split; [|apply dq_o_next; assumption]]; unfold hr_next;
    (destruct (fsm st); [destruct (i_start (hr_decode i))|..]); hr_simpl;
    first [assumption | reflexivity | apply N.mod_lt; discriminate].
Qed.

Lemma hr_wf_init : hr_wf hr_init.
Proof. repeat split. Qed.
