(* C33 -- proofs about Model/TxCtc.v: the code-shaped CTCSkipInserter / transmit-path models refine the
   unbounded-accounting specification machines on every trace on which the SKP debt stays below 2^ws
   (ski_refines, txp_refines); from reset the SKP cycles are those of a closed-form schedule (tx_schedule) and
   the PHY stream is the scrambled link stream with SKPs in between (tx_follow_from_reset, tx_stream_from_reset). *)
From Coq Require Import NArith List Bool Lia.
Import ListNotations.
From LunaLib Require Import Netlist Bits Machine Affine BitFacts.
From LunaModel Require Import Crc Scrambler Scrambler_proofs TxCtc.
Open Scope N_scope.

(* adding B <= L symbols crosses at most one multiple of L *)
Lemma div_step : forall L B n, 0 < L -> B <= L ->
  (n + B) / L = n / L + (if L <=? n mod L + B then 1 else 0) /\
  (n + B) mod L = (if L <=? n mod L + B then n mod L + B - L else n mod L + B).
Proof.
  intros L B n HL HB.
  pose proof (N.div_mod n L) as Hn. pose proof (N.mod_lt n L) as He.
  pose proof (N.div_mod (n + B) L) as Hn'. pose proof (N.mod_lt (n + B) L) as He'.
  (* both sides are a quotient and a remainder of n + B by L *)
  destruct (N.leb_spec L (n mod L + B)); apply (N.div_mod_unique L); lia.
Qed.

(* the update of `skips_to_send` as ski_next has it, before truncation *)
Definition owed_upd (o : N) (cross sending : bool) : N :=
  match cross, sending with
  | true, false => o + 1
  | false, true => o - 2
  | true, true => o - 1
  | false, false => o
  end.

Lemma owed_step : forall q skp (cross sending : bool),
  2 * skp <= q -> (sending = true -> 2 <= q - 2 * skp) ->
  let q' := q + (if cross then 1 else 0) in
  let skp' := if sending then skp + 1 else skp in
  q' - 2 * skp' = owed_upd (q - 2 * skp) cross sending /\ 2 * skp' <= q'.
Proof. intros q skp [] [] H Hs; cbn [owed_upd]; cbn zeta; try specialize (Hs eq_refl); lia. Qed.

Section SkiProofs.
  Variables L B we ws : N.
  Hypothesis HL : 0 < L.
  Hypothesis HB : B <= L.
  Hypothesis Hwe : L <= 2 ^ we.

  (* SKPs are never sent ahead of the debt *)
  Definition ssp_inv (s : ssp_st) : Prop := 2 * ss_skp s <= ss_n s / L.

  (* The code's state is a function of the specification's: its two counters hold the remainder n mod L
     and the debt. *)
  Definition ski_abs (s : ssp_st) : ski_st :=
    {| sk_owed := ssp_owed L s; sk_elapsed := ss_n s mod L;
       sk_rdy := ss_rdy s; sk_ov := ss_ov s; sk_od := ss_od s; sk_oc := ss_oc s |}.

  Definition ski_rel (k : ski_st) (s : ssp_st) : Prop := k = ski_abs s /\ ssp_inv s.

  Lemma ski_rel_init : ski_rel ski_init ssp_init.
  Proof. split; [reflexivity | apply N.le_0_l]. Qed.

  Lemma ssp_next_counters : forall s v d c can r, ssp_inv s ->
    let s' := ssp_next L B s v d c can r in
    let e := ss_n s mod L in
    let accept := v && ss_rdy s in
    let cross := accept && (L <=? e + B) in
    ss_n s' mod L = (if accept then if cross then e + B - L else e + B else e) /\
    ssp_owed L s' = owed_upd (ssp_owed L s) cross (ssp_sending L s can) /\
    ssp_inv s'.
  Proof.
    intros [n skp sr sv sd sc] v d c can r H. unfold ssp_inv, ssp_owed, ssp_sending, ssp_next in *.
    cbn [ss_n ss_skp ss_rdy] in *.
    destruct (div_step L B n HL HB) as [Dq Dm].
    assert (Eq : (if v && sr then n + B else n) / L
                 = n / L + (if v && sr && (L <=? n mod L + B) then 1 else 0)).
    { destruct (v && sr); [exact Dq | symmetry; apply N.add_0_r]. }
    split; [destruct (v && sr); [exact Dm | reflexivity]|].
    rewrite Eq. apply owed_step; [exact H|].
    intro E. apply andb_true_iff in E as [_ E]. apply N.leb_le. exact E.
  Qed.

  Lemma ssp_inv_next : forall s v d c can r, ssp_inv s -> ssp_inv (ssp_next L B s v d c can r).
  Proof. intros s v d c can r H. apply (ssp_next_counters s v d c can r H). Qed.

  Lemma ski_rel_next : forall k s v d c can r, ski_rel k s ->
    ssp_owed L (ssp_next L B s v d c can r) < 2 ^ ws ->
    ski_rel (ski_next L B we ws k v d c can r) (ssp_next L B s v d c can r).
  Proof.
    intros k s v d c can r [-> Hinv] Hs.
    destruct (ssp_next_counters s v d c can r Hinv) as (Em & Eo & Hinv').
    split; [|exact Hinv'].
    assert (Hlt : ss_n (ssp_next L B s v d c can r) mod L < 2 ^ we)
      by (eapply N.lt_le_trans; [apply N.mod_lt; lia | exact Hwe]).
    unfold ski_abs at 2. rewrite Eo in Hs |- *. rewrite Em in Hlt |- *.
    unfold ski_next. cbn [ski_abs sk_owed sk_elapsed sk_rdy sk_ov sk_od sk_oc]. f_equal.
    - apply N.mod_small. exact Hs.
    - destruct (v && ss_rdy s); [apply N.mod_small; exact Hlt | reflexivity].
  Qed.

  Theorem ski_refines : forall tr k s, ski_rel k s -> ssp_safe L B ws s tr = true ->
    run (ski_mstep L B we ws) k tr = run (ssp_mstep L B) s tr.
  Proof.
    intros tr k s R Hs.
    (* ssp_safe is, by conversion, env_ok of the condition that the debt after the step fits ws bits *)
    refine (sim_run _ _ ski_rel (fun s i => ssp_owed L (fst (ssp_mstep L B s i)) <? 2 ^ ws) _ tr k s R Hs).
    intros a b i Rab E. split; [apply ski_rel_next; [exact Rab | apply N.ltb_lt, E]|].
    destruct Rab as [-> _]. reflexivity.
  Qed.

  Corollary ski_refines_from_reset : forall tr, ssp_safe L B ws ssp_init tr = true ->
    run (ski_mstep L B we ws) ski_init tr = run (ssp_mstep L B) ssp_init tr.
  Proof. intros. apply ski_refines; [apply ski_rel_init | assumption]. Qed.
End SkiProofs.

Theorem ssp_never_ahead : forall L B, 0 < L -> B <= L -> forall tr s, ssp_inv L s ->
  ssp_inv L (run_state (ssp_mstep L B) s tr).
Proof.
  intros L B HL HB. apply run_state_inv. intros s i. apply ssp_inv_next; assumption.
Qed.

Lemma rep_byte_lt : forall n b, b < 256 -> rep_byte n b < 2 ^ (8 * N.of_nat n).
Proof.
  induction n as [|n IH]; intros b Hb; [reflexivity|].
  cbn [rep_byte]. specialize (IH b Hb).
  replace (8 * N.of_nat (S n)) with (8 + 8 * N.of_nat n) by lia.
  rewrite N.pow_add_r. change (2 ^ 8) with 256. lia.
Qed.

Lemma skp_data_lt : forall B, skp_data B < 2 ^ (8 * B).
Proof.
  intro B. unfold skp_data. rewrite <- (N2Nat.id B) at 2. apply rep_byte_lt. reflexivity.
Qed.

Lemma tx_unpack : forall (e : bool) od oc (rdy sending : bool) ks, od < 2 ^ 32 -> oc < 16 -> ks < 2 ^ 32 ->
  let o := tx_pack_out e od oc rdy sending ks in
  tx_oword o = (if e then 0 else od, if e then 0 else oc) /\ tx_oready o = rdy /\ tx_ohold o = sending /\
  tx_oks o = ks.
Proof.
  intros e od oc rdy sending ks Hd Hc Hk o.
  set (L := [(32, if e then 0 else od); (4, if e then 0 else oc); (1, b2n rdy); (1, b2n sending); (32, ks)]).
  assert (HL : fields_ok L).
  { repeat constructor; cbn [fst snd]; try apply b2n_lt2; try assumption; destruct e; (assumption || reflexivity). }
  assert (E : o = fields_word L).
  { subst o L. unfold tx_pack_out. rewrite !N.shiftl_mul_pow2. cbn [fields_word]. lia. }
  assert (O : forall x b, x = b2n b -> N.odd x = b) by (intros x [] ->; reflexivity).
  rewrite E. unfold tx_oword, tx_oready, tx_ohold, tx_oks. repeat split.
  - f_equal; [exact (bits_fields_word L 0 HL) | exact (bits_fields_word L 1 HL)].
  - apply O. exact (bits_fields_word L 2 HL).
  - apply O. exact (bits_fields_word L 3 HL).
  - exact (bits_fields_word L 4 HL).
Qed.

Lemma tx_real_cons2 : forall o o' t,
  tx_real (o :: o' :: t) = if tx_oready o && negb (tx_ohold o) then tx_oword o' :: tx_real (o' :: t) else tx_real (o' :: t).
Proof. reflexivity. Qed.
Lemma link_real_cons2 : forall i ti o o' t,
  link_real (i :: ti) (o :: o' :: t) =
  if tx_oready o && negb (tx_ohold o) then tx_iword i :: link_real ti (o' :: t) else link_real ti (o' :: t).
Proof. reflexivity. Qed.

Section TxProofs.
  Variables L we ws : N.
  Variable init : list bool.
  Hypothesis Hinit : length init = 16%nat.

  Notation step := (txp_step L we ws init).

  (* what makes the output word of a state readable field by field *)
  Definition txs_ok (st : txp_st) : Prop :=
    length (tx_reg st) = 16%nat /\ sk_od (tx_ctc st) < 2 ^ 32 /\ sk_oc (tx_ctc st) < 16.

  Lemma txs_ok_init : txs_ok (txp_init init).
  Proof. split; [exact Hinit | split; reflexivity]. Qed.

  Lemma tx_reg_next_length : forall reg d c r s, length reg = 16%nat ->
    length (tx_reg_next init reg d c r s) = 16%nat.
  Proof.
    intros. unfold tx_reg_next. destruct (com_first d c); [exact Hinit|].
    destruct (r && negb s); [apply lfsr_next_length|]; assumption.
  Qed.

  Lemma tx_next_reg : forall st i,
    tx_reg (fst (step st i)) = tx_reg_next init (tx_reg st) (tx_id i) (tx_ic i) (sk_rdy (tx_ctc st))
                                           (ski_sending (tx_ctc st) (tx_ican i)).
  Proof. reflexivity. Qed.

  Lemma tx_next_rdy : forall st i,
    sk_rdy (tx_ctc (fst (step st i))) =
    if ski_sending (tx_ctc st) (tx_ican i) then sk_rdy (tx_ctc st) else negb (tx_ieidle i).
  Proof. reflexivity. Qed.

  Lemma tx_next_word : forall st i,
    let sending := ski_sending (tx_ctc st) (tx_ican i) in
    sk_od (tx_ctc (fst (step st i))) =
      (if sending then skp_data 4 else xor_word (tx_ien i) (ks_word (tx_reg st)) (tx_id i) (tx_ic i)) /\
    sk_oc (tx_ctc (fst (step st i))) = (if sending then skp_ctrl 4 else tx_ic i).
  Proof. split; reflexivity. Qed.

  Lemma txs_ok_next : forall st i, txs_ok st -> txs_ok (fst (step st i)).
  Proof.
    intros st i (H1 & _). split; [rewrite tx_next_reg; apply tx_reg_next_length; exact H1|].
    destruct (tx_next_word st i) as [-> ->].
    destruct (ski_sending (tx_ctc st) (tx_ican i)).
    - split; reflexivity.   (* the SKP word is a constant *)
    - split; [apply xor_word_lt | apply (bits_lt _ _ 4)].
  Qed.

  Lemma tx_out_fields : forall st i, txs_ok st ->
    let o := snd (step st i) in let k := tx_ctc st in
    tx_oword o = (if tx_ieidle i then 0 else sk_od k, if tx_ieidle i then 0 else sk_oc k) /\
    tx_oready o = sk_rdy k /\ tx_ohold o = ski_sending k (tx_ican i) /\ tx_oks o = ks_word (tx_reg st).
  Proof.
    intros st i (H1 & H2 & H3). unfold txp_step. cbn [snd].
    apply tx_unpack; [exact H2 | exact H3 | apply ks_word_lt; exact H1].
  Qed.

  (* a SKP is inserted only in a cycle whose can_send_skp is high -- every input history *)
  Theorem tx_hold_can_run : forall tr st, txs_ok st -> tx_hold_can tr (run step st tr).
  Proof.
    induction tr as [|i t IH]; intros st Hok; [exact I|].
    rewrite run_cons. cbn [tx_hold_can]. split; [|apply IH, txs_ok_next, Hok].
    destruct (tx_out_fields st i Hok) as (_ & _ & Hh & _). rewrite Hh.
    unfold ski_sending. intro H. apply andb_true_iff in H. tauto.
  Qed.

  (* the keystream does not move over an inserted SKP, unless the replaced link word starts with COM (which
     restarts the LFSR) *)
  Theorem tx_follow_run : forall tr st, txs_ok st -> Forall (fun i => tx_ieidle i = false) tr ->
    tx_follow tr (run step st tr).
  Proof.
    induction tr as [|i t IH]; intros st Hok Henv; [exact I|].
    inversion Henv as [|? ? _ Ht]; subst.
    rewrite run_cons. destruct t as [|i' t']; [exact I|].
    pose proof (txs_ok_next st i Hok) as Hok'.
    specialize (IH (fst (step st i)) Hok' Ht). rewrite run_cons in IH |- *.
    inversion Ht as [|? ? He' _]; subst.
    destruct (tx_out_fields st i Hok) as (_ & _ & Hh & Hk).
    destruct (tx_out_fields (fst (step st i)) i' Hok') as (Hw & _ & _ & Hk'). rewrite He' in Hw.
    cbn [tx_follow]. split; [|split; [|exact IH]].
    - unfold tx_expected. destruct (tx_next_word st i) as [Ed Ec]. rewrite Hw, Hh, Hk, Ed, Ec.
      destruct (ski_sending (tx_ctc st) (tx_ican i)); reflexivity.
    - rewrite Hh, Hk, Hk', tx_next_reg. intros Hs Hc. unfold tx_reg_next. rewrite Hc, Hs, andb_false_r. reflexivity.
  Qed.

  Lemma tx_env_true : forall en i, tx_env en i = true ->
    tx_ieidle i = false /\ tx_ien i = en /\ (tx_ican i = true -> tx_id i = 0 /\ tx_ic i = 0).
  Proof.
    intros en i H. unfold tx_env in H. apply andb_true_iff in H as [H Hw]. apply andb_true_iff in H as [He Hen].
    split; [apply negb_true_iff, He | split; [apply Bool.eqb_prop, Hen|]].
    intro Hc. rewrite Hc in Hw. apply andb_true_iff in Hw as [Hd0 Hc0]. split; apply N.eqb_eq; assumption.
  Qed.

  (* The words that follow handed-over, non-replaced link words are Scrambler.scramble_words of exactly those
     link words.  While sink.ready is still low (the first cycle after reset) no word is handed over and the
     register stays at its restart value. *)
  Theorem tx_stream_run : forall en tr st, txs_ok st -> (sk_rdy (tx_ctc st) = false -> tx_reg st = init) ->
    forallb (tx_env en) tr = true ->
    tx_real (run step st tr) = scramble_words init en (tx_reg st) (link_real tr (run step st tr)).
  Proof.
    intros en. induction tr as [|i t IH]; intros st Hok Hr Henv; [reflexivity|].
    cbn [forallb] in Henv. apply andb_true_iff in Henv as [Hi Ht].
    rewrite run_cons. destruct t as [|i' t']; [reflexivity|].
    destruct (tx_env_true en i Hi) as (He & Hen & Hidle).
    assert (He' : tx_ieidle i' = false).
    { cbn [forallb] in Ht. apply andb_true_iff in Ht as [Hi' _]. apply (tx_env_true en i' Hi'). }
    pose proof (txs_ok_next st i Hok) as Hok'.
    destruct (tx_out_fields st i Hok) as (_ & Hrd & Hh & _).
    destruct (tx_out_fields (fst (step st i)) i' Hok') as (Hw' & _). rewrite He' in Hw'.
    specialize (IH (fst (step st i)) Hok').
    rewrite run_cons in IH |- *. rewrite tx_real_cons2, link_real_cons2, Hrd, Hh.
    destruct (sk_rdy (tx_ctc st)) eqn:Er; cbn [andb].
    - assert (Hr' : sk_rdy (tx_ctc (fst (step st i))) = false -> tx_reg (fst (step st i)) = init).
      { rewrite tx_next_rdy, Er, He. destruct (ski_sending _ _); discriminate. }
      specialize (IH Hr' Ht). rewrite tx_next_reg, Er in IH.
      destruct (ski_sending (tx_ctc st) (tx_ican i)) eqn:Es; cbn [negb].
      + unfold ski_sending in Es. apply andb_true_iff in Es as [Ec _].
        destruct (Hidle Ec) as [Hd0 Hc0]. rewrite Hd0, Hc0 in IH. exact IH.
      + destruct (tx_next_word st i) as [Ed Ec]. rewrite Es in Ed, Ec.
        cbn [scramble_words tx_iword]. rewrite Hw', Ed, Ec, Hen, IH. reflexivity.
    - assert (E : tx_reg (fst (step st i)) = tx_reg st).
      { rewrite tx_next_reg, Er, (Hr eq_refl). unfold tx_reg_next. destruct (com_first _ _); reflexivity. }
      rewrite E in IH. apply IH; [intros _; apply Hr; reflexivity | exact Ht].
  Qed.

  Theorem tx_hold_can_from_reset : forall tr, tx_hold_can tr (run step (txp_init init) tr).
  Proof. intro tr. apply tx_hold_can_run, txs_ok_init. Qed.

  Theorem tx_follow_from_reset : forall tr, Forall (fun i => tx_ieidle i = false) tr ->
    tx_follow tr (run step (txp_init init) tr).
  Proof. intros tr H. apply tx_follow_run; [apply txs_ok_init | exact H]. Qed.

  (* the word of the first cycle after reset is not handed over (sink.ready = 0): it is not part of the
     link stream, and tx_real / link_real skip it *)
  Theorem tx_stream_from_reset : forall en tr, forallb (tx_env en) tr = true ->
    tx_real (run step (txp_init init) tr) =
    scramble_words init en init (link_real tr (run step (txp_init init) tr)).
  Proof. intros en tr H. apply (tx_stream_run en tr (txp_init init)); [apply txs_ok_init | reflexivity | exact H]. Qed.
End TxProofs.

Section TxSched.
  Variables L we ws : N.
  Variable init : list bool.
  Hypothesis HL : 0 < L.   (* follows from HB; the statements of Properties/C33.v carry both *)
  Hypothesis HB : 4 <= L.
  Hypothesis Hwe : L <= 2 ^ we.
  Hypothesis Hinit : length init = 16%nat.

  Notation step := (txp_step L we ws init).

  Definition tx_rel (st : txp_st) (s : tsp_st) : Prop :=
    tx_reg st = ts_reg s /\ ski_rel L (tx_ctc st) (ts_ctc s).

  Lemma tx_rel_init : tx_rel (txp_init init) (tsp_init init).
  Proof. split; [reflexivity | apply ski_rel_init]. Qed.

  Theorem txp_refines : forall tr st s, tx_rel st s -> tsp_safe L ws init s tr = true ->
    run step st tr = run (tsp_step L init) s tr.
  Proof.
    intros tr st s R Hs.
    (* tsp_safe is, by conversion, env_ok of the same condition *)
    refine (sim_run _ _ tx_rel (fun s i => ssp_owed L (ts_ctc (fst (tsp_step L init s i))) <? 2 ^ ws) _ tr st s R Hs).
    intros [reg k] [reg' a] i [Rr Rk] E. cbn [tx_reg tx_ctc ts_reg ts_ctc] in Rr, Rk. subst reg'.
    pose proof Rk as [-> _]. split; [split; [reflexivity|] | reflexivity].
    apply ski_rel_next; try assumption. apply N.ltb_lt, E.
  Qed.

  Corollary txp_refines_from_reset : forall tr, tsp_safe L ws init (tsp_init init) tr = true ->
    run step (txp_init init) tr = run (tsp_step L init) (tsp_init init) tr.
  Proof. intros. apply txp_refines; [apply tx_rel_init | assumption]. Qed.

  Lemma sched_cycle : forall s t d c can, ss_n s = 4 * (t - 1) -> ss_rdy s = (0 <? t) ->
    let sending := can && (2 <=? sched_owed L 4 t (ss_skp s)) in
    let s' := ssp_next L 4 s true d c can true in
    ssp_sending L s can = sending /\
    ss_n s' = 4 * (t + 1 - 1) /\ ss_rdy s' = (0 <? t + 1) /\ ss_skp s' = if sending then ss_skp s + 1 else ss_skp s.
  Proof.
    clear. (* keeps lia from drawing the section's hypotheses into the statement *)
    intros s t d c can Hn Hrd sending s'.
    assert (Es : ssp_sending L s can = sending) by (unfold ssp_sending, ssp_owed; rewrite Hn; reflexivity).
    split; [exact Es|]. subst s'. unfold ssp_next. cbn [ss_n ss_rdy ss_skp]. rewrite Es, Hrd.
    replace (0 <? t + 1) with true by (symmetry; apply N.ltb_lt; lia).
    split; [destruct (N.ltb_spec 0 t); cbn [andb]; lia | split; [|reflexivity]].
    (* nothing is owed in the first cycle *)
    destruct t; [|destruct sending; reflexivity]. subst sending. rewrite andb_false_r. reflexivity.
  Qed.

  Lemma tx_sched_gen : forall tr st s t, ski_rel L (tx_ctc st) s -> txs_ok st ->
    ss_n s = 4 * (t - 1) -> ss_rdy s = (0 <? t) ->
    Forall (fun i => tx_ieidle i = false) tr ->
    sched_safe L 4 (2 ^ ws) t (ss_skp s) (map tx_ican tr) = true ->
    map tx_ohold (run step st tr) = sched L 4 t (ss_skp s) (map tx_ican tr) /\
    map tx_oready (run step st tr) = ready_sched t (length tr).
  Proof.
    induction tr as [|i tr IH]; intros st s t R Hok Hn Hrd Henv Hsafe; [split; reflexivity|].
    inversion Henv as [|? ? He Henv']; subst.
    rewrite run_cons. cbn [map sched length ready_sched sched_safe] in *.
    apply andb_true_iff in Hsafe as [Hs1 Hs2]. apply N.ltb_lt in Hs1.
    destruct (tx_out_fields L we ws init st i Hok) as (_ & Hr & Hh & _).
    pose proof R as [Rk _].
    set (sd := xor_word (tx_ien i) (ks_word (tx_reg st)) (tx_id i) (tx_ic i)).
    destruct (sched_cycle s t sd (tx_ic i) (tx_ican i) Hn Hrd) as (Es & Hn' & Hrd' & Hsk).
    set (s' := ssp_next L 4 s true sd (tx_ic i) (tx_ican i) true) in *.
    rewrite <- Hsk in Hs1, Hs2.
    assert (R' : ski_rel L (tx_ctc (fst (step st i))) s').
    { unfold txp_step. cbn [fst tx_ctc]. rewrite He. cbn [negb]. apply ski_rel_next; try assumption.
      fold s'. unfold ssp_owed. rewrite Hn'. exact Hs1. }
    destruct (IH _ s' (t + 1) R' (txs_ok_next L we ws init Hinit st i Hok) Hn' Hrd' Henv' Hs2) as [I1 I2].
    rewrite I1, I2, Hh, Hr, Rk, Hsk, <- Es, <- Hrd. split; reflexivity.
  Qed.

  (* C33: the SKP cycles are exactly those of the closed-form schedule; sink.ready is low in the first cycle only *)
  Theorem tx_schedule : forall tr, Forall (fun i => tx_ieidle i = false) tr ->
    sched_safe L 4 (2 ^ ws) 0 0 (map tx_ican tr) = true ->
    map tx_ohold (run step (txp_init init) tr) = sched L 4 0 0 (map tx_ican tr) /\
    map tx_oready (run step (txp_init init) tr) = ready_sched 0 (length tr).
  Proof.
    intros tr Henv Hs.
    exact (tx_sched_gen tr (txp_init init) ssp_init 0 (ski_rel_init L) (txs_ok_init init Hinit)
             eq_refl eq_refl Henv Hs).
  Qed.
End TxSched.

(* for the lock-step tie to the netlist (props/C33.py) *)
Section SkiPack.
  Variables L B we ws : N.

  Lemma ski_dec_enc : forall st, ski_wf B we ws st -> ski_dec B we ws (ski_enc B we ws st) = st.
  Proof.
    intros [o e r v d c] (Ho & He & Hd). cbn [sk_owed sk_elapsed sk_od] in *.
    unfold ski_dec, ski_enc. cbn [sk_owed sk_elapsed sk_rdy sk_ov sk_od sk_oc].
    rewrite !N.shiftr_div_pow2, !N.land_ones. change (2 ^ 1) with 2.
    rewrite (digit_div (2 ^ ws)), (digit_mod (2 ^ ws)) by exact Ho.
    rewrite (digit_div (2 ^ we)), (digit_mod (2 ^ we)) by exact He.
    rewrite odd_b2n_add_2, (digit_div 2) by apply b2n_lt2.
    rewrite odd_b2n_add_2, (digit_div 2) by apply b2n_lt2.
    rewrite digit_div, digit_mod by exact Hd. reflexivity.
  Qed.

  Lemma ski_wf_next : forall st v d c can r, d < 2 ^ (8 * B) -> ski_wf B we ws st ->
    ski_wf B we ws (ski_next L B we ws st v d c can r).
  Proof.
    intros st v d c can r Hd (Ho & He & Hod). unfold ski_wf, ski_next.
    cbn [sk_owed sk_elapsed sk_od].
    split; [apply N.mod_lt, pow2_nz|]. split.
    - destruct (v && sk_rdy st); [apply N.mod_lt, pow2_nz | exact He].
    - destruct (ski_sending st can); [apply skp_data_lt | exact Hd].
  Qed.

  Lemma ski_wf_step : forall st i, ski_wf B we ws st -> ski_wf B we ws (fst (ski_mstep L B we ws st i)).
  Proof. intros st i H. unfold ski_mstep. cbn [fst]. apply ski_wf_next; [apply bits_lt | exact H]. Qed.

  Lemma ski_wf_init : ski_wf B we ws ski_init.
  Proof. repeat split; apply pow2_pos. Qed.
End SkiPack.

Section TxPack.
  Variables L we ws : N.
  Variable init : list bool.
  Hypothesis Hinit : length init = 16%nat.

  Lemma txp_dec_enc : forall st, txp_wf we ws st -> txp_dec we ws (txp_enc we ws st) = st.
  Proof.
    intros [reg k] [Hl Hk]. cbn [tx_reg tx_ctc] in *. unfold txp_dec, txp_enc. cbn [tx_reg tx_ctc].
    rewrite N.shiftr_div_pow2, N.land_ones, digit_mod, digit_div by exact (bits2N_lt_len reg 16 Hl).
    rewrite ski_dec_enc, N2bits_bits2N_len by assumption. reflexivity.
  Qed.

  Lemma txp_wf_step : forall st i, txp_wf we ws st -> txp_wf we ws (fst (txp_step L we ws init st i)).
  Proof.
    intros st i [Hl Hk]. split.
    - apply tx_reg_next_length; assumption.
    - apply ski_wf_next; [apply xor_word_lt | exact Hk].
  Qed.

  Lemma txp_wf_init : txp_wf we ws (txp_init init).
  Proof. split; [exact Hinit | apply ski_wf_init]. Qed.
End TxPack.

Lemma lfsr_init_length : forall v, length (lfsr_init v) = 16%nat.
Proof. intros. apply N2bits_length. Qed.

Lemma lw_check_all : forall (step : N -> N -> N * N) tr s m,
  check_trace step lw_mon s m tr = true ->
  Forall (fun io => lw_ok (fst io) (snd io) = true) (combine tr (run step s tr)).
Proof.
  intros step. induction tr as [|i t IH]; intros s m H; [constructor|].
  cbn [check_trace run] in *. destruct (step s i) as [s' o]. unfold lw_mon in H at 1.
  apply andb_true_iff in H as [H1 H2]. cbn [combine]. constructor; [exact H1 | exact (IH _ _ H2)].
Qed.
