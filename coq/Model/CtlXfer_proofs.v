(* C07 -- proofs about the control-endpoint model (Model/CtlXfer.v).  On every history that meets the environment
   assumption the stage FSM shows the phase of the specification (invariant inv; stage_protocol).  A SETUP packet
   leaves stage and request handler in the state its request calls for, whatever came before (fresh_after_setup,
   first_answers_fresh).  A cycle whose token is for another endpoint is a function of the fields that are not about
   that token (foreign_tokens_invisible).  The packing lemmas serve the lock-step obligations. *)
From Coq Require Import NArith List Bool Lia.
Import ListNotations.
From LunaLib Require Import Netlist PackN Machine SymWord.
From LunaModel Require Import CtlXfer.
Open Scope N_scope.

Lemma impb_iff : forall a b, impb a b = true <-> (a = true -> b = true).
Proof. destruct a, b; cbn; intuition congruence. Qed.

Lemma same_fields_eqs : forall f i, same_fieldsb f i = true ->
  i_dirin f = i_dirin i /\ i_type f = i_type i /\ i_rcpt f = i_rcpt i /\ i_req f = i_req i /\
  i_value f = i_value i /\ i_index f = i_index i /\ i_len f = i_len i.
Proof.
  intros f i H. unfold same_fieldsb in H. rewrite !andb_true_iff, eqb_true_iff, !N.eqb_eq in H. tauto.
Qed.

Section Proofs.
  Variables EP mps spw : N.
  Variable skip : N -> bool.
  Variable gate : bool.
  Notation step := (cx_step EP mps spw skip gate).
  Notation tgt := (i_tgt EP).

  Definition ctl_of (p : phase) : cstage :=
    match p with PSetup => CSetup | PData true => CDataIn | PData false => CDataOut
               | PStatus true => CStatusIn | PStatus false => CStatusOut end.

  (* invariant: the stage FSM shows the specification's phase; while a SETUP for this endpoint is being decoded
     there is no current transfer, so its report finds the stage FSM in CSetup, the only stage that reads i_rcv *)
  Definition inv (e : env_st) (s : sp_st) (x : cx_state) : Prop :=
    x_ctl x = ctl_of (phase_of s) /\ (e_ls e = true -> e_ep e = EP -> s_cur s = None).

  Lemma onehot_cases : forall i, onehot i = true ->
    (i_setup i = true -> i_in i = false /\ i_out i = false /\ i_ping i = false) /\
    (i_out i = true -> i_ping i = false).
  Proof.
    intros i. unfold onehot.
    destruct (i_in i), (i_out i), (i_setup i), (i_ping i); cbn; intro H; try discriminate H; auto.
  Qed.

  Lemma ctl_requests : forall s i,
    ctl_dr EP (ctl_of (phase_of s)) i = sp_dr EP s i /\ ctl_sr EP (ctl_of (phase_of s)) i = sp_sr EP s i /\
    ctl_ping EP (ctl_of (phase_of s)) i = sp_ping EP s i.
  Proof. intros s i. unfold sp_dr, sp_sr, sp_ping. destruct (phase_of s) as [|[|]|[|]]; cbn; auto. Qed.

  Lemma sp_next_cases : forall s i,
    sp_next EP s i =
      if ev_stok EP i then {| s_cur := None; s_adv := false |}
      else if ev_acc EP i then {| s_cur := Some i; s_adv := false |}
      else match s_cur s with
           | Some f => {| s_cur := Some f; s_adv := s_adv s || ev_opp EP f i |}
           | None => s
           end.
  Proof.
    intros [cur adv] i. unfold sp_next, ev_acc, ev_stok, ev_opp. cbn [s_cur s_adv].
    destruct (i_new i && (i_ep i =? EP) && i_setup i) eqn:E1; [reflexivity|]. cbn [negb andb].
    destruct (i_rcv i && (i_ep i =? EP)) eqn:E2; [reflexivity|].
    destruct cur as [f|]; [|reflexivity].
    destruct (i_new i && (i_ep i =? EP) && i_haslen f && (if i_dirin f then i_out i || i_ping i else i_in i));
      destruct adv; reflexivity.
  Qed.

  (* how a token moves the phase of a transfer in progress: out of the data stage, on the first token of the
     opposite direction [USB2.0: 8.5.3] *)
  Definition phase_step (p : phase) (i : N) : phase :=
    match p with
    | PData d => if i_new i && tgt i && (if d then i_out i || i_ping i else i_in i) then PStatus (negb d) else p
    | _ => p
    end.

  Lemma phase_next : forall s i,
    phase_of (sp_next EP s i) =
      if ev_stok EP i then PSetup
      else if ev_acc EP i then phase_of {| s_cur := Some i; s_adv := false |}
      else phase_step (phase_of s) i.
  Proof.
    intros [[f|] adv] i; rewrite sp_next_cases; cbn [s_cur s_adv];
      (destruct (ev_stok EP i); [reflexivity|]); (destruct (ev_acc EP i); [reflexivity|]); [|reflexivity].
    unfold phase_of, phase_step, ev_opp, i_tgt. cbn [s_cur s_adv].
    destruct (i_haslen f), adv, (i_dirin f); cbn [orb negb]; rewrite ?andb_true_r; reflexivity.
  Qed.

  (* the stage FSM makes the same moves; a SETUP token and a token that ends the data stage exclude each other *)
  Lemma ctl_next_phase : forall p i, onehot i = true ->
    ctl_next EP (ctl_of p) i =
      match p with
      | PSetup => if i_rcv i && tgt i then stage_of i else CSetup
      | _ => if ev_stok EP i then CSetup else ctl_of (phase_step p i)
      end.
  Proof.
    intros p i Hoh. apply onehot_cases in Hoh as [Hs _].
    unfold ev_stok, phase_step, i_tgt.
    destruct p as [|[|]|[|]]; cbn [ctl_of ctl_next]; [reflexivity|..]; unfold setup_reset, i_tgt;
      destruct (i_new i), (i_ep i =? EP); cbn [andb]; rewrite ?andb_false_r; try reflexivity;
      (destruct (i_setup i); [destruct (Hs eq_refl) as (Hi & Ho & Hp); rewrite ?Hi, ?Ho, ?Hp; reflexivity|]);
      cbn [andb]; try reflexivity.
    - destruct (i_out i || i_ping i); reflexivity.
    - destruct (i_in i); reflexivity.
  Qed.

  Lemma acc_env : forall e s x i, inv e s x -> cx_env_ok e i = true -> i_rcv i = true -> tgt i = true ->
    s_cur s = None /\ i_new i = false.
  Proof.
    intros e s x i [_ Hj] He Hr Ht. unfold cx_env_ok in He. rewrite Hr in He.
    apply andb_true_iff in He as [He _]. apply andb_true_iff in He as [Hep Hls]. cbn [negb orb] in Hls.
    apply andb_true_iff in Hls as [Hls Hn]. apply negb_true_iff in Hn. rewrite Hn in Hep. cbn [orb] in Hep.
    apply N.eqb_eq in Hep, Ht. split; [apply Hj; congruence | exact Hn].
  Qed.

  Lemma ctl_match : forall e s x i, inv e s x -> cx_env_ok e i = true ->
    ctl_next EP (x_ctl x) i = ctl_of (phase_of (sp_next EP s i)).
  Proof.
    intros e s x i Hi He. pose proof (acc_env e s x i Hi He) as Hacc. destruct Hi as [Hc _].
    apply andb_true_iff in He as [_ Hoh].
    rewrite Hc, phase_next, (ctl_next_phase _ _ Hoh). unfold ev_acc, i_tgt in *.
    destruct (i_rcv i), (i_ep i =? EP); rewrite ?andb_false_r;
      [|destruct (phase_of s) as [|[]|[]], (ev_stok EP i); reflexivity..].
    (* left: a SETUP packet for this endpoint; there is no current transfer and no token, both sides are stage_of i *)
    destruct Hacc as [Hn Hw]; [reflexivity..|]. unfold ev_stok, phase_of, stage_of. rewrite Hn, Hw.
    cbn [andb negb s_cur s_adv ctl_of].
    destruct (i_haslen i), (i_dirin i); reflexivity.
  Qed.

  Lemma inv_step : forall e s x i, inv e s x -> cx_env_ok e i = true ->
    inv (cx_env_next e i) (sp_next EP s i) (fst (step x i)).
  Proof.
    intros e s x i Hi He. split.
    - cbn [step cx_step fst x_ctl]. eapply ctl_match; eassumption.
    - destruct Hi as [Hc Hj].
      unfold cx_env_ok in He. apply andb_true_iff in He as [He _]. apply andb_true_iff in He as [Hep Hrcv].
      unfold cx_env_next, sp_next. cbn [e_ls e_ep]. intros Hls Hepeq.
      assert (Ht : (i_ep i =? EP) = true) by (apply N.eqb_eq; exact Hepeq). rewrite Ht.
      destruct (i_new i) eqn:En.
      + rewrite Hls. reflexivity.
      + cbn. destruct (i_rcv i) eqn:Er; [discriminate|]. cbn.
        cbn in Hep. apply N.eqb_eq in Hep.
        assert (X : s_cur s = None) by (apply Hj; congruence). rewrite X. exact X.
  Qed.

  (* every answer of a request handler has a cause (single cycle, any state) *)
  Definition caused (i : N) (dr sr : bool) (o : h_out) : Prop :=
    (h_txv o = true -> sr = true \/ i_dv i = true \/ i_sv i = true) /\
    (h_stall o = true -> dr = true \/ sr = true \/ i_dstall i = true) /\
    (h_ack o = true -> sr = true) /\
    (h_ac o = true \/ h_cc o = true \/ h_halt o <> 0 -> i_ack i = true).

  Lemma h_causes : forall h pid i dr sr cm, (cm = true -> i_ack i = true) ->
    caused i dr sr (h_outputs h pid i dr sr cm).
  Proof.
    (* skip is cleared because intuition would use it as an implication from N to bool *)
    intros h pid i dr sr cm Hcm. unfold caused. clear skip.
    destruct h; cbn [h_outputs h_quiet h_txv h_stall h_ack h_ac h_cc h_halt];
      rewrite ?andb_true_iff, ?orb_true_iff; destruct (i_ack i); intuition congruence.
  Qed.

  Lemma cyc_ok_step : forall s x i, x_ctl x = ctl_of (phase_of s) -> cyc_ok EP s i (snd (step x i)).
  Proof.
    intros s x i Hc. destruct (ctl_requests s i) as (Hdr & Hsr & Hpg). rewrite <- Hc in Hdr, Hsr, Hpg.
    split; [exact Hdr|]. split; [exact Hsr|]. rewrite <- Hpg.
    cbn [step cx_step snd o_dr o_sr o_ds o_ss o_txv o_stall o_ack o_nak o_ac o_cc o_halt].
    set (dr := ctl_dr EP (x_ctl x) i). set (sr := ctl_sr EP (x_ctl x) i). set (pg := ctl_ping EP (x_ctl x) i).
    set (ho := if claimed skip i then _ else _).
    assert (Hho : caused i dr sr ho).
    { subst ho. destruct (claimed skip i).
      - apply h_causes. unfold commit. intro H. apply andb_true_iff in H as [H _]. exact H.
      - (* the fallback drives what the standard handler drives for a request it does not handle *)
        apply (h_causes HUnhandled true i dr sr false). discriminate. }
    destruct Hho as (A & B & C & D). repeat split; auto.
    - destruct (i_std i); cbn [andb]; [|intros [H|H]; discriminate H].
      destruct (x_h x); cbn; intros [H|H]; try discriminate H; exact H.
    - rewrite !orb_true_iff. intros [[H|H]|H]; auto.
    - intros [H|H]; rewrite H; [reflexivity | apply orb_true_r].
  Qed.

  Lemma holds_along_run : forall tr e s x, inv e s x -> cx_env_trace e tr = true ->
    holds_along EP s tr (xrun step x tr).
  Proof.
    induction tr as [|i t IH]; intros e s x Hi He; cbn [xrun holds_along]; [exact I|].
    cbn [cx_env_trace] in He. apply andb_true_iff in He as [He Ht].
    pose proof (cyc_ok_step s x i (proj1 Hi)) as Hc. pose proof (inv_step e s x i Hi He) as Hn.
    destruct (step x i) as [x' o]. cbn [fst snd] in *. split; [exact Hc|]. eapply IH; eassumption.
  Qed.

  Lemma inv_init : inv cx_env0 sp0 cx_init.
  Proof. split; reflexivity. Qed.

  (* C07, stage protocol *)
  Theorem stage_protocol : forall tr, cx_env_trace cx_env0 tr = true ->
    holds_along EP sp0 tr (xrun step cx_init tr).
  Proof. intros tr H. exact (holds_along_run tr cx_env0 sp0 cx_init inv_init H). Qed.

  (* sp_state and xstate are SymWord.tstate, up to conversion *)
  Lemma sp_state_snoc : forall tr s i, sp_state EP s (tr ++ [i]) = sp_next EP (sp_state EP s tr) i.
  Proof. intros tr s i. exact (tstate_app (fun s i => (sp_next EP s i, tt)) tr [i] s). Qed.
  Lemma xstate_snoc : forall tr x i, xstate step x (tr ++ [i]) = fst (step (xstate step x tr) i).
  Proof. intros tr x i. exact (tstate_app step tr [i] x). Qed.

  (* f is not used: quietness is a property of b alone *)
  Definition quiet_since (f : N) (b : list N) : bool :=
    forallb (fun i => negb (ev_stok EP i) && negb (ev_acc EP i)) b.

  Lemma s_cur_next : forall s i,
    s_cur (sp_next EP s i) = if ev_stok EP i then None else if ev_acc EP i then Some i else s_cur s.
  Proof.
    intros s i. rewrite sp_next_cases. destruct (ev_stok EP i), (ev_acc EP i), (s_cur s) eqn:E; auto.
  Qed.

  Theorem current_transfer_is_last_setup : forall tr f,
    s_cur (sp_state EP sp0 tr) = Some f <->
    exists a b, tr = a ++ f :: b /\ ev_acc EP f = true /\ quiet_since f b = true.
  Proof.
    intros tr. induction tr as [|i t IH] using rev_ind; intros f.
    - split; [discriminate|]. intros ([|] & b & H & _); discriminate.
    - rewrite sp_state_snoc, s_cur_next. split.
      + destruct (ev_stok EP i) eqn:E1; [discriminate|]. destruct (ev_acc EP i) eqn:E2.
        * intros [= <-]. exists t, []. auto.
        * intro H. apply IH in H as (a & b & -> & Ha & Hq). exists a, (b ++ [i]). unfold quiet_since in *.
          rewrite <- app_assoc, forallb_app, Hq. cbn. rewrite E1, E2. auto.
      + intros (a & b & Ht & Ha & Hq). destruct b as [|j b _] using rev_ind.
        * apply app_inj_tail in Ht as [-> ->]. rewrite Ha. unfold ev_acc in Ha.
          destruct (ev_stok EP f); [discriminate | reflexivity].
        * rewrite app_comm_cons, app_assoc in Ht. apply app_inj_tail in Ht as [-> ->].
          unfold quiet_since in Hq. rewrite forallb_app in Hq. cbn in Hq. rewrite !andb_true_iff, !negb_true_iff in Hq.
          destruct Hq as (Hq & (-> & ->) & _). apply IH. eauto.
  Qed.

  Lemma inv_run : forall tr i e s x, inv e s x -> cx_env_trace e (tr ++ [i]) = true ->
    exists e', inv e' (sp_state EP s tr) (xstate step x tr) /\ cx_env_ok e' i = true.
  Proof.
    induction tr as [|j t IH]; intros i e s x Hi He; cbn [app cx_env_trace] in He;
      apply andb_true_iff in He as [He Ht]; [eauto|].
    apply (IH i _ _ _ (inv_step e s x j Hi He) Ht).
  Qed.

  (* the two register-write flags are clear outside their own states (any history, no hypothesis) *)
  Definition flags_inv (x : cx_state) : Prop :=
    (x_wa x = true -> gate = true /\ x_h x = HSetAddress) /\ (x_wc x = true -> gate = true /\ x_h x = HSetConfig).
  Lemma flags_inv_init : flags_inv cx_init.
  Proof. split; discriminate. Qed.
  Lemma w_next_true : forall here w i sr cm, w_next gate here w i sr cm = true ->
    (w = true -> gate = true /\ here = true) -> gate = true /\ here = true /\ i_rcv i = false /\ cm = false.
  Proof.
    unfold w_next. intros here w i sr cm H Hw. destruct (gate && here) eqn:E.
    - apply andb_true_iff in E. destruct (i_rcv i), cm; try discriminate H. destruct E. auto.
    - destruct (Hw H) as [-> ->]. discriminate E.
  Qed.

  Lemma flags_inv_step : forall x i, flags_inv x -> flags_inv (fst (step x i)).
  Proof.
    intros x i [Fa Fc]. cbn [step cx_step fst x_h x_wa x_wc]. destruct (i_std i); [|split; assumption].
    (* a flag is up after the step only if the handler was in its state, without SETUP packet or commit: h_next stays *)
    split; intro H; apply w_next_true in H as (Hg & Hh & Hr & Hc);
      try (intro Hw; first [destruct (Fa Hw) as [-> ->] | destruct (Fc Hw) as [-> ->]]; auto);
      (split; [exact Hg|]); unfold h_next; rewrite Hr, Hc; destruct (x_h x); try discriminate Hh; reflexivity.
  Qed.

  Lemma flags_inv_run : forall tr x, flags_inv x -> flags_inv (xstate step x tr).
  Proof. induction tr as [|i t IH]; intros x H; cbn [xstate]; [exact H | apply IH, flags_inv_step, H]. Qed.

  (* A SETUP packet with a standard request puts the request handler in the state of that request, from any state
     in which the flags are clear outside their own states: no environment assumption *)
  Lemma setup_resets : forall x i, flags_inv x -> i_rcv i = true -> i_std i = true ->
    let x' := fst (step x i) in
    x_h x' = (if skip i then HIdle else dispatch i) /\ x_pid x' = true /\ x_ea x' = false /\ x_sp x' = 0 /\
    x_wa x' = false /\ x_wc x' = false.
  Proof.
    intros x i [Fa Fc] Hr Hs. cbn [step cx_step fst x_h x_pid x_ea x_sp x_wa x_wc]. rewrite Hs.
    unfold h_next, h_pid_next, h_ea_next, h_sp_next, w_next. rewrite Hr. repeat split; auto.
    - destruct (x_wa x); [destruct (Fa eq_refl) as [-> ->]; reflexivity|]. destruct (gate && _); reflexivity.
    - destruct (x_wc x); [destruct (Fc eq_refl) as [-> ->]; reflexivity|]. destruct (gate && _); reflexivity.
  Qed.

  (* C07: a new SETUP starts a fresh transfer *)
  Theorem fresh_after_setup : forall h i, cx_env_trace cx_env0 (h ++ [i]) = true ->
    i_rcv i = true -> tgt i = true ->
    let x' := xstate step cx_init (h ++ [i]) in
    x_ctl x' = stage_of i /\
    (i_std i = true ->
       x_h x' = (if skip i then HIdle else dispatch i) /\ x_pid x' = true /\ x_ea x' = false /\ x_sp x' = 0 /\
       x_wa x' = false /\ x_wc x' = false).
  Proof.
    intros h i He Hr Ht.
    destruct (inv_run h i cx_env0 sp0 cx_init inv_init He) as (e' & Hi & Hn).
    destruct (acc_env e' _ _ i Hi Hn Hr Ht) as [Hcur _]. destruct Hi as [Hc _].
    cbv zeta. rewrite xstate_snoc. split.
    - cbn [step cx_step fst x_ctl]. rewrite Hc. unfold phase_of. rewrite Hcur. cbn [ctl_of ctl_next]. rewrite Hr, Ht.
      reflexivity.
    - exact (setup_resets _ i (flags_inv_run h cx_init flags_inv_init) Hr).
  Qed.

  Corollary history_independent : forall h1 h2 i,
    cx_env_trace cx_env0 (h1 ++ [i]) = true -> cx_env_trace cx_env0 (h2 ++ [i]) = true ->
    i_rcv i = true -> tgt i = true -> i_std i = true ->
    xstate step cx_init (h1 ++ [i]) = xstate step cx_init (h2 ++ [i]).
  Proof.
    intros h1 h2 i H1 H2 Hr Ht Hs.
    destruct (fresh_after_setup h1 i H1 Hr Ht) as [A1 B1]. destruct (B1 Hs) as (C1 & D1 & E1 & F1 & G1 & I1).
    destruct (fresh_after_setup h2 i H2 Hr Ht) as [A2 B2]. destruct (B2 Hs) as (C2 & D2 & E2 & F2 & G2 & I2).
    destruct (xstate step cx_init (h1 ++ [i])), (xstate step cx_init (h2 ++ [i])). cbn in *. congruence.
  Qed.

  Lemma nonstd_step : forall x y i, x_ctl x = x_ctl y -> i_std i = false ->
    x_ctl (fst (step x i)) = x_ctl (fst (step y i)) /\ out_obs (snd (step x i)) = out_obs (snd (step y i)).
  Proof.
    intros x y i Hc Hs. cbn [step cx_step fst snd x_ctl]. unfold claimed. rewrite Hs, Hc. cbn [andb].
    split; reflexivity.
  Qed.

  Theorem nonstd_history_independent : forall sfx x y, x_ctl x = x_ctl y ->
    Forall (fun i => i_std i = false) sfx ->
    map out_obs (xrun step x sfx) = map out_obs (xrun step y sfx) /\
    x_ctl (xstate step x sfx) = x_ctl (xstate step y sfx).
  Proof.
    induction sfx as [|i t IH]; intros x y Hc Hf; cbn [xrun xstate map]; [auto|].
    inversion Hf as [|? ? Hs Ht]; subst. destruct (nonstd_step x y i Hc Hs) as [A B].
    destruct (step x i) as [x' o], (step y i) as [y' o']. cbn [fst snd map] in *.
    destruct (IH x' y' A Ht) as [C D]. rewrite B, C. auto.
  Qed.

  Lemma foreign_ctl : forall i c, tgt i = false ->
    ctl_dr EP c i = false /\ ctl_sr EP c i = false /\ ctl_ping EP c i = false /\ ctl_next EP c i = c.
  Proof. intros i [] Ht; cbn; unfold setup_reset; rewrite ?Ht, ?andb_false_r; auto. Qed.

  Lemma foreign_step : forall x i j, tgt i = false -> same_but_token i j -> skip i = skip j ->
    (gate = true -> i_new i = i_new j) -> step x i = step x j.
  Proof.
    intros x i j Ht SBT Hk Hnw.
    destruct SBT as (E1 & E2 & _ & E4 & E5 & E6 & E7 & E8 & _ & E10 & E11 & E12 & E13 & E14 & E15 & E16 & E17 & E18).
    assert (Htj : tgt j = false) by (unfold i_tgt in *; rewrite <- E1; exact Ht).
    (* cbv keeps the lets of cx_step, so that each function of the handler occurs once *)
    cbv beta delta [cx_step].
    destruct (foreign_ctl i (x_ctl x) Ht) as (-> & -> & -> & ->), (foreign_ctl j (x_ctl x) Htj) as (-> & -> & -> & ->).
    (* what remains reads fields on which i and j agree *)
    cbv beta delta [claimed i_std h_next h_own_next h_pid_next h_ea_next h_sp_next h_outputs dispatch cf_unsupp
      fb_outputs h_dstart h_sstart commit w_next].
    rewrite E2, E4, E5, E6, E7, E8, E10, E11, E12, E13, E14, E15, E16, E17, E18, Hk.
    destruct gate; [rewrite (Hnw eq_refl)|]; reflexivity.
  Qed.

  (* with the C08 repair the register-write states also watch new_token (of any endpoint) to drop a status answer
     the host did not ACK; the comparison then keeps new_token *)
  Definition foreign_related (i j : N) : Prop :=
    (tgt i = true -> i = j) /\ same_but_token i j /\ skip i = skip j /\ (gate = true -> i_new i = i_new j).

  (* C07: tokens for other endpoints are invisible *)
  Theorem foreign_tokens_invisible : forall tr1 tr2 x, Forall2 foreign_related tr1 tr2 ->
    xrun step x tr1 = xrun step x tr2.
  Proof.
    induction tr1 as [|i t IH]; intros tr2 x H; inversion H as [|? j ? t2 Hr Ht]; subst; cbn [xrun]; [reflexivity|].
    destruct Hr as (A & B & C & D).
    assert (E : step x i = step x j).
    { destruct (tgt i) eqn:Et; [rewrite (A eq_refl); reflexivity | apply foreign_step; assumption]. }
    rewrite E. destruct (step x j) as [x' o]. rewrite (IH t2 x' Ht). reflexivity.
  Qed.
End Proofs.

(* C07: the first answer of a fresh transfer is the one its request calls for, whatever happened before *)
Section FirstAnswer.
  Variables EP mps spw : N.
  Variable skip : N -> bool.
  Variable gate : bool.
  Hypothesis skip_ext : forall f i, same_fieldsb f i = true -> skip i = skip f.
  Notation step := (cx_step EP mps spw skip gate).

  (* what the first answer reads of the state a SETUP packet with fields f leaves (setup_resets): request state,
     data PID, start_position *)
  Definition hfresh (f : N) (x : cx_state) : Prop :=
    i_std f = true -> x_h x = (if skip f then HIdle else dispatch f) /\ x_pid x = true /\ x_sp x = 0.

  Lemma same_request : forall f i, same_fieldsb f i = true ->
    i_std f = i_std i /\ dispatch f = dispatch i /\ rclass_of skip f = rclass_of skip i.
  Proof.
    intros f i H. destruct (same_fields_eqs f i H) as (_ & E2 & E3 & E4 & E5 & _).
    unfold rclass_of, dispatch, cf_unsupp, i_std. rewrite (skip_ext f i H), E2, E3, E4, E5. auto.
  Qed.

  Lemma hfresh_same : forall x f i, same_fieldsb f i = true -> hfresh f x -> hfresh i x.
  Proof.
    intros x f i H Hfr. destruct (same_request f i H) as (Es & Ed & _).
    unfold hfresh. rewrite <- Es, <- Ed, (skip_ext f i H). exact Hfr.
  Qed.

  Definition class_of (h : hstate) : rclass :=
    match h with
    | HGetStatus | HGetConfig => RData
    | HGetDescriptor => RDesc
    | HSetAddress | HSetConfig | HClearFeature => RWrite
    | HUnhandled | HIdle => RUnsup
    end.

  Lemma rclass_dispatch : forall f, i_std f = true -> skip f = false ->
    rclass_of skip f = class_of (dispatch f) /\ (dispatch f = HClearFeature -> cf_unsupp f = false) /\
    dispatch f <> HIdle.
  Proof.
    intros f Hs Hk. unfold rclass_of, dispatch, cf_unsupp. rewrite Hs, Hk. cbn [negb orb].
    generalize (i_req f). intro r.
    destruct (N.eqb_spec r 0) as [->|_]; [|destruct (N.eqb_spec r 1) as [->|_];
      [destruct (i_rcpt f =? 2), (i_value f =? 0)|destruct (N.eqb_spec r 5) as [->|_];
      [|destruct (N.eqb_spec r 9) as [->|_]; [|destruct (N.eqb_spec r 6) as [->|_];
      [|destruct (N.eqb_spec r 8) as [->|_]]]]]];
      cbn; (split; [reflexivity | split; [intro E; try discriminate E; reflexivity | discriminate]]).
  Qed.

  Lemma rclass_unclaimed : forall f, claimed skip f = false -> rclass_of skip f = RNone.
  Proof. intro f. unfold claimed, rclass_of. destruct (i_std f), (skip f); (discriminate || reflexivity). Qed.

  Lemma dr_sr_excl : forall c i, ctl_dr EP c i && ctl_sr EP c i = false.
  Proof. intros [] i; cbn; rewrite ?andb_false_r; reflexivity. Qed.

  Lemma state_answer : forall x i, claimed skip i = true -> x_pid x = true -> x_sp x = 0 ->
    (x_h x = HClearFeature -> cf_unsupp i = false) -> x_h x <> HIdle -> ctl_ping EP (x_ctl x) i = false ->
    let o := snd (step x i) in o_dr o || o_sr o = true -> first_answer_ok (class_of (x_h x)) i o = true.
  Proof.
    intros x i Hcl Hp Hs Hcf Hid Hpg. cbn [step cx_step snd o_dr o_sr]. rewrite Hcl, Hp, Hs, Hpg.
    apply andb_true_iff in Hcl as [-> _]. generalize (dr_sr_excl (x_ctl x) i).
    generalize (commit gate (x_h x) (x_wa x) (x_wc x) i) (ctl_dr EP (x_ctl x) i) (ctl_sr EP (x_ctl x) i).
    intros cm dr sr Hex Hor.
    destruct (x_h x); [contradiction Hid; reflexivity|..];
      destruct dr, sr; try discriminate; unfold first_answer_ok; cbn; try rewrite (Hcf eq_refl); rewrite ?eqb_reflx;
      destruct (i_sack i); reflexivity.
  Qed.

  Lemma fallback_answer : forall x i, claimed skip i = false -> (i_std i = true -> x_h x = HIdle) ->
    ctl_ping EP (x_ctl x) i = false ->
    let o := snd (step x i) in o_dr o || o_sr o = true -> first_answer_ok RNone i o = true.
  Proof.
    intros x i Hcl Hh Hpg. cbn [step cx_step snd o_dr o_sr]. rewrite Hcl, Hpg. intro Hor.
    unfold first_answer_ok. cbn. rewrite Hor.
    (* o_ds / o_ss are gated by i_std, not by the claim: a skiplisted standard request needs the handler idle *)
    destruct (i_std i); [rewrite Hh by reflexivity|]; destruct (i_sack i); reflexivity.
  Qed.

  Lemma fresh_answer : forall x i, hfresh i x -> ctl_ping EP (x_ctl x) i = false ->
    let o := snd (step x i) in o_dr o || o_sr o = true -> first_answer_ok (rclass_of skip i) i o = true.
  Proof.
    intros x i Hfr Hpg o Hor. subst o. destruct (claimed skip i) eqn:Hcl.
    - pose proof Hcl as Hcl'. apply andb_true_iff in Hcl' as [Hs Hk]. apply negb_true_iff in Hk.
      destruct (Hfr Hs) as (Hh & Hp & Hsp). rewrite Hk in Hh.
      destruct (rclass_dispatch i Hs Hk) as (-> & Hcf & Hid). rewrite <- Hh in Hcf, Hid |- *.
      apply state_answer; assumption.
    - rewrite (rclass_unclaimed i Hcl). apply fallback_answer; try assumption.
      intro Hs. destruct (Hfr Hs) as [Hh _]. unfold claimed in Hcl. rewrite Hs in Hcl.
      destruct (skip i); [exact Hh | discriminate].
  Qed.

  Lemma opp_no_ping : forall c i, onehot i = true -> ctl_dr EP c i || ctl_sr EP c i = true ->
    ctl_ping EP c i = false.
  Proof.
    intros c i Hoh H. apply onehot_cases in Hoh as [_ Ho].
    destruct c; cbn in *; try reflexivity; try discriminate H.
    destruct (i_out i); [rewrite Ho by reflexivity; apply andb_false_r | rewrite andb_false_r in H; discriminate H].
  Qed.

  Lemma hfresh_setup : forall x i, i_rcv i = true -> hfresh i (fst (step x i)).
  Proof.
    intros x i Hr Hs. cbn [step cx_step fst x_h x_pid x_sp]. rewrite Hs.
    unfold h_next, h_pid_next, h_sp_next. rewrite Hr. auto.
  Qed.

  Lemma hfresh_hold : forall x f i, hfresh f x -> same_fieldsb f i = true -> i_rcv i = false -> i_ack i = false ->
    i_dstall i = false -> ctl_dr EP (x_ctl x) i = false -> ctl_sr EP (x_ctl x) i = false ->
    hfresh f (fst (step x i)).
  Proof.
    intros x f i Hfr Hsf Hr Ha Hd Hdr Hsr Hs. destruct (Hfr Hs) as (A & B & C).
    destruct (same_request f i Hsf) as (Estd & _).
    cbn [step cx_step fst x_h x_pid x_sp]. rewrite <- Estd, Hs, Hdr, Hsr.
    unfold h_next, h_own_next, h_pid_next, h_sp_next, commit. rewrite Hr, Ha, Hd, A, B, C.
    destruct (if skip f then HIdle else dispatch f); auto.
  Qed.

  (* while the specification's flag fr (fr_next: the current transfer is still fresh) is up, there is a current
     transfer and the handler is in the fresh state of its request *)
  Definition fresh_inv (fr : bool) (s : sp_st) (x : cx_state) : Prop :=
    fr = true -> match s_cur s with Some f => hfresh f x | None => False end.

  Lemma fresh_inv_step : forall e s x fr i, inv EP e s x -> fresh_inv fr s x -> cx_env_ok e i = true ->
    fr_ok EP skip s fr i (snd (step x i)) = true /\
    fresh_inv (fr_next EP s fr i) (sp_next EP s i) (fst (step x i)).
  Proof.
    intros e s x fr i Hi H2 He.
    destruct (ctl_requests EP s i) as (Odr & Osr & _). rewrite <- (proj1 Hi) in Odr, Osr.
    apply andb_true_iff in He as [_ Hoh]. unfold fresh_inv, fr_ok, fr_next in *. split.
    - destruct (s_cur s) as [f|]; [|reflexivity]. apply impb_iff. intro H.
      rewrite !andb_true_iff in H. destruct H as [[[-> Hsf] _] Hor].
      destruct (same_request f i Hsf) as (_ & _ & ->).
      apply fresh_answer;
        [apply (hfresh_same x f i Hsf), H2; reflexivity | apply opp_no_ping; assumption | exact Hor].
    - rewrite sp_next_cases. destruct (ev_stok EP i); [discriminate|]. destruct (ev_acc EP i) eqn:E2.
      + intros _. apply hfresh_setup. unfold ev_acc in E2. rewrite !andb_true_iff in E2. tauto.
      + destruct (s_cur s) as [f|]; [|discriminate]. intro H.
        rewrite !andb_true_iff, !negb_true_iff, orb_false_iff, <- Odr, <- Osr in H.
        destruct H as [[[[[-> Hsf] Hr] Ha] Hd] [Hdr Hsr]]. apply hfresh_hold; auto.
  Qed.

  Lemma fresh_along_run : forall tr e s x fr, inv EP e s x -> fresh_inv fr s x -> cx_env_trace e tr = true ->
    fresh_along EP skip s fr tr (xrun step x tr) = true.
  Proof.
    induction tr as [|i t IH]; intros e s x fr Hi H2 He; cbn [xrun fresh_along]; [reflexivity|].
    cbn [cx_env_trace] in He. apply andb_true_iff in He as [He Ht].
    destruct (fresh_inv_step e s x fr i Hi H2 He) as [A B].
    pose proof (inv_step EP mps spw skip gate e s x i Hi He) as Hn.
    destruct (step x i) as [x' o]. cbn [fst snd] in *. rewrite A. cbn [andb]. eapply IH; eassumption.
  Qed.

  Theorem first_answers_fresh : forall tr, cx_env_trace cx_env0 tr = true ->
    fresh_along EP skip sp0 false tr (xrun step cx_init tr) = true.
  Proof.
    intros tr H. apply (fresh_along_run tr cx_env0 sp0 cx_init false); [apply inv_init | discriminate | exact H].
  Qed.
End FirstAnswer.

Definition out_wf (o : cx_out) : Prop := o_pid o < 4 /\ o_na o < 128 /\ o_nc o < 256 /\ o_halt o < 64.

Lemma nb_b2n : forall b, nb (b2n b) = b.
Proof. destruct b; reflexivity. Qed.

Lemma cx_unpack_pack : forall o, out_wf o -> cx_unpack (cx_pack o) = o.
Proof.
  intros o (H1 & H2 & H3 & H4). unfold cx_unpack, cx_pack. cbv zeta.
  rewrite !pk_div, !pk_mod by first [apply b2n_lt2 | assumption].
  rewrite !nb_b2n. destruct o; reflexivity.
Qed.

Lemma step_out_wf : forall EP mps spw skip gate x i, out_wf (snd (cx_step EP mps spw skip gate x i)).
Proof.
  intros. cbn [cx_step snd]. unfold out_wf. cbn [o_pid o_na o_nc o_halt].
  split; [destruct (h_pid _); reflexivity|].
  destruct (claimed skip i); [|repeat split].
  destruct (x_h x); cbn [h_outputs h_quiet h_na h_nc h_halt]; repeat split;
    try (destruct (commit gate _ _ _ i); [first [apply (bits_lt _ 0 7) | apply (bits_lt _ 0 8)] | reflexivity]).
  (* CLEAR_FEATURE: enable, direction bit and number of the endpoint named by wIndex *)
  pose proof (bits_lt (i_index i) 7 1). pose proof (bits_lt (i_index i) 0 4).
  change (2 ^ 1) with 2 in *. change (2 ^ 4) with 16 in *. destruct (i_ack i); [lia | reflexivity].
Qed.

Lemma unpack_run : forall EP mps spw skip gate tr x,
  map cx_unpack (Machine.run (cx_stepN EP mps spw skip gate) x tr) = xrun (cx_step EP mps spw skip gate) x tr.
Proof.
  induction tr as [|i t IH]; intros x; cbn [Machine.run xrun map]; [reflexivity|].
  unfold cx_stepN at 1. pose proof (step_out_wf EP mps spw skip gate x i) as W.
  destruct (cx_step EP mps spw skip gate x i) as [x' o]. cbn [snd] in W. cbn [map].
  rewrite (cx_unpack_pack o W), IH. reflexivity.
Qed.

Lemma cs_of_code : forall c, cs_of (cs_code c) = c.
Proof. destruct c; reflexivity. Qed.
Lemma hs_of_code : forall h, hs_of (hs_code h) = h.
Proof. destruct h; reflexivity. Qed.
Lemma cs_code_lt : forall c, cs_code c < 8.
Proof. destruct c; cbn; lia. Qed.
Lemma hs_code_lt : forall h, hs_code h < 8.
Proof. destruct h; cbn; lia. Qed.

Lemma cx_dec_enc : forall s, cx_dec (cx_enc s) = s.
Proof.
  intros [c h p e sp wa wc]. unfold cx_dec, cx_enc. cbn [x_ctl x_h x_pid x_ea x_sp x_wa x_wc].
  rewrite !pk_div, !pk_mod by first [apply cs_code_lt | apply hs_code_lt | apply b2n_lt2].
  rewrite cs_of_code, hs_of_code, !nb_b2n. reflexivity.
Qed.

Lemma cyc_okb_iff : forall EP s i o, cyc_okb EP s i o = true <-> cyc_ok EP s i o.
Proof.
  intros EP s i o. unfold cyc_okb, cyc_ok.
  rewrite <- !andb_assoc, <- !orb_assoc, !andb_true_iff, !impb_iff, !eqb_true_iff, !orb_true_iff, !negb_true_iff, N.eqb_neq.
  reflexivity.
Qed.

Lemma skip_none_ext : forall f i, same_fieldsb f i = true -> skip_none i = skip_none f.
Proof. reflexivity. Qed.
Lemma skip_req_ext : forall r f i, same_fieldsb f i = true -> skip_req r i = skip_req r f.
Proof.
  intros r f i H. unfold skip_req. destruct (same_fields_eqs f i H) as (_ & _ & _ & -> & _). reflexivity.
Qed.

Lemma opt_code : forall cur : option N,
  let r := match cur with None => 0 | Some f => 1 + 2 * f end in
  (if r =? 0 then None else Some ((r - 1) / 2)) = cur.
Proof.
  intros [f|]; [|reflexivity]. cbv zeta. rewrite N.add_comm, N.add_sub, N.mul_comm, N.div_mul by discriminate.
  destruct (N.eqb_spec (f * 2 + 1) 0); [lia | reflexivity].
Qed.

Lemma mon_dec_enc : forall m, e_ep (m_e m) < 16 -> mon_dec (mon_enc m) = m.
Proof.
  intros [[ls ep] [cur adv] fr] H. cbn [m_e e_ep] in H. unfold mon_dec, mon_enc. cbn [m_e m_s m_fr e_ls e_ep s_cur s_adv].
  rewrite !pk_div, !pk_mod by first [apply b2n_lt2 | assumption].
  rewrite !nb_b2n, (opt_code cur). reflexivity.
Qed.
