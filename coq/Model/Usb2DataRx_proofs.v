(* C02 -- proofs about Model/Usb2DataRx.v: the receiver FSM model refines the packet-level specification
   (simulation relation rx_rel), packet-level reading lemmas of the specification, the model as the
   composition of the FSM core with the CRC16 unit and the interpacket timer, and packing lemmas for the
   lock-step tie.  The specification's packetiser rxp_next / rxp_done is Handshake's pk_next / pk_done under other
   names (convertible); what Handshake_proofs shows of it (d_dat_bound, pk_ok_next) is used here as it stands. *)
From Coq Require Import NArith Arith List Bool Lia.
Import ListNotations.
From LunaLib Require Import Netlist Bits Machine PackN ListFacts.
From LunaModel Require Import Crc Crc_proofs IpTimer IpTimer_proofs Handshake Handshake_proofs Usb2DataRx.
Open Scope N_scope.

Lemma rx_pid_facts_all : forall_bits 8 (fun d => Bool.eqb (rx_data_pid d) (data_pid_byte d)) = true.
Proof. vm_compute. reflexivity. Qed.

Lemma rx_data_pid_spec : forall d, d < 256 -> rx_data_pid d = data_pid_byte d.
Proof. intros d Hd. apply eqb_prop. exact (forall_bits_sound 8 _ rx_pid_facts_all d Hd). Qed.

(* Crc_proofs.crc16_reg under the receiver's name.  Its two lemmas are restated for rx_R: a goal that mixes the two
   names makes `auto` and `Qed` unfold both and convert CRC terms over symbolic bytes (ten times the checking time). *)
Definition rx_R (bs : list N) : list bool := crc_update poly16 (reg_init 16) (bits_of_units 8 bs).

Lemma rx_crc16_R : forall bs, crc16_usb bs = crc_out (rx_R bs).
Proof. exact crc16_usb_reg. Qed.

Lemma rx_R_snoc : forall bs b, rx_R (bs ++ [b]) = crc_update poly16 (rx_R bs) (N2bits 8 b).
Proof. exact crc16_reg_snoc. Qed.

Lemma rx_R_nil : rx_R [] = reg_init 16.
Proof. reflexivity. Qed.

Lemma rx_len2 : forall (pre : list N) a b, length (pre ++ [a; b]) = S (S (length pre)).
Proof. intros. rewrite app_length. apply Nat.add_comm. Qed.

Lemma rx_leb2 : forall (pre : list N) a b, Nat.leb 2 (length (pre ++ [a; b])) = true.
Proof. intros. rewrite rx_len2. reflexivity. Qed.

Lemma rx_payload_of_app : forall pre a b, payload_of (pre ++ [a; b]) = pre.
Proof.
  intros. unfold payload_of. rewrite rx_len2. cbn [Nat.sub]. rewrite Nat.sub_0_r. apply firstn_app_l. reflexivity.
Qed.

Lemma rx_nth_lo : forall pre a b, nth (length (pre ++ [a; b]) - 2) (pre ++ [a; b]) 0 = a.
Proof. intros. rewrite rx_len2. cbn [Nat.sub]. rewrite Nat.sub_0_r. apply nth_middle. Qed.

Lemma rx_trailer_of_app : forall pre a b, trailer_of (pre ++ [a; b]) = a + 256 * b.
Proof.
  intros. unfold trailer_of. rewrite rx_nth_lo, rx_len2. cbn [Nat.sub].
  change (pre ++ [a; b]) with (pre ++ [a] ++ [b]). rewrite app_assoc, <- (last_length pre a), nth_middle. reflexivity.
Qed.

Lemma rx_split_last2 : forall (l : list N), (2 <= length l)%nat -> exists pre a b, l = pre ++ [a; b].
Proof.
  intros l H. destruct (exists_last (l := l)) as [l1 [b ->]]; [intros ->; inversion H|].
  rewrite last_length in H. destruct (exists_last (l := l1)) as [pre [a ->]]; [intros ->; inversion H; lia|].
  exists pre, a, b. symmetry. apply (app_assoc pre [a] [b]).
Qed.

Lemma rx_snoc3 : forall (pre : list N) a b d, (pre ++ [a; b]) ++ [d] = (pre ++ [a]) ++ [b; d].
Proof. intros. rewrite <- !app_assoc. reflexivity. Qed.

Lemma pkt_verdict_framed : forall p payload lo hi,
  pkt_verdict (p :: payload ++ [lo; hi]) =
  if data_pid_byte p then (if crc16_usb payload =? lo + 256 * hi then V_GOOD else V_BAD) else V_NONE.
Proof.
  intros. unfold pkt_verdict. rewrite rx_leb2, rx_payload_of_app, rx_trailer_of_app.
  rewrite andb_true_r. reflexivity.
Qed.

Lemma pkt_verdict_short : forall l, (length l <= 2)%nat -> pkt_verdict l = V_NONE.
Proof.
  intros [|p bs] H; [reflexivity|]. unfold pkt_verdict. cbn [length] in H.
  rewrite (proj2 (Nat.leb_gt 2 (length bs))), andb_false_r by lia. reflexivity.
Qed.

Lemma pkt_stream_framed : forall p payload lo hi,
  pkt_stream (p :: payload ++ [lo; hi]) = if data_pid_byte p then payload else [].
Proof. intros. unfold pkt_stream. rewrite rx_payload_of_app. reflexivity. Qed.

Lemma pkt_verdict_good_iff : forall l, Forall (fun b => b < 256) l ->
  (pkt_verdict l = V_GOOD <->
   exists p payload, data_pid_byte p = true /\
     l = p :: payload ++ [crc16_usb payload mod 256; crc16_usb payload / 256]).
Proof.
  intros l Hl. split.
  - destruct l as [|p bs]; [discriminate|]. unfold pkt_verdict.
    destruct (data_pid_byte p) eqn:Ep; [|discriminate]. cbn [andb].
    destruct (Nat.leb 2 (length bs)) eqn:E2; [|discriminate].
    apply Nat.leb_le in E2. destruct (rx_split_last2 bs E2) as [pre [a [b ->]]].
    rewrite rx_payload_of_app, rx_trailer_of_app.
    destruct (N.eqb_spec (crc16_usb pre) (a + 256 * b)) as [Ec|]; [|discriminate]. intros _.
    exists p, pre. split; [exact Ep|].
    inversion Hl as [|? ? _ Hbs]; subst. apply Forall_app in Hbs as [_ Hab].
    inversion Hab as [|? ? Ha _]; subst.
    rewrite Ec, digit_mod, digit_div by exact Ha. reflexivity.
  - intros [p [payload [Ep ->]]]. rewrite pkt_verdict_framed, Ep.
    rewrite N.add_comm, <- N.div_mod', N.eqb_refl by discriminate. reflexivity.
Qed.

Section Refine.
  Variables cmax w : N.
  Variable tbl : ip_table.
  Variable speed : N.
  Variables D tb tt : N.
  Hypothesis Htbl : tbl speed = Some (D, tb, tt).
  Hypothesis HD : D <= cmax + 1.
  Hypothesis Hw : cmax + 1 < 2 ^ w.

  (* what the FSM state knows about the packet in progress *)
  Definition rx_rel_fsm (s : rx_state) (q : rxs_state) : Prop :=
    match x_fsm s with
    | RX_IDLE => q_pkt q = None /\ q_wait q = None
    | RX_READ_PID => q_pkt q = Some [] /\ q_wait q = None
    | RX_IRRELEVANT => exists p bs, q_pkt q = Some (p :: bs) /\ data_pid_byte p = false /\ q_wait q = None
    | RX_FIRST => exists p, q_pkt q = Some [p] /\ data_pid_byte p = true /\ x_apid s = p mod 16 /\
                            x_crc s = rx_R [] /\ q_wait q = None
    | RX_SECOND => exists p b, q_pkt q = Some [p; b] /\ data_pid_byte p = true /\ x_apid s = p mod 16 /\
                               x_hi s = b /\ x_lbc s = crc16_usb [] /\ x_crc s = rx_R [b] /\ q_wait q = None
    | RX_EMIT => exists p pre a b, q_pkt q = Some (p :: pre ++ [a; b]) /\ data_pid_byte p = true /\
                               x_apid s = p mod 16 /\ x_lo s = a /\ x_hi s = b /\
                               x_lwc s = crc16_usb pre /\ x_lbc s = crc16_usb (pre ++ [a]) /\
                               x_crc s = rx_R (pre ++ [a; b]) /\ q_wait q = None
    | RX_DELAY => q_pkt q = None /\ exists k, q_wait q = Some k /\ x_cnt s = k /\ k <= D
    end.

  (* the strobe registers show the verdict on the last packet *)
  Definition rx_regs (s : rx_state) (q : rxs_state) : Prop :=
    x_done s = (match q_v q with V_GOOD => true | _ => false end) /\
    x_bad s = (match q_v q with V_BAD => true | _ => false end) /\
    x_pid s = q_pid q.

  Definition rx_rel (s : rx_state) (q : rxs_state) : Prop := rx_regs s q /\ rx_rel_fsm s q.

  Lemma rx_rel_init : rx_rel rx_init rxs_init.
  Proof. repeat split. Qed.

  Ltac rx_crunch :=
    cbn [x_fsm x_apid x_lo x_hi x_lbc x_lwc x_crc x_done x_bad x_pid x_cnt app
         q_pkt q_v q_pid q_wait fst snd rxp_next rxp_done negb andb orb pkt_streaming pkt_oldest] in *.

  (* goal  (rx_regs s' q' /\ rx_rel_fsm s' q') /\ o = o'  in a cycle that completes no packet: leaves the FSM part *)
  Ltac rx_quiet := split; [split; [repeat split|] | reflexivity].

  Lemma rx_rel_step : forall s q i, rx_rel s q -> rxs_env q i = true ->
    rx_rel (fst (rx_step cmax w tbl speed s i)) (fst (rxs_step D q i)) /\
    snd (rx_step cmax w tbl speed s i) = snd (rxs_step D q i).
  Proof.
    intros [f apid lo hi lbc lwc crc done bad pid cnt] [pkt v qpid wait] i ((Hd & Hb & Hp) & Hf) Henv.
    apply andb_true_iff in Henv as [Hva Hwt].
    assert (Hav : rx_act i = false -> rx_val i = false)
      by (intro A; rewrite A, orb_false_r in Hva; apply negb_true_iff, Hva).
    unfold rx_rel, rx_rel_fsm, rx_step, rxs_step in *. rx_crunch. subst done bad pid.
    rewrite (ip_allowed tbl speed cnt D tb tt Htbl), (rx_data_pid_spec (rx_dat i) (d_dat_bound i)),
      (bits_0 (rx_dat i) 4 : _ = rx_dat i mod 16).
    destruct f; rx_crunch.
    - (* IDLE *)
      destruct Hf as [-> ->]. rx_crunch.
      destruct (rx_act i); rx_quiet; split; reflexivity.
    - (* READ_PID *)
      destruct Hf as [-> ->]. rx_crunch.
      destruct (rx_act i); [destruct (rx_val i) | rewrite (Hav eq_refl)]; rx_crunch.
      + destruct (data_pid_byte (rx_dat i)) eqn:P; rx_quiet.
        * exists (rx_dat i). auto.
        * exists (rx_dat i), []. auto.
      + rx_quiet. split; reflexivity.
      + rx_quiet. split; reflexivity.
    - (* FIRST *)
      destruct Hf as (p & -> & P & -> & -> & ->). rx_crunch. rewrite P. rx_crunch.
      destruct (rx_act i); [destruct (rx_val i) | rewrite (Hav eq_refl)]; rx_crunch.
      + rx_quiet. exists p, (rx_dat i). rewrite <- (rx_R_snoc []). auto 7.
      + rx_quiet. exists p. auto.
      + rewrite (pkt_verdict_short [p]) by (cbn; lia). rx_quiet. split; reflexivity.
    - (* SECOND *)
      destruct Hf as (p & b & -> & P & -> & -> & -> & -> & ->). rx_crunch. rewrite P. rx_crunch.
      destruct (rx_act i); [destruct (rx_val i) | rewrite (Hav eq_refl)]; rx_crunch.
      + rx_quiet. exists p, [], b, (rx_dat i). rewrite <- (rx_R_snoc [b]), <- rx_crc16_R. auto 10.
      + rx_quiet. exists p, b. auto 7.
      + rewrite (pkt_verdict_short [p; b]) by (cbn; lia). rx_quiet. split; reflexivity.
    - (* EMIT: at the end of the packet the CRC of all but the last two bytes (last_word_crc) is compared with those two *)
      destruct Hf as (p & pre & a & b & -> & P & -> & -> & -> & -> & -> & -> & ->). rx_crunch.
      rewrite P, rx_leb2, rx_nth_lo. rx_crunch.
      destruct (rx_act i); [destruct (rx_val i) | rewrite (Hav eq_refl)]; rx_crunch.
      + rx_quiet. exists p, (pre ++ [a]), b, (rx_dat i).
        rewrite <- rx_snoc3, <- rx_R_snoc, <- rx_crc16_R, <- (app_assoc pre [a] [b]). auto 10.
      + rx_quiet. exists p, pre, a, b. auto 10.
      + rewrite pkt_verdict_framed, P.
        destruct (crc16_usb pre =? a + 256 * b); rx_crunch; (split; [|reflexivity]).
        * repeat split. exists 0. repeat split. apply N.le_0_l.
        * repeat split.
    - (* DELAY: no packet arrives (environment) until the counter has reached D *)
      destruct Hf as (-> & k & -> & -> & Hk). rx_crunch.
      apply negb_true_iff in Hwt. rewrite Hwt, (Hav Hwt). rx_crunch.
      destruct (N.eqb_spec k D); rx_quiet.
      + split; reflexivity.
      + split; [reflexivity|]. exists (k + 1). rewrite (ip_next_count cmax w) by lia. repeat split. lia.
    - (* IRRELEVANT *)
      destruct Hf as (p & bs & -> & P & ->). rx_crunch. rewrite P. rx_crunch.
      destruct (rx_act i); rx_crunch.
      + rx_quiet. destruct (rx_val i); [exists p, (bs ++ [rx_dat i]) | exists p, bs]; auto.
      + unfold pkt_verdict. rewrite P. rx_quiet. split; reflexivity.
  Qed.

  Theorem rx_refines : forall tr s q, rx_rel s q -> env_ok rxs_state (rxs_step D) rxs_env q tr = true ->
    run (rx_step cmax w tbl speed) s tr = run (rxs_step D) q tr.
  Proof. exact (sim_run _ _ rx_rel rxs_env rx_rel_step). Qed.

  Corollary rx_from_reset : forall tr, env_ok rxs_state (rxs_step D) rxs_env rxs_init tr = true ->
    run (rx_step cmax w tbl speed) rx_init tr = run (rxs_step D) rxs_init tr.
  Proof. intros. apply rx_refines; [apply rx_rel_init | assumption]. Qed.
End Refine.

Lemma rx_out_decode : forall v n p d b r pid, p < 256 -> pid < 16 ->
  let o := rx_out_word v n p d b r pid in
  o_valid o = v /\ o_next o = n /\ o_payload o = p /\ o_complete o = d /\ o_mismatch o = b /\
  o_ready o = r /\ o_pid o = pid.
Proof.
  intros v n p d b r pid Hp Hpid o.
  set (L := [(1, b2n v); (1, b2n n); (8, p); (1, b2n d); (1, b2n b); (1, b2n r); (4, pid)]).
  assert (HL : fields_ok L) by (repeat constructor; try apply b2n_lt2; assumption).
  assert (E : o = fields_word L) by (unfold o, rx_out_word, L; cbn [fields_word]; lia).
  rewrite E. repeat split.
  - exact (testbit_fields_word L 0 v HL eq_refl).
  - exact (testbit_fields_word L 1 n HL eq_refl).
  - exact (bits_fields_word L 2 HL).
  - exact (testbit_fields_word L 3 d HL eq_refl).
  - exact (testbit_fields_word L 4 b HL eq_refl).
  - exact (testbit_fields_word L 5 r HL eq_refl).
  - exact (bits_fields_word L 6 HL).
Qed.

Definition rxs_wf (q : rxs_state) : Prop := pk_ok (q_pkt q) /\ q_pid q < 16.

Lemma rxs_wf_init : rxs_wf rxs_init.
Proof. split; [exact I | reflexivity]. Qed.

Lemma pkt_oldest_lt : forall p, pk_ok p -> pkt_oldest p < 256.
Proof.
  intros [[|x bs]|] H; try reflexivity. cbn [pkt_oldest].
  destruct (nth_in_or_default (length bs - 2) bs 0) as [I | ->]; [|reflexivity].
  inversion H as [|? ? _ Hbs]; subst. exact (proj1 (Forall_forall _ _) Hbs _ I).
Qed.

Section SpecFacts.
  Variable D : N.

  Lemma rxs_wf_step : forall q i, rxs_wf q -> rxs_wf (fst (rxs_step D q i)).
  Proof.
    intros [pkt v pid wait] i [Hl Hp]. unfold rxs_step, rxs_wf in *. cbn [q_pkt q_v q_pid q_wait fst] in *. split.
    - exact (pk_ok_next pkt i Hl).
    - destruct (match rxp_done pkt i with Some l => pkt_verdict l | None => V_NONE end); try assumption.
      destruct (rxp_done pkt i) as [[|p ?]|]; try assumption. apply N.mod_lt. discriminate.
  Qed.

  Lemma rxs_out_fields : forall q i, rxs_wf q ->
    let o := snd (rxs_step D q i) in
    o_valid o = pkt_streaming (q_pkt q) /\
    o_next o = (pkt_streaming (q_pkt q) && rx_val i) /\
    o_payload o = (if pkt_streaming (q_pkt q) && rx_val i then pkt_oldest (q_pkt q) else 0) /\
    o_complete o = (match q_v q with V_GOOD => true | _ => false end) /\
    o_mismatch o = (match q_v q with V_BAD => true | _ => false end) /\
    o_ready o = (match q_wait q with Some k => k =? D | None => false end) /\
    o_pid o = q_pid q.
  Proof.
    intros q i [Hl Hp]. unfold rxs_step. cbn [snd]. apply rx_out_decode; [|exact Hp].
    destruct (pkt_streaming (q_pkt q) && rx_val i); [apply pkt_oldest_lt; exact Hl | lia].
  Qed.

  Lemma rxs_o_verdict : forall q i, rxs_wf q -> o_verdict (snd (rxs_step D q i)) = q_v q.
  Proof.
    intros q i H. destruct (rxs_out_fields q i H) as (_ & _ & _ & Hc & Hm & _).
    unfold o_verdict. rewrite Hc, Hm. destruct (q_v q); reflexivity.
  Qed.

  (* no packet ever raises both strobes *)
  Theorem rxs_never_both : forall tr q, rxs_wf q ->
    Forall (fun o => o_complete o && o_mismatch o = false) (run (rxs_step D) q tr).
  Proof.
    induction tr as [|i tr IH]; intros q H; [constructor|].
    rewrite run_cons. constructor; [|apply IH, rxs_wf_step, H].
    destruct (rxs_out_fields q i H) as (_ & _ & _ & Hc & Hm & _). rewrite Hc, Hm. destruct (q_v q); reflexivity.
  Qed.

  (* the verdict on a packet is shown in the cycle after the one in which rx_active falls *)
  Theorem rxs_verdict_events : forall tr x q, rxs_wf q ->
    filter is_verdict (map o_verdict (run (rxs_step D) q (tr ++ [x])))
    = filter is_verdict (q_v q :: map pkt_verdict (rx_packets (q_pkt q) tr)).
  Proof.
    induction tr as [|i tr IH]; intros x q H; cbn [app]; rewrite run_cons; cbn [run map filter];
      rewrite rxs_o_verdict by exact H; [reflexivity|].
    rewrite IH by apply rxs_wf_step, H. cbn [rxs_step fst q_pkt q_v rx_packets].
    destruct (rxp_done (q_pkt q) i); reflexivity.
  Qed.

  Corollary rxs_verdict_events_reset : forall tr x,
    filter is_verdict (map o_verdict (run (rxs_step D) rxs_init (tr ++ [x])))
    = filter is_verdict (map pkt_verdict (rx_packets None tr)).
  Proof. intros. rewrite rxs_verdict_events by apply rxs_wf_init. reflexivity. Qed.

  Definition pkt_stream_opt (p : option (list N)) : list N := match p with Some l => pkt_stream l | None => [] end.

  Lemma rx_payload_snoc : forall bs d,
    payload_of (bs ++ [d]) = payload_of bs ++ (if Nat.leb 2 (length bs) then [nth (length bs - 2) bs 0] else []).
  Proof.
    intros bs d. destruct (Nat.leb 2 (length bs)) eqn:E.
    - apply Nat.leb_le in E. destruct (rx_split_last2 bs E) as [pre [a [b ->]]].
      rewrite rx_snoc3, !rx_payload_of_app, rx_nth_lo. reflexivity.
    - apply Nat.leb_gt in E. unfold payload_of. rewrite app_length. cbn [length].
      replace (length bs + 1 - 2)%nat with 0%nat by lia. replace (length bs - 2)%nat with 0%nat by lia.
      reflexivity.
  Qed.

  Lemma pkt_stream_snoc : forall l d,
    pkt_stream (l ++ [d]) = pkt_stream l ++ (if pkt_streaming (Some l) then [pkt_oldest (Some l)] else []).
  Proof.
    intros [|p bs] d.
    - cbn [app pkt_stream pkt_streaming]. destruct (data_pid_byte d); reflexivity.
    - cbn [app pkt_stream pkt_streaming pkt_oldest]. destruct (data_pid_byte p); cbn [andb].
      + apply rx_payload_snoc.
      + reflexivity.
  Qed.

  (* for the packet still in progress: its bytes so far minus the last two *)
  Theorem rxs_streamed : forall tr q, rxs_wf q -> env_ok rxs_state (rxs_step D) rxs_env q tr = true ->
    pkt_stream_opt (q_pkt q) ++ streamed (run (rxs_step D) q tr)
    = flat_map pkt_stream (rx_packets (q_pkt q) tr) ++ pkt_stream_opt (rx_pending (q_pkt q) tr).
  Proof.
    induction tr as [|i tr IH]; intros q H HE; [cbn; rewrite app_nil_r; reflexivity|].
    cbn [env_ok] in HE. apply andb_true_iff in HE as [He Ht].
    unfold rxs_env in He. apply andb_true_iff in He as [Hva _].
    destruct (rxs_out_fields q i H) as (_ & Hn & Hpl & _).
    specialize (IH _ (rxs_wf_step q i H) Ht).
    rewrite run_cons. unfold streamed in *. cbn [filter rx_packets rx_pending]. rewrite Hn.
    destruct q as [[l|] v pid wait]; cbn [rxs_step fst q_pkt rxp_done rxp_next pkt_stream_opt] in *.
    - destruct (rx_act i).
      + destruct (rx_val i).
        * rewrite andb_true_r in *. rewrite <- IH. cbn [pkt_stream_opt]. rewrite pkt_stream_snoc.
          destruct (pkt_streaming (Some l)); cbn [map].
          -- rewrite Hpl, <- app_assoc. reflexivity.
          -- rewrite app_nil_r. reflexivity.
        * rewrite andb_false_r in *. rewrite <- IH. reflexivity.
      + rewrite orb_false_r in Hva. apply negb_true_iff in Hva. rewrite Hva, andb_false_r.
        cbn [flat_map]. rewrite <- app_assoc, <- IH. reflexivity.
    - rewrite <- IH. destruct (rx_act i); reflexivity.
  Qed.

  Corollary rxs_streamed_reset : forall tr, env_ok rxs_state (rxs_step D) rxs_env rxs_init tr = true ->
    streamed (run (rxs_step D) rxs_init tr)
    = flat_map pkt_stream (rx_packets None tr) ++ pkt_stream_opt (rx_pending None tr).
  Proof. intros tr H. apply (rxs_streamed tr rxs_init rxs_wf_init H). Qed.

  (* ready_for_response is raised exactly D cycles after a packet_complete strobe *)
  Lemma rxs_ready_cause : forall tr q t, rxs_wf q ->
    o_ready (nth t (run (rxs_step D) q tr) 0) = true ->
    (exists k, q_wait q = Some k /\ (N.to_nat k + t)%nat = N.to_nat D) \/
    (exists j, t = (j + N.to_nat D)%nat /\ o_complete (nth j (run (rxs_step D) q tr) 0) = true).
  Proof.
    induction tr as [|i tr IH]; intros q t H Hr; [destruct t; discriminate|].
    rewrite run_cons in *. set (q' := fst (rxs_step D q i)) in *.
    destruct t as [|t]; cbn [nth] in Hr.
    - left. destruct (rxs_out_fields q i H) as (_ & _ & _ & _ & _ & Hrd & _). rewrite Hrd in Hr.
      destruct (q_wait q) as [k|]; [|discriminate]. apply N.eqb_eq in Hr. exists k. split; [reflexivity | lia].
    - pose proof (rxs_wf_step q i H : rxs_wf q') as H'.
      destruct (IH q' t H' Hr) as [(k' & Hk' & Ht) | (j & Ht & Hc)].
      + (* the wait counter of q' was started by a good packet in this cycle or continues that of q *)
        change (q_wait q') with (match q_v q' with
                                 | V_GOOD => Some 0
                                 | _ => match q_wait q with Some k => if k =? D then None else Some (k + 1) | None => None end
                                 end) in Hk'.
        destruct (q_v q') eqn:Ev.
        2: { inversion Hk'; subst k'. right. exists 1%nat. split; [lia|]. cbn [nth].
             destruct tr as [|i2 tr2]; [destruct t; discriminate|]. rewrite run_cons. cbn [nth].
             destruct (rxs_out_fields q' i2 H') as (_ & _ & _ & Hc2 & _). rewrite Hc2, Ev. reflexivity. }
        all: destruct (q_wait q) as [k|]; [|discriminate]; destruct (k =? D); [discriminate|];
          inversion Hk'; subst k'; left; exists k; split; [reflexivity | lia].
      + right. exists (S j). split; [lia | exact Hc].
  Qed.

  Theorem rxs_ready_follows_complete : forall tr t,
    o_ready (nth t (run (rxs_step D) rxs_init tr) 0) = true ->
    (N.to_nat D <= t)%nat /\ o_complete (nth (t - N.to_nat D) (run (rxs_step D) rxs_init tr) 0) = true.
  Proof.
    intros tr t H. destruct (rxs_ready_cause tr rxs_init t rxs_wf_init H) as [(k & Hk & _) | (j & -> & Hc)]; [discriminate|].
    split; [lia|]. rewrite Nat.add_sub. exact Hc.
  Qed.
End SpecFacts.

Theorem rx_step_compose : forall cmax w tbl speed s i,
  rx_step cmax w tbl speed s i =
  let '(c', (o, st_crc, st_tm)) :=
    rxo_core (rxo_of s) (rx_act i) (rx_val i) (rx_dat i) (crc_out (x_crc s)) (N.odd (ip_strobes tbl (x_cnt s) speed)) in
  ({| x_fsm := c_fsm c'; x_apid := c_apid c'; x_lo := c_lo c'; x_hi := c_hi c'; x_lbc := c_lbc c'; x_lwc := c_lwc c';
      (* USBDataPacketCRC (crc16mod_step of Model/Crc.v with tx_valid = 0): start, else rx_valid advances *)
      x_crc := if st_crc then reg_init 16
               else crc_reg_next poly16 (x_crc s) [(rx_val i, N2bits 8 (rx_dat i))];
      x_done := c_done c'; x_bad := c_bad c'; x_pid := c_pid c';
      (* USBInterpacketTimer (ip_next of Model/IpTimer.v) *)
      x_cnt := ip_next cmax w (x_cnt s) st_tm |}, o).
Proof.
  intros cmax w tbl speed [f apid lo hi lbc lwc crc done bad pid cnt] i.
  unfold rx_step, rxo_core, rxo_of.
  cbn [x_fsm x_apid x_lo x_hi x_lbc x_lwc x_crc x_done x_bad x_pid x_cnt
       c_fsm c_apid c_lo c_hi c_lbc c_lwc c_done c_bad c_pid crc_reg_next].
  destruct f; reflexivity.
Qed.

Lemma rx_fsm_code_of : forall f, rx_fsm_of (rx_fsm_code f) = f.
Proof. destruct f; reflexivity. Qed.
Lemma rx_fsm_code_lt : forall f, rx_fsm_code f < 8.
Proof. destruct f; reflexivity. Qed.

Lemma rxo_dec_enc : forall c, rxo_wf c -> rxo_dec (rxo_enc c) = c.
Proof.
  intros [f apid lo hi lbc lwc done bad pid] (H1 & H2 & H3 & H4 & H5).
  cbn [c_apid c_lo c_hi c_lbc c_lwc] in *.
  unfold rxo_dec, rxo_enc. cbn [c_fsm c_apid c_lo c_hi c_lbc c_lwc c_done c_bad c_pid].
  cbv zeta. rewrite !pk_div, !pk_mod by first [apply rx_fsm_code_lt | apply b2n_lt2 | assumption].
  rewrite rx_fsm_code_of. destruct done, bad; reflexivity.
Qed.

Lemma rxo_wf_init : rxo_wf rxo_init.
Proof. repeat split. Qed.

Lemma rxo_core_wf : forall c act val d crc_o allowed, rxo_wf c -> d < 256 -> crc_o < 65536 ->
  rxo_wf (fst (rxo_core c act val d crc_o allowed)).
Proof.
  intros [f apid lo hi lbc lwc done bad pid] act val d crc_o allowed (H1 & H2 & H3 & H4 & H5) Hd Hcrc.
  cbn [c_apid c_lo c_hi c_lbc c_lwc] in *.
  unfold rxo_wf, rxo_core. cbn [fst c_fsm c_apid c_lo c_hi c_lbc c_lwc].
  pose proof (bits_lt d 0 4 : bits d 0 4 < 16).
  repeat split; match goal with |- (if ?c then _ else _) < _ => destruct c; assumption end.
Qed.

Lemma rxo_wf_step : forall c i, rxo_wf c -> rxo_wf (fst (rxo_step c i)).
Proof.
  intros c i H. unfold rxo_step.
  pose proof (rxo_core_wf c (rx_act i) (rx_val i) (rx_dat i) (bits i 10 16) (N.testbit i 26) H (d_dat_bound i)
                          (bits_lt i 10 16)) as W.
  destruct (rxo_core c _ _ _ _ _) as [c' [[o a] b]]. exact W.
Qed.

Lemma rx_dec_enc : forall s, rx_wf s -> rx_dec (rx_enc s) = s.
Proof.
  intros [f apid lo hi lbc lwc crc done bad pid cnt] (H1 & H2 & H3 & H4 & H5 & H6 & H7).
  cbn [x_apid x_lo x_hi x_lbc x_lwc x_crc x_pid] in *.
  unfold rx_dec, rx_enc. cbn [x_fsm x_apid x_lo x_hi x_lbc x_lwc x_crc x_done x_bad x_pid x_cnt].
  pose proof (bits2N_lt_len crc 16 H6) as Hc.
  cbv zeta. rewrite !pk_div, !pk_mod by first [apply rx_fsm_code_lt | apply b2n_lt2 | assumption].
  rewrite rx_fsm_code_of, (N2bits_bits2N_len crc 16 H6). destruct done, bad; reflexivity.
Qed.

Lemma rx_wf_init : rx_wf rx_init.
Proof. repeat split. Qed.

Lemma rx_wf_step : forall cmax w tbl speed s i, rx_wf s -> rx_wf (fst (rx_step cmax w tbl speed s i)).
Proof.
  intros cmax w tbl speed s i (H1 & H2 & H3 & H4 & H5 & H6 & H7).
  assert (Hcrc : crc_out (x_crc s) < 65536) by (pose proof (crc_out_lt (x_crc s)) as B; rewrite H6 in B; exact B).
  pose proof (rxo_core_wf (rxo_of s) (rx_act i) (rx_val i) (rx_dat i) (crc_out (x_crc s))
                          (N.odd (ip_strobes tbl (x_cnt s) speed)) (conj H1 (conj H2 (conj H3 (conj H4 H5))))
                          (d_dat_bound i) Hcrc) as (W1 & W2 & W3 & W4 & W5).
  unfold rx_wf, rx_step. cbn [fst x_apid x_lo x_hi x_lbc x_lwc x_crc x_pid].
  repeat split; [exact W1 | exact W2 | exact W3 | exact W4 | exact W5 | | ].
  - destruct (x_fsm s), (rx_val i); try reflexivity; try exact H6; apply (crc_update_length poly16), H6.
  - destruct (_ && _); assumption.
Qed.
