(* C51 -- proofs about the SPI register interface model (Model/SpiReg.v): the interface followed through a host
   transaction by composing triples `seg` over stretches of the input, phase by phase (RestP, CmdP, DatP say
   where the FSM, the bit counter and the shift registers are; all of them imply that nothing is being written);
   for arbitrary pins, that nothing is written before a data word is complete; and the state packing of the
   lock-step obligations. *)
From Coq Require Import NArith PeanoNat List Bool Lia.
Import ListNotations.
From LunaLib Require Import Netlist Bits Machine BitFacts ListFacts.
From LunaModel Require Import SpiReg.
Open Scope N_scope.

Ltac fields := cbn [fsm past_sck cnt ccmd cword wcomplete command wrecv sdo regs] in *.

Lemma ltb_of_nat : forall k n, (k < n)%nat -> (N.of_nat k <? N.of_nat n) = true.
Proof. intros k n H. apply N.ltb_lt. lia. Qed.

Lemma to_msb_length : forall w v, length (to_msb w v) = w.
Proof. intros. unfold to_msb. rewrite rev_length. apply N2bits_length. Qed.

Lemma of_msb_lt : forall l n, length l = n -> of_msb l < 2 ^ N.of_nat n.
Proof. exact bits2N_rev_lt. Qed.

Definition inp (sck sdi cs : bool) : N := b2n sck + 2 * b2n sdi + 4 * b2n cs.
Lemma inp_sck : forall a b d, i_sck (inp a b d) = a. Proof. intros [] [] []; reflexivity. Qed.
Lemma inp_sdi : forall a b d, i_sdi (inp a b d) = b. Proof. intros [] [] []; reflexivity. Qed.
Lemma inp_cs : forall a b d, i_cs (inp a b d) = d. Proof. intros [] [] []; reflexivity. Qed.

(* one clock pulse carrying bit b: sck high for hi+1 cycles, then low for lo+1 cycles (the first low cycle is
   the falling edge on which the device samples sdi); chip select held *)
Definition pulse_hi (b : bool) (hi : nat) : list N := repeat (inp true b true) (S hi).
Definition pulse_lo (b : bool) (lo : nat) : list N := repeat (inp false b true) lo.
Definition bit_pulse (p : bool * nat * nat) : list N :=
  match p with (b, hi, lo) => pulse_hi b hi ++ inp false b true :: pulse_lo b lo end.
Definition pulses (ps : list (bool * nat * nat)) : list N := flat_map bit_pulse ps.
Definition bit_of (p : bool * nat * nat) : bool := fst (fst p).
Definition select (n : nat) : list N := repeat (inp false false true) (S n).
Definition deselect (n : nat) : list N := repeat (inp false false false) n.

Section Transactions.
  Variable c : r_cfg.

  Notation rstate := (run_state (r_step c)).

  Fixpoint strobes (a : N) (st : r_state) (tr : list N) : nat :=
    match tr with
    | [] => 0%nat
    | i :: t => ((if strobe st a then 1 else 0) + strobes a (r_next c st i) t)%nat
    end.

  Lemma strobes_app : forall a x y st, strobes a st (x ++ y) = (strobes a st x + strobes a (rstate st x) y)%nat.
  Proof.
    induction x as [|i x IH]; intros y st; [reflexivity|].
    cbn [app strobes run_state r_step fst]. rewrite IH. lia.
  Qed.

  (* "quiet": no word has just completed; then nothing is written and no strobe is high *)
  Definition quiet (R : list N) (st : r_state) : Prop := wcomplete st = false /\ regs st = R.

  Lemma quiet_strobe : forall R st a, quiet R st -> strobe st a = false.
  Proof. intros R st a [Hw _]. unfold strobe. rewrite Hw, andb_false_r. reflexivity. Qed.

  Lemma quiet_regs_next : forall R st, length R = length (rw c) -> quiet R st -> regs_next c st = R.
  Proof.
    intros R st HL HQ. unfold regs_next.
    rewrite (map_ext _ snd) by (intros av; rewrite (quiet_strobe R st _ HQ); reflexivity).
    destruct HQ as [_ ->]. apply map_snd_combine. symmetry. exact HL.
  Qed.

  (* A stretch of the host's inputs, as a triple: from any state in Q the inputs tr lead to a state in Q', and the
     write strobe of register a is high in n of these cycles.  Transactions are followed by composing such triples. *)
  Definition seg (a : N) (Q : r_state -> Prop) (tr : list N) (n : nat) (Q' : r_state -> Prop) : Prop :=
    forall st, Q st -> Q' (rstate st tr) /\ strobes a st tr = n.

  Lemma seg_app : forall a (Q Q' Q'' : r_state -> Prop) x y n m,
    seg a Q x n Q' -> seg a Q' y m Q'' -> seg a Q (x ++ y) (n + m) Q''.
  Proof.
    intros a Q Q' Q'' x y n m H1 H2 st H. rewrite run_state_app, strobes_app.
    destruct (H1 st H) as [A ->]. destruct (H2 _ A) as [B ->]. split; [exact B | reflexivity].
  Qed.

  (* seg_app after a stretch without a strobe: `apply` cannot split the count of a goal into a sum *)
  Lemma seg_then : forall a (Q Q' Q'' : r_state -> Prop) x y m,
    seg a Q x 0 Q' -> seg a Q' y m Q'' -> seg a Q (x ++ y) m Q''.
  Proof. intros a Q Q' Q'' x y m. exact (seg_app a Q Q' Q'' x y 0 m). Qed.

  Lemma seg_one : forall R a (Q Q' : r_state -> Prop) i,
    (forall st, Q st -> quiet R st /\ Q' (r_next c st i)) -> seg a Q [i] 0 Q'.
  Proof.
    intros R a Q Q' i H st HQ. destruct (H st HQ) as [Hq Hn]. cbn [run_state r_step fst strobes].
    rewrite (quiet_strobe R st a Hq). split; [exact Hn | reflexivity].
  Qed.

  Lemma seg_repeat : forall a (P : r_state -> Prop) i n, seg a P [i] 0 P -> seg a P (repeat i n) 0 P.
  Proof.
    intros a P i n H. induction n as [|n IH]; [intros st HP; split; [exact HP | reflexivity]|].
    exact (seg_then a P P P [i] (repeat i n) 0 H IH).
  Qed.

  Lemma cnt_next : forall k, (k < Nat.max (rsz c) (csz c))%nat ->
    (N.of_nat k + 1) mod 2 ^ cnt_w c = N.of_nat (S k).
  Proof. intros k H. unfold cnt_w. rewrite mod_pow2_size; lia. Qed.

  (* RECV_CMD and SHIFT_DATA alike: while fewer than `size` falling edges of sck have been counted, each of them
     takes sdi into a shift register.  `Ph p k l` is to say: past_sck = p, k edges counted, the register holds l. *)
  Definition shift_phase (Ph : bool -> nat -> list bool -> r_state -> Prop) (size : nat) : Prop :=
    forall a p k l sck b, (k < size)%nat ->
      seg a (Ph p k l) [inp sck b true] 0
          (Ph sck (if p && negb sck then S k else k) (if p && negb sck then tl l ++ [b] else l)).

  Fixpoint shift_bits (l : list bool) (bs : list bool) : list bool :=
    match bs with [] => l | b :: t => shift_bits (tl l ++ [b]) t end.

  Section WithR.
  Variable R : list N.
  Hypothesis HR : length R = length (rw c).

  (* C51 is stated with IdleP.  The proofs use RestP, waiting in STALL or IDLE, of which IdleP is the instance
     RestP IDLE false (by conversion: a `seg` that ends in the one is accepted where the other is asked for), and
     IdleC l, IdleP with ccmd = l: CmdP tracks ccmd, so idle_cycle has to be told what it starts from. *)
  Definition IdleP (st : r_state) : Prop :=
    fsm st = IDLE /\ past_sck st = false /\ quiet R st.
  Definition RestP (f : c_fsm) (p : bool) (st : r_state) : Prop :=
    fsm st = f /\ past_sck st = p /\ quiet R st.
  Definition IdleC (l : list bool) (st : r_state) : Prop := IdleP st /\ ccmd st = l.
  Definition CmdP (p : bool) (k : nat) (l : list bool) (st : r_state) : Prop :=
    fsm st = RECV_CMD /\ past_sck st = p /\ cnt st = N.of_nat k /\ ccmd st = l /\ quiet R st.
  Definition DatP (cmdv : list bool) (p : bool) (k : nat) (w : list bool) (st : r_state) : Prop :=
    fsm st = SHIFT_DATA /\ past_sck st = p /\ cnt st = N.of_nat k /\ cword st = w /\ command st = cmdv /\ quiet R st.

  Lemma stall_cycle : forall a p sck b (cs : bool),
    seg a (RestP STALL p) [inp sck b cs] 0 (RestP (if cs then STALL else IDLE) sck).
  Proof.
    intros a p sck b cs. apply (seg_one R). intros st (Hf & _ & HQ). split; [exact HQ|].
    pose proof (quiet_regs_next R st HR HQ) as HRn.
    unfold RestP, quiet, r_next. rewrite Hf, inp_sck, inp_cs. fields. rewrite HRn. repeat split.
  Qed.

  Lemma idle_cycle : forall a l sck b (cs : bool),
    seg a (IdleC l) [inp sck b cs] 0 (if cs then CmdP sck 0 l else RestP IDLE sck).
  Proof.
    intros a l sck b cs. apply (seg_one R). intros st [(Hf & _ & HQ) <-]. split; [exact HQ|].
    pose proof (quiet_regs_next R st HR HQ) as HRn.
    destruct cs; unfold CmdP, RestP, quiet, r_next; rewrite Hf, inp_sck, inp_cs; fields; rewrite HRn;
      repeat split.
  Qed.

  Lemma cmd_cycle : forall a p k l sck b (cs : bool), (k < csz c)%nat ->
    seg a (CmdP p k l) [inp sck b cs] 0
        (if cs then CmdP sck (if p && negb sck then S k else k) (if p && negb sck then tl l ++ [b] else l)
         else RestP IDLE sck).
  Proof.
    intros a p k l sck b cs Hlt. apply (seg_one R). intros st (Hf & Hp & Hk & Hl & HQ). split; [exact HQ|].
    pose proof (quiet_regs_next R st HR HQ) as HRn.
    destruct cs; unfold CmdP, RestP, quiet, r_next;
      rewrite Hf, Hk, Hp, Hl, inp_sck, inp_sdi, inp_cs, (ltb_of_nat _ _ Hlt); fields; rewrite HRn; repeat split.
    destruct (p && negb sck); [|reflexivity]. apply cnt_next. lia.
  Qed.

  Lemma dat_cycle : forall a v p k w sck b (cs : bool), (k < rsz c)%nat ->
    seg a (DatP v p k w) [inp sck b cs] 0
        (if cs then DatP v sck (if p && negb sck then S k else k) (if p && negb sck then tl w ++ [b] else w)
         else RestP IDLE sck).
  Proof.
    intros a v p k w sck b cs Hlt. apply (seg_one R). intros st (Hf & Hp & Hk & Hl & Hc & HQ). split; [exact HQ|].
    pose proof (quiet_regs_next R st HR HQ) as HRn.
    destruct cs; unfold DatP, RestP, quiet, r_next;
      rewrite Hf, Hk, Hp, Hl, inp_sck, inp_sdi, inp_cs, (ltb_of_nat _ _ Hlt); fields; rewrite HRn; repeat split.
    - destruct (p && negb sck); [|reflexivity]. apply cnt_next. lia.
    - exact Hc.
  Qed.

  Lemma cmd_phase : shift_phase CmdP (csz c).
  Proof. intros a p k l sck b. exact (cmd_cycle a p k l sck b true). Qed.

  Lemma dat_phase : forall v, shift_phase (DatP v) (rsz c).
  Proof. intros v a p k l sck b. exact (dat_cycle a v p k l sck b true). Qed.

  Lemma stall_hold : forall a b n, seg a (RestP STALL false) (pulse_lo b n) 0 (RestP STALL false).
  Proof. intros a b n. apply seg_repeat. exact (stall_cycle a false false b true). Qed.

  Lemma idle_hold : forall a n, seg a IdleP (deselect n) 0 IdleP.
  Proof.
    intros a n. apply seg_repeat. intros st H. exact (idle_cycle a (ccmd st) false false false st (conj H eq_refl)).
  Qed.

  Lemma released : forall a (Q : r_state -> Prop) n,
    seg a Q [inp false false false] 0 IdleP -> seg a Q (deselect (S n)) 0 IdleP.
  Proof.
    intros a Q n H. exact (seg_then a Q IdleP IdleP [inp false false false] (deselect n) 0 H (idle_hold a n)).
  Qed.

  Lemma dat_sdo : forall v p k w st i, DatP v p k w st -> (k < rsz c)%nat ->
    sdo (r_next c st i) = hd false w.
  Proof.
    intros v p k w st i (Hf & _ & Hk & Hl & _) Hlt. unfold r_next. rewrite Hf, Hk, Hl.
    rewrite (ltb_of_nat _ _ Hlt). reflexivity.
  Qed.

  (* wait states between command and data: the value of the addressed register is latched *)
  Definition w0 (cmdv : list bool) : list bool := to_msb (rsz c) (read_value c (of_msb (tl cmdv)) R).

  (* RECV_CMD with a full command -> PROCESSING -> LATCH_OUTPUT -> SHIFT_DATA, whatever the pins do *)
  Lemma after_cmd : forall a p l i1 i2 sck b cs,
    seg a (CmdP p (csz c) l) [i1; i2; inp sck b cs] 0 (DatP l sck 0 (w0 l)).
  Proof.
    intros a p l i1 i2 sck b cs.
    set (WaitP f s := fsm s = f /\ command s = l /\ cnt s = 0 /\ quiet R s).
    apply (seg_then a _ (WaitP PROCESSING) _ [i1] [i2; inp sck b cs]);
      [|apply (seg_then a _ (WaitP LATCH_OUTPUT) _ [i2] [inp sck b cs])]; apply (seg_one R).
    - intros st (Hf & Hp & Hk & Hl & HQ). split; [exact HQ|]. unfold WaitP, quiet, r_next.
      rewrite Hf, Hk, Hl, N.ltb_irrefl. fields. rewrite (quiet_regs_next R st HR HQ). repeat split.
    - intros s1 (F1 & C1 & K1 & Q1). split; [exact Q1|]. unfold WaitP, quiet, r_next. rewrite F1.
      fields. rewrite (quiet_regs_next R s1 HR Q1). repeat split; assumption.
    - intros s2 (F2 & C2 & K2 & Q2). split; [exact Q2|]. unfold DatP, quiet, r_next. rewrite F2, inp_sck.
      fields. rewrite (quiet_regs_next R s2 HR Q2). repeat split; try assumption.
      unfold word_to_send, w0, address. rewrite C2, (proj2 Q2). reflexivity.
  Qed.

  (* the register file after a completed transaction with command cmdv (write flag first) and data dat *)
  Definition reg_update (cmdv dat : list bool) : list N :=
    map (fun av => if hd false cmdv && (of_msb (tl cmdv) =? fst av) then of_msb dat else snd av)
        (combine (rw c) R).
  Definition strobe_expected (cmdv : list bool) (a : N) : nat :=
    if hd false cmdv && (of_msb (tl cmdv) =? a) then 1%nat else 0%nat.

  Lemma reg_update_length : forall cmdv dat, length (reg_update cmdv dat) = length (rw c).
  Proof. intros. unfold reg_update. rewrite map_length, combine_length. lia. Qed.

  End WithR.

  Lemma word_completes : forall R, length R = length (rw c) -> forall a v p w i b (cs : bool),
    seg a (DatP R v p (rsz c) w) [i; inp false b cs] (strobe_expected v a)
        (RestP (reg_update R v w) (if cs then STALL else IDLE) false).
  Proof.
    intros R HR a v p w i b cs st (Hf & Hp & Hk & Hl & Hc & HQ).
    cbn [run_state r_step fst strobes]. rewrite (quiet_strobe R st a HQ).
    set (s1 := r_next c st i).
    assert (H1 : fsm s1 = STALL /\ wcomplete s1 = true /\ wrecv s1 = w /\ command s1 = v /\ regs s1 = R).
    { unfold s1, r_next. rewrite Hf, Hk, Hl, N.ltb_irrefl. fields. rewrite (quiet_regs_next R st HR HQ).
      repeat split. exact Hc. }
    destruct H1 as (F1 & W1 & V1 & C1 & G1). split.
    - unfold RestP, quiet, r_next. rewrite F1, inp_sck, inp_cs. fields. repeat split.
      unfold regs_next, reg_update, strobe, is_write, address. rewrite W1, V1, C1, G1.
      apply map_ext. intros av. rewrite andb_true_r. reflexivity.
    - unfold strobe, strobe_expected, is_write, address. rewrite W1, C1, andb_true_r.
      destruct (hd false v && (of_msb (tl v) =? a)); reflexivity.
  Qed.

  Lemma shift_bits_app : forall bs l x, shift_bits l (bs ++ x) = shift_bits (shift_bits l bs) x.
  Proof. induction bs as [|b bs IH]; intros l x; [reflexivity|]. cbn [app shift_bits]. apply IH. Qed.

  Lemma shift_bits_length : forall bs l, (1 <= length l)%nat -> length (shift_bits l bs) = length l.
  Proof.
    induction bs as [|b bs IH]; intros l H; [reflexivity|]. cbn [shift_bits].
    rewrite IH; rewrite tl_snoc_length; auto.
  Qed.

  Lemma shift_bits_skipn : forall bs l, (length bs <= length l)%nat ->
    shift_bits l bs = skipn (length bs) l ++ bs.
  Proof.
    induction bs as [|b bs IH]; intros l H; [cbn; rewrite app_nil_r; reflexivity|].
    cbn [shift_bits length] in *. destruct l as [|x l]; [cbn in H; lia|]. cbn [tl length skipn] in *.
    rewrite IH by (rewrite app_length; cbn [length]; lia).
    rewrite skipn_app. replace (length bs - length l)%nat with 0%nat by lia. cbn [skipn].
    rewrite <- app_assoc. reflexivity.
  Qed.

  Lemma shift_bits_last : forall bs b l, S (length bs) = length l -> tl (shift_bits l bs) ++ [b] = bs ++ [b].
  Proof.
    intros bs b l H. change (tl (shift_bits l bs) ++ [b]) with (shift_bits (shift_bits l bs) [b]).
    rewrite <- shift_bits_app, shift_bits_skipn by (rewrite app_length; cbn [length]; lia).
    rewrite app_length. cbn [length]. rewrite Nat.add_1_r, H, skipn_all. reflexivity.
  Qed.

  Lemma hd_shift_bits : forall bs l, (length bs < length l)%nat ->
    hd false (shift_bits l bs) = nth (length bs) l false.
  Proof.
    intros bs l H. rewrite shift_bits_skipn, (skipn_cons_nth l _ false) by lia. reflexivity.
  Qed.
End Transactions.

Section ShiftPhase.
  Variable c : r_cfg.
  Variable Ph : bool -> nat -> list bool -> r_state -> Prop.
  Variable size : nat.
  Hypothesis HP : shift_phase c Ph size.

  Lemma ph_high : forall a b hi k l, (k < size)%nat -> seg c a (Ph false k l) (pulse_hi b hi) 0 (Ph true k l).
  Proof.
    intros a b hi k l Hk.
    exact (seg_then c a _ _ _ [inp true b true] (repeat (inp true b true) hi) 0
             (HP a false k l true b Hk) (seg_repeat c a _ _ hi (HP a true k l true b Hk))).
  Qed.

  Lemma ph_low : forall a b lo k l, (k < size)%nat -> seg c a (Ph false k l) (pulse_lo b lo) 0 (Ph false k l).
  Proof. intros a b lo k l Hk. exact (seg_repeat c a _ _ lo (HP a false k l false b Hk)). Qed.

  Lemma ph_edge : forall a b k l, (k < size)%nat ->
    seg c a (Ph true k l) [inp false b true] 0 (Ph false (S k) (tl l ++ [b])).
  Proof. intros a b k l. exact (HP a true k l false b). Qed.

  Lemma ph_pulse : forall a b hi lo k l, (S k < size)%nat ->
    seg c a (Ph false k l) (bit_pulse (b, hi, lo)) 0 (Ph false (S k) (tl l ++ [b])).
  Proof.
    intros a b hi lo k l Hk.
    change (bit_pulse (b, hi, lo)) with (pulse_hi b hi ++ [inp false b true] ++ pulse_lo b lo).
    apply (seg_then c a _ (Ph true k l)); [apply ph_high; lia|].
    apply (seg_then c a _ (Ph false (S k) (tl l ++ [b]))); [apply ph_edge; lia | apply ph_low; exact Hk].
  Qed.

  Lemma ph_pulses : forall a ps k l, (k + length ps < size)%nat ->
    seg c a (Ph false k l) (pulses ps) 0 (Ph false (k + length ps) (shift_bits l (map bit_of ps))).
  Proof.
    induction ps as [|[[b hi] lo] ps IH]; intros k l Hk; cbn [length] in *.
    - rewrite Nat.add_0_r. intros st H. split; [exact H | reflexivity].
    - change (pulses ((b, hi, lo) :: ps)) with (bit_pulse (b, hi, lo) ++ pulses ps).
      rewrite <- Nat.add_succ_comm.
      apply (seg_then c a _ (Ph false (S k) (tl l ++ [b]))); [apply ph_pulse | apply IH]; lia.
  Qed.
End ShiftPhase.
Arguments ph_high {c Ph size}.
Arguments ph_low {c Ph size}.
Arguments ph_edge {c Ph size}.
Arguments ph_pulses {c Ph size}.

Section TransactionTheorems.
  Variable c : r_cfg.
  Hypothesis Hrsz : (1 <= rsz c)%nat.
  Variable R : list N.
  Hypothesis HR : length R = length (rw c).

  Notation rstate := (run_state (r_step c)).

  Lemma chain : forall a (Q Q' : r_state -> Prop) st x y,
    (Q (rstate st x) /\ strobes c a st x = 0%nat) ->
    (forall s, Q s -> Q' (rstate s y) /\ strobes c a s y = 0%nat) ->
    Q' (rstate st (x ++ y)) /\ strobes c a st (x ++ y) = 0%nat.
  Proof.
    intros a Q Q' st x y H1 H2. apply (seg_then c a (eq st) Q Q' x y 0); [intros ? <-; exact H1 | exact H2 | reflexivity].
  Qed.

  Lemma from_idle : forall a tr n (Q' : r_state -> Prop) st, IdleP R st ->
    seg c a (IdleC R (ccmd st)) tr n Q' -> Q' (rstate st tr) /\ strobes c a st tr = n.
  Proof. intros a tr n Q' st HI H. exact (H st (conj HI eq_refl)). Qed.

  Lemma idle_select : forall a n l, seg c a (IdleC R l) (select n) 0 (CmdP R false 0 l).
  Proof.
    intros a n l. change (select n) with ([inp false false true] ++ pulse_lo false n).
    apply (seg_then c a _ (CmdP R false 0 l)); [|apply (ph_low (cmd_phase c R HR)), Nat.lt_0_succ].
    exact (idle_cycle c R HR a l false false true).
  Qed.

  Lemma dat_high_sdo : forall v b hi k w st, DatP R v false k w st -> (k < rsz c)%nat ->
    sdo (rstate st (pulse_hi b hi)) = hd false w.
  Proof.
    (* sdo is a register: it shows hd w one cycle after DatP holds, so the last high cycle is set apart *)
    intros v b hi k w st H Hk. unfold pulse_hi. cbn [repeat]. rewrite repeat_cons, run_state_app.
    cbn [run_state r_step fst]. destruct hi as [|hi]; [exact (dat_sdo c R v _ k w st _ H Hk)|].
    destruct (ph_high (dat_phase c R HR v) 0 b hi k w Hk st H) as [A _].
    exact (dat_sdo c R v _ k w _ _ A Hk).
  Qed.

  (* the part of a transaction up to the end of the wait states: the value of the addressed register has been
     latched *)
  Definition head_part (n0 : nat) (cinit : list (bool * nat * nat)) (bl : bool) (hil g : nat) : list N :=
    select n0 ++ pulses cinit ++ bit_pulse (bl, hil, (3 + g)%nat).

  Lemma to_data : forall a n0 cinit bl hil g l, length l = csz c -> length cinit = asz c ->
    let cmdv := map bit_of cinit ++ [bl] in
    seg c a (IdleC R l) (head_part n0 cinit bl hil g) 0 (DatP R cmdv false 0 (w0 c R cmdv)).
  Proof.
    intros a n0 cinit bl hil g l0 HL HC cmdv. unfold head_part.
    change (bit_pulse (bl, hil, (3 + g)%nat))
      with (pulse_hi bl hil ++ [inp false bl true] ++ repeat (inp false bl true) 3 ++ pulse_lo bl g).
    pose (l := shift_bits l0 (map bit_of cinit)).
    assert (E : tl l ++ [bl] = cmdv) by (apply shift_bits_last; rewrite map_length, HC; symmetry; exact HL).
    assert (Hc : (asz c < csz c)%nat) by (unfold csz; lia).
    pose proof (cmd_phase c R HR) as CP.
    apply (seg_then c a _ (CmdP R false 0 l0)); [apply idle_select|].
    apply (seg_then c a _ (CmdP R false (asz c) l)); [rewrite <- HC in *; apply (ph_pulses CP a cinit 0); exact Hc|].
    apply (seg_then c a _ (CmdP R true (asz c) l)); [apply (ph_high CP); exact Hc|].
    apply (seg_then c a _ (CmdP R false (csz c) cmdv)); [rewrite <- E; apply (ph_edge CP); exact Hc|].
    (* the command is complete: three wait states, then the data phase with the clock still low *)
    apply (seg_then c a _ (DatP R cmdv false 0 (w0 c R cmdv))); [apply (after_cmd c R HR)|].
    apply (ph_low (dat_phase c R HR cmdv)). lia.
  Qed.

  Lemma to_data_k : forall a n0 cinit bl hil g dpre l, length l = csz c ->
    length cinit = asz c -> (length dpre < rsz c)%nat ->
    let cmdv := map bit_of cinit ++ [bl] in
    seg c a (IdleC R l) (head_part n0 cinit bl hil g ++ pulses dpre) 0
        (DatP R cmdv false (length dpre) (shift_bits (w0 c R cmdv) (map bit_of dpre))).
  Proof.
    intros a n0 cinit bl hil g dpre l HL HC HD cmdv.
    apply (seg_then c a _ (DatP R cmdv false 0 (w0 c R cmdv))); [apply to_data; assumption|].
    apply (ph_pulses (dat_phase c R HR cmdv) a dpre 0). exact HD.
  Qed.

  Lemma w0_length : forall cmdv, length (w0 c R cmdv) = rsz c.
  Proof. intros. apply to_msb_length. Qed.

  (* C51: by the falling edge of data pulse k, sdo shows bit k, MSB first, of the latched register value *)
  Theorem txn_read_back : forall st n0 cinit bl hil g dpre bk hik, IdleP R st -> length (ccmd st) = csz c ->
    length cinit = asz c -> (length dpre < rsz c)%nat ->
    let cmdv := map bit_of cinit ++ [bl] in
    sdo (rstate st (head_part n0 cinit bl hil g ++ pulses dpre ++ pulse_hi bk hik)) =
      nth (length dpre) (to_msb (rsz c) (read_value c (of_msb (tl cmdv)) R)) false.
  Proof.
    intros st n0 cinit bl hil g dpre bk hik HI HL HC HD cmdv.
    rewrite app_assoc, run_state_app.
    destruct (from_idle 0 _ _ _ st HI (to_data_k 0 n0 cinit bl hil g dpre _ HL HC HD)) as [A _].
    rewrite (dat_high_sdo _ bk hik _ _ _ A HD).
    rewrite hd_shift_bits by (rewrite map_length, w0_length; exact HD).
    rewrite map_length. reflexivity.
  Qed.

  Definition tail_part (dl : bool) (hidl lol n1 : nat) : list N :=
    pulse_hi dl hidl ++ [inp false dl true] ++ pulse_lo dl lol ++ deselect (2 + n1)%nat.

  Lemma finish_seg : forall a cmdv dat dl lol n1,
    seg c a (DatP R cmdv false (rsz c) dat) (pulse_lo dl lol ++ deselect (2 + n1)%nat) (strobe_expected cmdv a)
        (IdleP (reg_update c R cmdv dat)).
  Proof.
    intros a cmdv dat dl lol n1. rewrite <- (Nat.add_0_r (strobe_expected cmdv a)).
    pose proof (reg_update_length c R HR cmdv dat) as HL'.
    pose proof (word_completes c R HR a cmdv false dat) as W.
    set (R' := reg_update c R cmdv dat) in *.
    destruct lol as [|[|m]].
    1: change (pulse_lo dl 0 ++ deselect (2 + n1)%nat)
         with ([inp false false false; inp false false false] ++ deselect n1).
    2: change (pulse_lo dl 1 ++ deselect (2 + n1)%nat)
         with ([inp false dl true; inp false false false] ++ deselect (S n1)).
    (* chip select released with the last falling edge or one cycle later: IDLE at once *)
    1, 2: apply (seg_app c a _ (IdleP R')); [apply (W _ false false) | apply idle_hold, HL'].
    (* chip select held for a while after the word: STALL until it is released *)
    change (pulse_lo dl (S (S m)) ++ deselect (2 + n1)%nat)
      with ([inp false dl true; inp false dl true] ++ pulse_lo dl m ++ deselect (S (S n1))).
    apply (seg_app c a _ (RestP R' STALL false)); [apply (W _ dl true)|].
    apply (seg_then c a _ (RestP R' STALL false)); [apply stall_hold, HL'|].
    apply (released c R' HL'). exact (stall_cycle c R' HL' a false false false false).
  Qed.

  Lemma finish : forall a cmdv dat st dl lol n1, DatP R cmdv false (rsz c) dat st ->
    IdleP (reg_update c R cmdv dat) (rstate st (pulse_lo dl lol ++ deselect (2 + n1)%nat)) /\
    strobes c a st (pulse_lo dl lol ++ deselect (2 + n1)%nat) = strobe_expected cmdv a.
  Proof using Hrsz HR.
    (* `Proof using`, here and in txn_abort_in_command: after `End` the statement has both hypotheses, as the
       other transaction theorems do, whatever the script (`lia`) takes up.  Hrsz is not needed here. *)
    intros a cmdv dat st dl lol n1. apply finish_seg.
  Qed.

  (* C51: a complete transaction updates the registers by reg_update and strobes register a once iff it writes a *)
  Theorem txn_complete : forall a st n0 cinit bl hil g dinit dl hidl lol n1,
    IdleP R st -> length (ccmd st) = csz c -> length cinit = asz c -> S (length dinit) = rsz c ->
    let cmdv := map bit_of cinit ++ [bl] in
    let dat := map bit_of dinit ++ [dl] in
    let tr := head_part n0 cinit bl hil g ++ pulses dinit ++ tail_part dl hidl lol n1 in
    IdleP (reg_update c R cmdv dat) (rstate st tr) /\ strobes c a st tr = strobe_expected cmdv a.
  Proof.
    intros a st n0 cinit bl hil g dinit dl hidl lol n1 HI HL HC HD cmdv dat tr. unfold tr, tail_part.
    pose (w := shift_bits (w0 c R cmdv) (map bit_of dinit)).
    assert (E : tl w ++ [dl] = dat) by (apply shift_bits_last; rewrite map_length, w0_length; exact HD).
    pose proof (dat_phase c R HR cmdv) as DP.
    rewrite app_assoc. apply from_idle; [exact HI|].
    apply (seg_then c a _ (DatP R cmdv false (length dinit) w)); [apply to_data_k; assumption || lia|].
    apply (seg_then c a _ (DatP R cmdv true (length dinit) w)); [apply (ph_high DP); lia|].
    apply (seg_then c a _ (DatP R cmdv false (rsz c) dat)); [rewrite <- E, <- HD; apply (ph_edge DP); lia|].
    apply finish_seg.
  Qed.

  (* C51: chip select released during the command or after fewer than register_size data bits: no write, no strobe *)
  Theorem txn_abort_in_command : forall a st n0 cpre n1, IdleP R st -> (length cpre <= asz c)%nat ->
    let tr := select n0 ++ pulses cpre ++ deselect (S n1) in
    IdleP R (rstate st tr) /\ strobes c a st tr = 0%nat.
  Proof using Hrsz HR.
    intros a st n0 cpre n1 HI HC tr. apply from_idle; [exact HI|]. unfold tr.
    apply (seg_then c a _ (CmdP R false 0 (ccmd st))); [apply idle_select|].
    apply (seg_then c a _ (CmdP R false (length cpre) (shift_bits (ccmd st) (map bit_of cpre)))).
    { apply (ph_pulses (cmd_phase c R HR) a cpre 0). unfold csz. lia. }
    apply (released c R HR), (cmd_cycle c R HR a false _ _ false false false). unfold csz. lia.
  Qed.

  Theorem txn_abort_in_data : forall a st n0 cinit bl hil g dpre n1, IdleP R st -> length (ccmd st) = csz c ->
    length cinit = asz c -> (length dpre < rsz c)%nat ->
    let tr := head_part n0 cinit bl hil g ++ pulses dpre ++ deselect (S n1) in
    IdleP R (rstate st tr) /\ strobes c a st tr = 0%nat.
  Proof.
    intros a st n0 cinit bl hil g dpre n1 HI HL HC HD tr. apply from_idle; [exact HI|]. unfold tr.
    rewrite app_assoc. set (cmdv := map bit_of cinit ++ [bl]).
    apply (seg_then c a _ (DatP R cmdv false (length dpre) (shift_bits (w0 c R cmdv) (map bit_of dpre)))).
    { apply to_data_k; assumption. }
    apply (released c R HR). exact (dat_cycle c R HR a cmdv false _ _ false false false HD).
  Qed.
End TransactionTheorems.

(* C51, for arbitrary pins: nothing is written while never in SHIFT_DATA with all register_size bits counted *)
Section Safety.
  Variable c : r_cfg.
  Definition full (st : r_state) : bool :=
    match fsm st with SHIFT_DATA => negb (cnt st <? N.of_nat (rsz c)) | _ => false end.
  Fixpoint never_full (st : r_state) (tr : list N) : bool :=
    match tr with [] => true | i :: t => negb (full st) && never_full (r_next c st i) t end.

  Lemma safe_step : forall R st i, length R = length (rw c) -> quiet R st -> full st = false ->
    quiet R (r_next c st i).
  Proof.
    intros R st i HR HQ HF. pose proof (quiet_regs_next c R st HR HQ) as HRn.
    unfold quiet, r_next, full in *. destruct (fsm st); fields; try (split; [reflexivity | exact HRn]).
    - destruct (cnt st <? N.of_nat (csz c)); split; reflexivity || exact HRn.
    - destruct (cnt st <? N.of_nat (rsz c)); [|discriminate]. split; [reflexivity | exact HRn].
  Qed.

  Theorem no_write_unless_full : forall R a tr st, length R = length (rw c) -> quiet R st ->
    never_full st tr = true ->
    quiet R (run_state (r_step c) st tr) /\ strobes c a st tr = 0%nat.
  Proof.
    intros R a. induction tr as [|i t IH]; intros st HR HQ HN; [split; [exact HQ | reflexivity]|].
    cbn [never_full] in HN. apply andb_true_iff in HN as [H1 H2]. apply negb_true_iff in H1.
    cbn [run_state r_step fst strobes]. rewrite (quiet_strobe R st a HQ).
    apply IH; [exact HR | apply safe_step; assumption | exact H2].
  Qed.
End Safety.

Lemma reg_update_read : forall c R cmdv dat, length R = length (rw c) -> hd false cmdv = false ->
  reg_update c R cmdv dat = R.
Proof.
  intros c R cmdv dat HR H. unfold reg_update. rewrite H. cbn [andb].
  rewrite (map_ext _ snd) by reflexivity. apply map_snd_combine. symmetry. exact HR.
Qed.

Lemma idle_after_reset : forall c, IdleP (repeat 0 (length (rw c))) (r_next c (r_init c) (inp false false false)) /\
  length (ccmd (r_next c (r_init c) (inp false false false))) = csz c.
Proof.
  intros c.
  pose proof (quiet_regs_next c _ (r_init c) (repeat_length 0 (length (rw c))) (conj eq_refl eq_refl)) as HRn.
  unfold IdleP, quiet, r_next. change (fsm (r_init c)) with STALL. fields. rewrite HRn, inp_cs, inp_sck.
  repeat split. apply repeat_length.
Qed.

Lemma unpack_pack : forall fs, Forall (fun f => snd f < 2 ^ fst f) fs ->
  unpack_fields (map fst fs) (pack_fields fs) = map snd fs.
Proof.
  induction fs as [|[w v] fs IH]; intros H; [reflexivity|].
  inversion H as [|? ? Hv Ht]; subst. cbn [map fst snd pack_fields unpack_fields] in *.
  rewrite digit_mod, digit_div, IH by assumption. reflexivity.
Qed.

Lemma fsm_of_code : forall f, fsm_of (fsm_code f) = f.
Proof. intros []; reflexivity. Qed.
Lemma fsm_code_lt : forall f, fsm_code f < 2 ^ 3.
Proof. intros []; reflexivity. Qed.

Lemma r_dec_enc : forall c st, r_wf c st -> r_dec c (r_enc c st) = st.
Proof.
  intros c st (Hk & L1 & L2 & L3 & L4 & L5 & HF). unfold r_dec, r_enc.
  assert (Hw : r_widths c = map fst (r_fields c st)).
  { unfold r_widths, r_fields. cbn [map app fst]. rewrite map_map. cbn [fst]. rewrite map_const, L5. reflexivity. }
  rewrite Hw, unpack_pack.
  - unfold r_fields. cbn [map app snd nth skipn]. rewrite map_map. cbn [snd]. rewrite map_id.
    rewrite fsm_of_code, !b2n_eqb1, !N2bits_bits2N_len by assumption. destruct st; reflexivity.
  - apply Forall_app. split; [|apply Forall_map; exact HF].
    repeat constructor; cbn [fst snd]; auto using fsm_code_lt, b2n_lt2, bits2N_lt_len.
Qed.

Section WfStep.
  Variable c : r_cfg.
  Hypothesis Hr : (1 <=? rsz c)%nat = true.

  Lemma regs_next_wf : forall st, r_wf c st ->
    length (regs_next c st) = length (rw c) /\ Forall (fun v => v < 2 ^ N.of_nat (rsz c)) (regs_next c st).
  Proof.
    intros st (Hk & L1 & L2 & L3 & L4 & L5 & HF). unfold regs_next. split.
    - rewrite map_length, combine_length. lia.
    - apply Forall_map. apply Forall_forall. intros [a v] Hin. cbn [fst snd].
      destruct (strobe st a); [apply of_msb_lt; exact L4|].
      apply in_combine_r in Hin. rewrite Forall_forall in HF. apply HF. exact Hin.
  Qed.

  Lemma r_wf_step : forall st i, r_wf c st -> r_wf c (fst (r_step c st i)).
  Proof.
    intros st i H. pose proof (regs_next_wf st H) as [R1 R2].
    destruct H as (Hk & L1 & L2 & L3 & L4 & L5 & HF). apply Nat.leb_le in Hr.
    assert (M : (cnt st + 1) mod 2 ^ cnt_w c < 2 ^ cnt_w c) by (apply N.mod_lt, pow2_nz).
    assert (C1 : forall b, length (tl (ccmd st) ++ [b]) = csz c)
      by (intro b; rewrite tl_snoc_length; [exact L1 | rewrite L1; unfold csz; lia]).
    assert (C2 : forall b, length (tl (cword st) ++ [b]) = rsz c)
      by (intro b; rewrite tl_snoc_length; [exact L2 | rewrite L2; exact Hr]).
    cbn [r_step fst]. unfold r_next, r_wf, word_to_send.
    (* whichever branch is taken, every field is unchanged, reset, or covered by one of M, C1, C2, R1, R2 *)
    destruct (fsm st); try destruct (cnt st <? _); try destruct (past_sck st && _); fields; repeat split;
      auto using pow2_pos, to_msb_length.
  Qed.

  Lemma r_wf_init : r_wf c (r_init c).
  Proof using Hr.   (* Hr is not needed; props/C51.py applies the lemma to a proof of it *)
    unfold r_wf, r_init. fields. rewrite !repeat_length. repeat split; try apply pow2_pos.
    apply Forall_repeat, pow2_pos.
  Qed.
End WfStep.

(* Machine.run_last again: the per-run theorems props/C51.py prints rewrite with it *)
Lemma run_last : forall (S : Type) (step : S -> N -> S * N) tr st i d,
  last (run step st (tr ++ [i])) d = snd (step (run_state step st tr) i).
Proof. exact @Machine.run_last. Qed.
