(* C25 -- packing lemmas for the tie obligations (dec (enc s) = s, well-formedness preserved), and the two facts
   the per-run corollaries of the transmit tie rest on. *)
From Coq Require Import NArith List Bool Lia.
Import ListNotations.
From LunaLib Require Import Netlist PackN Machine.
From LunaModel Require Import GwPhyCodec GwPhy GwPhyTxU_proofs GwPhyTie.
Open Scope N_scope.

Lemma bN_lt2 : forall b, bN b < 2.
Proof. destruct b; reflexivity. Qed.
Lemma n2b_bN : forall b, n2b (bN b) = b.
Proof. destruct b; reflexivity. Qed.
Lemma txfsm_code_lt : forall f, txfsm_code f < 4.
Proof. destruct f; reflexivity. Qed.
Lemma txfsm_of_code : forall f, txfsm_of (txfsm_code f) = f.
Proof. destruct f; reflexivity. Qed.
Lemma nz_code_lt : forall q, nz_code q < 6.
Proof. destruct q; reflexivity. Qed.
Lemma nz_of_code : forall q, nz_of (nz_code q) = q.
Proof. destruct q; reflexivity. Qed.
Lemma cdr_code_lt : forall q, cdr_code q < 5.
Proof. destruct q; reflexivity. Qed.
Lemma cdr_of_code_code : forall q, cdr_of_code (cdr_code q) = q.
Proof. destruct q; reflexivity. Qed.

(* Every decoder peels the digits off in the order the encoder put them on, so `rewrite ?pk_div, ?pk_mod` undoes an
   encoding, innermost digit first; the bounds of the digits come from here or from the hypotheses. *)
Create HintDb pk discriminated.
#[local] Hint Resolve bN_lt2 txfsm_code_lt nz_code_lt cdr_code_lt : pk.

Lemma txu_dec_enc : forall u rest, txu_wf u -> txu_dec (txu_enc u rest) = (u, rest).
Proof.
  intros [f sp gr [rg ps gt] bs] rest (Hsp & Hgr & Hrg & Hps & Hbs). cbn [u_fsm u_sp u_gray u_sh u_bs sh_reg sh_pos sh_get] in *.
  assert (Hbs8 : bs < 8) by lia.
  unfold txu_dec, txu_enc. cbn [u_fsm u_sp u_gray u_sh u_bs sh_reg sh_pos sh_get].
  rewrite ?pk_div, ?pk_mod by auto with pk. rewrite txfsm_of_code, n2b_bN. reflexivity.
Qed.

Lemma txio_dec_enc : forall c rest, c_ctr c < 4 -> txio_dec (txio_enc c rest) = (c, rest).
Proof.
  intros [d0 d1 d2 e0 e1 e2 nz p n oe ct] rest H. cbn [c_ctr] in H.
  unfold txio_dec, txio_enc. cbn [c_d0 c_d1 c_d2 c_e0 c_e1 c_e2 c_nz c_p c_n c_oe c_ctr].
  rewrite ?pk_div, ?pk_mod by auto with pk. rewrite nz_of_code, !n2b_bN. reflexivity.
Qed.

Lemma txg_dec_enc : forall s, txg_wf s -> txg_dec (txg_enc s) = s.
Proof.
  intros [[u c] li] [Hu Hc]. cbn [fst snd x_u x_io] in *. unfold txg_dec, txg_enc. cbn [fst snd x_u x_io].
  rewrite (txu_dec_enc u _ Hu), (txio_dec_enc c _ Hc). reflexivity.
Qed.

Lemma txsh_next_pos_lt : forall s data en cl, sh_pos s < 256 -> sh_pos (txsh_next 8 s data en cl) < 256.
Proof.
  intros [rg ps gt] data en cl Hp. cbn [sh_pos] in Hp. unfold txsh_next, txsh_empty. cbn [sh_pos].
  assert (ps / 2 < 256) by (apply N.div_lt_upper_bound; lia).
  destruct cl, en, (bit0 ps); first [assumption | reflexivity].
Qed.

Lemma txu_next_wf : forall u data oe, txu_wf u -> txu_wf (txu_next 8 u data oe).
Proof.
  intros u data oe (Hsp & Hgr & Hrg & Hps & Hbs).
  pose proof (txsh_next_reg_lt 8 (u_sh u) data (negb (u_stall u)) (N.testbit (u_sp u) 1) Hrg) as H1.
  pose proof (txsh_next_pos_lt (u_sh u) data (negb (u_stall u)) (N.testbit (u_sp u) 1) Hps) as H2.
  assert (Hsp2 : u_sp u / 2 < 256) by (apply N.div_lt_upper_bound; lia).
  assert (H3 : (if N.testbit (u_sp u) 1 then 0 else txbs_next (u_bs u) (txsh_data (u_sh u))) <= 6)
    by (destruct (N.testbit (u_sp u) 1); [discriminate | apply txbs_next_le, Hbs]).
  (* whatever the FSM does, the new fields are among: the old ones, sp / 2, the shifter's and stuffer's successors, constants *)
  unfold txu_next, txu_wf.
  destruct (u_fsm u);
    [destruct oe | destruct (bit0 (u_sp u)) | destruct (negb oe && _ && _); [destruct (txbs_will_stall _ _)|] | ];
    cbn [u_fsm u_sp u_gray u_sh u_bs]; repeat split; first [assumption | reflexivity].
Qed.

Lemma txg_wf_step : forall s i, txg_wf s -> txg_wf (fst (txg_step 8 s i)).
Proof.
  intros [[u c] li] i [Hu Hc]. cbn [fst snd x_u x_io] in *.
  unfold txg_step, tx_step. cbn [fst snd x_u x_io]. split; cbn [fst snd x_u x_io].
  - destruct (nb (bits i 12 1)); [apply txu_next_wf; exact Hu | exact Hu].
  - destruct (nb (bits i 11 1)); [|exact Hc]. unfold txio_next. destruct (nz_out (c_nz c)) as [[? ?] ?].
    cbn [c_ctr]. apply N.mod_lt. discriminate.
Qed.

Lemma txg_wf_init : txg_wf txg_init.
Proof. unfold txg_wf, txu_wf; cbn. repeat split; lia. Qed.

Lemma cdr_dec_enc : forall s, cdr_wf s -> cdr_dec (cdr_enc s) = s.
Proof.
  intros [p0 p1 n0 n1 f ph v s0 s1 dj dk] H. unfold cdr_wf in H. cbn [k_phase] in H.
  unfold cdr_dec, cdr_enc. cbn [k_p0 k_p1 k_n0 k_n1 k_fsm k_phase k_valid k_se0 k_se1 k_dj k_dk].
  rewrite ?pk_div, ?pk_mod by auto with pk. rewrite cdr_of_code_code, !n2b_bN. reflexivity.
Qed.
Lemma cdr_wf_step : forall s i, cdr_wf s -> cdr_wf (fst (cdr_mstep s i)).
Proof.
  intros s i H. unfold cdr_mstep, cdr_next, cdr_wf. cbn [fst k_phase].
  destruct (cdrst_eqb (k_fsm s) CdT); [reflexivity | apply N.mod_lt; discriminate].
Qed.
Lemma cdr_wf_init : cdr_wf cdr_init.
Proof. reflexivity. Qed.

(* the `True ->` of this and the following round trips is the `wf` premise of the tie obligation, with wf := fun _ => True *)
Lemma rxnz_dec_enc : forall s, True -> rxnz_dec (rxnz_enc s) = s.
Proof.
  intros [l d z v] _. unfold rxnz_dec, rxnz_enc, pk. cbn [z_last z_data z_se0 z_valid].
  destruct l, d, z, v; reflexivity.
Qed.

(* the count is unbounded, so the decoder's m / 4 and m / 8 are read as repeated halving *)
Lemma rxbs_dec_enc : forall s, True -> rxbs_dec (rxbs_enc s) = s.
Proof.
  intros [c d st e] _. unfold rxbs_dec, rxbs_enc. cbn [b_cnt b_data b_stall b_error].
  change 4 with (2 * 2). change 8 with (2 * 2 * 2). rewrite <- !N.div_div by discriminate.
  rewrite ?pk_div, ?pk_mod by auto with pk. rewrite !n2b_bN. reflexivity.
Qed.

Lemma rxsh_dec_enc : forall s, True -> rxsh_dec (rxsh_enc s) = s.
Proof.
  intros [r p] _. unfold rxsh_dec, rxsh_enc. cbn [r_reg r_put].
  rewrite pk_mod, pk_div by apply bN_lt2. rewrite n2b_bN. reflexivity.
Qed.

Lemma txsh_dec_enc : forall W s, txsh_wf W s -> txsh_dec W (txsh_enc W s) = s.
Proof.
  intros W [r p g] H. unfold txsh_wf in H. cbn [sh_reg] in H. unfold txsh_dec, txsh_enc. cbn [sh_reg sh_pos sh_get].
  rewrite ?pk_div, ?pk_mod by auto with pk. rewrite n2b_bN. reflexivity.
Qed.
Lemma txsh_wf_step : forall W s i, txsh_wf W s -> txsh_wf W (fst (txsh_mstep W s i)).
Proof. intros W s i H. apply txsh_next_reg_lt, H. Qed.
Lemma txsh_wf_init : forall W, txsh_wf W txsh_init.
Proof. intro W. apply pow2_pos. Qed.

Lemma txbs_dec_enc : forall s, True -> txbs_dec (txbs_enc s) = s.
Proof.
  intros [c d] _. unfold txbs_dec, txbs_enc. cbn [fst snd].
  rewrite pk_mod, pk_div by apply bN_lt2. rewrite n2b_bN. reflexivity.
Qed.

Lemma txnz_dec_enc : forall s, True -> txnz_dec (txnz_enc s) = s.
Proof.
  intros [q [[p n] oe]] _. unfold txnz_dec, txnz_enc, pk. cbn [fst snd].
  destruct q, p, n, oe; reflexivity.
Qed.

Lemma run_txg : forall tr s g, run (txg_step 8) (s, g) tr = run (tx_step 8) s tr.
Proof.
  induction tr as [|i tr IH]; intros s g; [reflexivity|]. cbn [run]. unfold txg_step at 1. cbn [fst].
  destruct (tx_step 8 s i) as [s' o]. rewrite IH. reflexivity.
Qed.

Definition opmode_ok (i o : N) : bool := match opmode_mon 0 i o with Some (_, ok) => ok | None => true end.

Lemma tx_step_opmode : forall s i, opmode_ok i (snd (tx_step 8 s i)) = true.
Proof.
  intros s i. unfold opmode_ok, opmode_mon, tx_step. cbn [snd].
  set (data := bits i 0 8). set (v := bits i 8 1). set (mode := bits i 9 2).
  assert (Hv : v = 0 \/ v = 1) by (pose proof (bits_lt i 8 1) as H; change (2 ^ 1) with 2 in H; fold v in H; lia).
  assert (Hm : mode = 0 \/ mode = 1 \/ mode = 2 \/ mode = 3)
    by (pose proof (bits_lt i 9 2) as H; change (2 ^ 2) with 4 in H; fold mode in H; lia).
  assert (Hd0 : bits i 0 1 = b2n (bit0 data)).
  { assert (E : bit0 data = N.testbit i 0).
    { subst data. unfold bit0. rewrite bits_0, <- N.bit0_odd. apply N.mod_pow2_bits_low. reflexivity. }
    rewrite E, bits_0, <- N.bit0_mod. destruct (N.testbit i 0); reflexivity. }
  destruct Hm as [-> | [-> | [-> | ->]]]; cbn [N.eqb orb].
  - (* normal: both output enables are the same register *)
    unfold tx_out. destruct (c_p (x_io s)), (c_n (x_io s)), (c_oe (x_io s)), (u_ready (x_u s) (true && nb v)); reflexivity.
  - reflexivity.
  - (* bit-stuffing and NRZI disabled *)
    rewrite Hd0. destruct Hv as [Ev | Ev]; rewrite Ev; unfold nb; cbn [N.eqb negb]; destruct (bit0 data); reflexivity.
  - reflexivity.
Qed.

Lemma run_opmode : forall tr s, Forall2 (fun i o => opmode_ok i o = true) tr (run (tx_step 8) s tr).
Proof.
  induction tr as [|i tr IH]; intro s; [constructor|]. cbn [run].
  pose proof (tx_step_opmode s i) as H. destruct (tx_step 8 s i) as [s' o]. constructor; [exact H | apply IH].
Qed.
