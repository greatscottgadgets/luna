(* C43 (part 1) -- hand model of luna/gateware/usb/usb3/link/ordered_sets.py: TSBurstDetector,
   parametric in the ordered set (list of 32-bit words, L = its length >= 2), the ctrl flags of its
   first word, the burst threshold (sets_in_burst) and include_config.

   Input word (37 bits): [0] sink.valid  [1..32] sink.data  [33..36] sink.ctrl
   Output word:          [0] detected  [1] hot_reset  [2] loopback_requested  [3] scrambling_disabled
                         (the three config outputs exist only with include_config)

   The model is the PROPERTY-SATISFYING behaviour: a valid word that is not the first word of a
   set, received while waiting for a first word, clears the count of consecutive sets.  The code in
   /repo before b2ae57a kept the count there (so sets separated by an idle gap and arbitrary other
   data were counted as consecutive); see findings/C43-consecutive.*                           *)
From Coq Require Import NArith List Bool Arith.
Import ListNotations.
From LunaLib Require Import Netlist Machine.
Open Scope N_scope.

(* lax = false is the property-satisfying detector; lax = true is the behaviour of the code in /repo
   before b2ae57a (kept only so that its failure can be stated: TsDet_proofs.ts_lax_refuted) *)
Record ts_cfg := { set_data : list N; fctrl : N; thr : nat; inc_cfg : bool; lax : bool }.
Definition set_len (c : ts_cfg) : nat := length (set_data c).

Definition i_valid (i : N) : bool := N.testbit i 0.
Definition i_data (i : N) : N := bits i 1 32.
Definition i_ctrl (i : N) : N := bits i 33 4.
Definition word := (N * N)%type.                         (* (data, ctrl) of one valid cycle *)
Definition i_word (i : N) : word := (i_data i, i_ctrl i).

Definition o_detected (o : N) : bool := N.testbit o 0.
Definition o_hot_reset (o : N) : bool := N.testbit o 1.
Definition o_loopback (o : N) : bool := N.testbit o 2.
Definition o_noscramble (o : N) : bool := N.testbit o 3.

(* Is w a well-formed k-th word of the ordered set?  Word 0 carries the configured ctrl flags, all
   others are data symbols; with include_config the two low symbols of word 1 (reserved symbol and
   link-configuration symbol of a TS1/TS2) are not compared. *)
Definition CFG_MASK : N := 4294901760.                   (* 0xffff0000 *)
Definition word_ok (c : ts_cfg) (k : nat) (w : word) : bool :=
  (snd w =? (match k with O => fctrl c | _ => 0 end)) &&
  ((if (k =? 1)%nat && inc_cfg c then N.land (fst w) CFG_MASK else fst w) =? nth k (set_data c) 0).
(* link configuration bits: symbol 5 = bits 8..15 of word 1 *)
Definition w_hot_reset (w : word) : bool := N.testbit (fst w) 8.
Definition w_loopback (w : word) : bool := N.testbit (fst w) 10.
Definition w_noscramble (w : word) : bool := N.testbit (fst w) 11.

(* ---- the code-shaped machine ---- *)
Inductive ts_fsm := NONE | WAIT | DET (k : nat).         (* DET k = "k_DETECTED", 1 <= k <= L *)
Record ts_state := { fsm : ts_fsm; count : nat; det : bool; hr : bool; lb : bool; sd : bool }.
Definition ts_init : ts_state :=
  {| fsm := NONE; count := 0; det := false; hr := false; lb := false; sd := false |}.

Section Det.
  Variable c : ts_cfg.
  Let L := set_len c.

  Definition ts_next (st : ts_state) (i : N) : ts_state :=
    let v := i_valid i in let w := i_word i in
    match fsm st with
    | NONE => {| fsm := WAIT; count := 0; det := false; hr := hr st; lb := lb st; sd := sd st |}
    | WAIT =>
        if v then
          if word_ok c 0 w
          then {| fsm := DET 1; count := count st; det := false; hr := hr st; lb := lb st; sd := sd st |}
          else {| fsm := WAIT; count := if lax c then count st else 0; det := false;
                  hr := hr st; lb := lb st; sd := sd st |}
        else {| fsm := WAIT; count := count st; det := false; hr := hr st; lb := lb st; sd := sd st |}
    | DET k =>
        if (L <=? k)%nat then
          (* last word seen: count the set (report and restart the count at the threshold),
             and look at this cycle's word at once *)
          let full := (S (count st) =? thr c)%nat in
          {| fsm := if v then (if word_ok c 0 w then DET 1 else NONE) else WAIT;
             count := if full then O else S (count st);
             det := full; hr := hr st; lb := lb st; sd := sd st |}
        else
          if v then
            if word_ok c k w then
              let latch := (k =? 1)%nat && inc_cfg c in
              {| fsm := DET (S k); count := count st; det := false;
                 hr := if latch then w_hot_reset w else hr st;
                 lb := if latch then w_loopback w else lb st;
                 sd := if latch then w_noscramble w else sd st |}
            else {| fsm := NONE; count := count st; det := false; hr := hr st; lb := lb st; sd := sd st |}
          else {| fsm := DET k; count := count st; det := false; hr := hr st; lb := lb st; sd := sd st |}
    end.

  Definition ts_out (st : ts_state) : N :=
    b2n (det st) + 2 * b2n (hr st) + 4 * b2n (lb st) + 8 * b2n (sd st).

  Definition ts_step (st : ts_state) (i : N) : ts_state * N := (ts_next st i, ts_out st).

  (* ---- specification, part 1 (soundness: "never reports on other data", "consecutive", "once
     for every n sets", "reports their configuration bits"), as a checker of observed traces.

     tail_ok m ws: the m most recent valid words (ws is most-recent-first) are, oldest first,
     words number ... L-2, L-1, 0, 1, ..., (m-1) mod L of well-formed sets; so tail_ok (n*L) ws
     says that the last n*L valid words are n back-to-back well-formed ordered sets.             *)
  Fixpoint tail_ok (m : nat) (ws : list word) : bool :=
    match m, ws with
    | O, _ => true
    | S m', w :: ws' => word_ok c (m' mod L) w && tail_ok m' ws'
    | S _, [] => false
    end.

  (* the reported configuration bits are those of word 1 of the most recent set *)
  Definition cfg_ok (ws : list word) (o : N) : bool :=
    if inc_cfg c then
      match nth_error ws (L - 2) with
      | Some w => eqb (o_hot_reset o) (w_hot_reset w) && eqb (o_loopback o) (w_loopback w) &&
                  eqb (o_noscramble o) (w_noscramble w)
      | None => false
      end
    else true.

  Definition push (prev : option N) (ws : list word) : list word :=
    match prev with Some j => if i_valid j then i_word j :: ws else ws | None => ws end.

  (* sound ws prev ios: ws = the valid words received since the last report up to two cycles ago,
     prev = the input word of the previous cycle.  Whenever `detected` is high, the words in ws must
     end with thr complete back-to-back sets -- words received in invalid cycles do not count (idle
     gaps are allowed), every other valid word does -- and the config outputs must be those of the
     last set.  The epoch then restarts, so no set is used for two reports.                      *)
  Fixpoint sound (ws : list word) (prev : option N) (ios : list (N * N)) : bool :=
    match ios with
    | [] => true
    | (i, o) :: t =>
        if o_detected o
        then tail_ok (thr c * L) ws && cfg_ok ws o && sound (push prev []) (Some i) t
        else sound (push prev ws) (Some i) t
    end.

  (* ---- specification, part 2 (completeness): what a clean burst looks like on the input.
     set_seg k ins: ins carries words k, k+1, ..., L-1 of one well-formed set, each preceded by any
     number of invalid cycles (idle gaps; the data lines are arbitrary in them);
     burst_of m ins: m such sets back to back. ---- *)
  Inductive set_seg : nat -> list N -> Prop :=
  | seg_done : set_seg L []
  | seg_gap : forall k i rest, (k < L)%nat -> i_valid i = false -> set_seg k rest -> set_seg k (i :: rest)
  | seg_word : forall k i rest, (k < L)%nat -> i_valid i = true -> word_ok c k (i_word i) = true ->
               set_seg (S k) rest -> set_seg k (i :: rest).
  Inductive burst_of : nat -> list N -> Prop :=
  | burst_nil : burst_of O []
  | burst_cons : forall m s rest, set_seg O s -> burst_of m rest -> burst_of (S m) (s ++ rest).
End Det.

(* ---- packing of the model state for the tie ---- *)
Definition fsm_code (f : ts_fsm) : N :=
  match f with NONE => 0 | WAIT => 1 | DET k => N.of_nat k + 1 end.
Definition fsm_of (x : N) : ts_fsm :=
  if x =? 0 then NONE else if x =? 1 then WAIT else DET (N.to_nat (x - 1)).
Definition ts_enc (st : ts_state) : N :=
  b2n (det st) + 2 * (b2n (hr st) + 2 * (b2n (lb st) + 2 * (b2n (sd st) + 2 * (fsm_code (fsm st) + 16 * N.of_nat (count st))))).
Definition ts_dec (m : N) : ts_state :=
  {| det := N.odd m; hr := N.odd (m / 2); lb := N.odd (m / 4); sd := N.odd (m / 8);
     fsm := fsm_of ((m / 16) mod 16); count := N.to_nat (m / 256) |}.
Definition ts_wf (L : nat) (st : ts_state) : Prop :=
  match fsm st with DET k => (1 <= k <= L)%nat | _ => True end.
