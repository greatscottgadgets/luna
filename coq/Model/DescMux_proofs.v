(* C09 -- proofs about the GET_DESCRIPTOR handler multiplexer (Model/DescMux.v).  mx_step depends on its handlers
   through their outputs only, and the ghost register does not influence outputs.  mux_spec_from: the mux over the
   two handlers' SPECIFICATION machines (fixed collection cF behind the block-ROM handler, runtime collection cR
   behind the distributed handler, disjoint keys) is the C09 specification machine of the union collection: every
   request is answered by exactly one handler's stream, or by one stall pulse when neither has the descriptor --
   whatever the previous request was.  mux_refines: hence the code-shaped model (bk_step and ds_step under the mux)
   equals that specification. *)
From Coq Require Import NArith List Bool Lia.
Import ListNotations.
From LunaLib Require Import Netlist Machine.
From LunaModel Require Import DescSpec DescRom DescRom_proofs DescCommon
                              DescBlock DescBlock_proofs DescDist DescDist_proofs DescMux.
From LunaLib Require Import BitFacts.
Open Scope N_scope.

Lemma mx_run_ext : forall (A B A' B' : Type) (sa : A -> N -> A * N) (sb : B -> N -> B * N)
    (sa' : A' -> N -> A' * N) (sb' : B' -> N -> B' * N) tr a b a' b' l0 l1,
  run sa a tr = run sa' a' tr -> run sb b tr = run sb' b' tr ->
  run (mx_step sa sb) (a, b, (l0, l1)) tr = run (mx_step sa' sb') (a', b', (l0, l1)) tr.
Proof.
  induction tr as [|i t IH]; intros a b a' b' l0 l1 Ha Hb; [reflexivity|].
  cbn [run] in *. unfold mx_step at 1 3.
  destruct (sa a i) as [a1 o0], (sa' a' i) as [a1' o0'], (sb b i) as [b1 o1], (sb' b' i) as [b1' o1'].
  inversion Ha; subst. inversion Hb; subst. f_equal. apply IH; assumption.
Qed.

Lemma mxm_run : forall c tr s g,
  run (mxm_step c) (s, g) tr =
  run (mx_step (bk_step (block_cfg (x_fixed c) (x_mps c))) (ds_step (dist_gens (x_runtime c)) (x_mps c))) s tr.
Proof.
  induction tr as [|i t IH]; intros s g; [reflexivity|].
  cbn [run]. unfold mxm_step at 1.
  destruct (mx_step _ _ s i) as [s' o]. f_equal. apply IH.
Qed.

(* the output words of s_step: quiet, the stall pulse alone, a beat or ZLP (valid, no stall); the mux passes such a word on
   unchanged next to a handler that is quiet or stalling (mx_tx_right, out_rebuild) *)
Definition o_ok (o : N) : Prop := o = 0 \/ o = 2048 \/ (o < 2048 /\ o_validb o = true).
Definition qof (s : sstate) : option dreq := match s with SIdle => None | SWait _ q => Some q | SSend _ _ q => Some q end.
Definition wfs (s : sstate) : Prop := match s with SSend bs _ _ => Forall (fun b => b < 256) bs | _ => True end.
Definition resp_ok (resp : dreq -> response) : Prop := forall q bs, resp q = RData bs -> Forall (fun b => b < 256) bs.

Lemma small_no_stall : forall o, o < 2048 -> o_stallb o = false.
Proof. intros o H. unfold o_stallb. rewrite N.testbit_eqb. change (2 ^ 11) with 2048. rewrite N.div_small by exact H. reflexivity. Qed.

Lemma o_beat_ok : forall b f l, b < 256 -> o_beat b f l < 2048 /\ o_validb (o_beat b f l) = true.
Proof.
  intros b f l H. unfold o_validb, o_beat. pose proof (b2n_lt2 f). pose proof (b2n_lt2 l). split; [lia|].
  rewrite N.bit0_odd. replace (1 + 2 * b2n f + 4 * b2n l + 8 * b) with (b2n true + 2 * (b2n f + 2 * b2n l + 4 * b)) by (cbn [b2n]; lia).
  apply odd_b2n_add_2.
Qed.

(* One cycle of a specification machine that is answering q, as the mux sees it: a stall pulse is the whole answer (q
   is absent and the machine idle after it); afterwards the machine is idle or still answering q. *)
Definition step_ok (resp : dreq -> response) (q : dreq) (r : sstate * N) : Prop :=
  o_ok (snd r) /\ wfs (fst r) /\ (o_stallb (snd r) = true -> fst r = SIdle /\ resp q = RStall) /\
  (fst r = SIdle \/ qof (fst r) = Some q).

Lemma send_ok : forall resp bs f q i, Forall (fun b => b < 256) bs -> step_ok resp q (send bs f q i).
Proof.
  intros resp bs f q i H. destruct bs as [|b rest]; cbn [send].
  - split; [left; reflexivity|]. split; [exact I|]. split; [discriminate | left; reflexivity].
  - inversion H as [|? ? Hb Hr]; subst.
    destruct (o_beat_ok b f (match rest with [] => true | _ :: _ => false end) Hb) as [H1 H2]. unfold step_ok. cbn [fst snd].
    split; [right; right; split; assumption|]. split; [|split; [rewrite (small_no_stall _ H1); discriminate|]].
    + destruct (i_ready i); [destruct rest; [exact I | exact Hr] | exact H].
    + destruct (i_ready i); [destruct rest; [left | right]; reflexivity | right; reflexivity].
Qed.

Lemma deliver_ok : forall resp q i, resp_ok resp -> step_ok resp q (deliver resp q i).
Proof.
  intros resp q i Hr. unfold deliver, step_ok. destruct (resp q) as [|[|b rest]] eqn:E.
  - split; [right; left; reflexivity|]. split; [exact I|]. split; [split; reflexivity | left; reflexivity].
  - split; [right; right; split; reflexivity|]. split; [exact I|]. split; [discriminate | left; reflexivity].
  - rewrite <- E. apply send_ok. exact (Hr q _ E).
Qed.

Lemma step_facts : forall resp lat s q i, resp_ok resp -> wfs s -> qof s = Some q ->
  step_ok resp q (s_step resp lat s i).
Proof.
  intros resp lat s q i Hr Hw Hq. destruct s as [|k q'|bs f q']; [discriminate | |]; injection Hq as ->; cbn [s_step].
  - destruct (N.eq_dec k 0) as [->|Hk]; [apply deliver_ok; exact Hr|]. rewrite wait_later by exact Hk.
    split; [left; reflexivity|]. split; [exact I|]. split; [discriminate | right; reflexivity].
  - apply send_ok. exact Hw.
Qed.

Lemma step_same : forall r1 l1 r2 l2 s i q, qof s = Some q -> r1 q = r2 q -> s_step r1 l1 s i = s_step r2 l2 s i.
Proof.
  intros r1 l1 r2 l2 s i q Hq Hr. destruct s as [|k q'|bs f q']; [discriminate | | reflexivity].
  injection Hq as ->. cbn [s_step]. unfold wait, deliver. rewrite Hr. reflexivity.
Qed.

Lemma mx_tx_left : forall o, mx_tx o 0 = trunc 11 o.
Proof. intros o. unfold mx_tx. change (o_validb 0) with false. apply N.lor_0_r. Qed.

Lemma mx_tx_right : forall o0 o, (o0 = 0 \/ o0 = 2048) -> o_ok o -> mx_tx o0 o = trunc 11 o.
Proof.
  intros o0 o H0 Ho. unfold mx_tx.
  assert (E0 : o_validb o0 = false /\ bits o0 0 3 = 0 /\ trunc 11 o0 = 0) by (destruct H0; subst; repeat split).
  destruct E0 as (E1 & E2 & E3). rewrite E1, E2, E3. cbn [negb]. rewrite andb_true_r.
  destruct (o_validb o) eqn:Ev; [reflexivity|].
  destruct Ho as [-> | [-> | [_ H]]]; [reflexivity | reflexivity | congruence].
Qed.

Lemma mx_out_start : forall o0 o1 l0 l1 i, i_start i = true -> o_stallb o0 = false -> mx_out o0 o1 l0 l1 i = mx_tx o0 o1.
Proof.
  intros o0 o1 l0 l1 i Hs Ho. unfold mx_out, mx_stall, mx_stalled. rewrite Hs, Ho. cbn [negb orb]. rewrite andb_false_r.
  apply N.add_0_r.
Qed.

Lemma out_rebuild : forall o, o_ok o -> trunc 11 o + (if o_stallb o then 2048 else 0) = o.
Proof.
  intros o [-> | [-> | [H _]]]; [reflexivity | reflexivity|].
  rewrite small_no_stall, trunc_small by exact H. apply N.add_0_r.
Qed.

Lemma mx_stall_low : forall o0 o1 l0 l1 i, i_start i = false ->
  mx_stall o0 o1 l0 l1 i = (o_stallb o0 || l0) && (o_stallb o1 || l1).
Proof. intros o0 o1 l0 l1 i H. unfold mx_stall, mx_stalled. rewrite H, !andb_true_r. reflexivity. Qed.

Lemma mx_latch_low : forall o l ms i, i_start i = false -> mx_latch o l ms i = (o_stallb o || l) && negb ms.
Proof. intros o l ms i H. unfold mx_latch. rewrite H. destruct (o_stallb o), ms, l; reflexivity. Qed.

Lemma resp_of_ok : forall c mps, (forall ty ix d, find_desc c ty ix = Some d -> bytes_ok d) -> resp_ok (resp_of c mps).
Proof.
  intros c mps Hb q bs H. destruct (fd c q) as [d|] eqn:E.
  - rewrite (resp_present c mps q d E) in H. injection H as <-. apply Forall_chunk. apply (Hb _ _ _ E).
  - rewrite (resp_absent c mps q E) in H. discriminate.
Qed.

Section MuxSpec.
  Variables cF cR : dcoll.
  Variable mps : N.
  Hypothesis Hdis : disjoint_keys cF cR.
  Hypothesis HbF : forall ty ix d, find_desc cF ty ix = Some d -> bytes_ok d.
  Hypothesis HbR : forall ty ix d, find_desc cR ty ix = Some d -> bytes_ok d.

  Local Notation respB := (resp_of cF mps).
  Local Notation latB := (bk_lat cF).
  Local Notation respD := (resp_of cR mps).
  Local Notation latD := (ds_lat cR).
  Local Notation respU := (resp_mux cF cR mps).
  Local Notation latU := (mx_lat cF cR).
  Local Notation SB := (s_step respB latB).
  Local Notation SD := (s_step respD latD).
  Local Notation SU := (s_step respU latU).
  Local Notation fF := (DescCommon.fd cF).
  Local Notation fR := (DescCommon.fd cR).

  Lemma fd_disjoint : forall q, fR q <> None -> fF q = None.
  Proof. intros q H. destruct (fF q) eqn:E; [|reflexivity]. exfalso. apply H, Hdis. unfold DescCommon.fd in E. congruence. Qed.

  Lemma respU_B : forall q, fR q = None -> respU q = respB q.
  Proof.
    intros q H. unfold resp_mux, fd2, find2, resp_of, respond. unfold DescCommon.fd in H. rewrite H.
    destruct (find_desc cF _ _); reflexivity.
  Qed.
  Lemma respU_D : forall q, fF q = None -> respU q = respD q.
  Proof.
    intros q H. unfold resp_mux, fd2, find2, resp_of, respond. unfold DescCommon.fd in H. rewrite H. reflexivity.
  Qed.
  Lemma respU_ok : resp_ok respU.
  Proof.
    intros q bs H. destruct (fR q) eqn:E.
    - rewrite (respU_D q) in H by (apply fd_disjoint; congruence). exact (resp_of_ok cR mps HbR q bs H).
    - rewrite (respU_B q E) in H. exact (resp_of_ok cF mps HbF q bs H).
  Qed.

  (* the distributed handler stalls a request that is not its own at once *)
  Lemma mx_lat_cases : forall q, if fR q then latU q = latD q /\ latD q <> 0 else latU q = latB q /\ latD q = 0.
  Proof.
    intros q. unfold mx_lat, ds_lat. fold (fR q). destruct (fR q); [destruct (_ <=? _)|]; split; (reflexivity || discriminate).
  Qed.

  (* the ROM handler next to a request that is not its own: silent, then one stall pulse *)
  Definition trailB (s : sstate) : Prop :=
    match s with SIdle => True | SWait _ q => fF q = None | SSend _ _ _ => False end.

  Lemma trail_step : forall s i, trailB s -> i_start i = false ->
    (snd (SB s i) = 0 \/ snd (SB s i) = 2048) /\ trailB (fst (SB s i)) /\
    (fst (SB s i) = SIdle \/ (s <> SIdle /\ qof (fst (SB s i)) = qof s)).
  Proof.
    intros s i Ht Hs. destruct s as [|k q|bs f q]; [| |contradiction]; cbn [s_step].
    - rewrite Hs. repeat split; left; reflexivity.
    - cbn [trailB] in Ht. destruct (N.eq_dec k 0) as [->|Hk].
      + rewrite wait_now, (deliver_absent cF mps q i Ht). split; [right; reflexivity|]. split; [exact I | left; reflexivity].
      + rewrite wait_later by exact Hk. split; [left; reflexivity|]. split; [exact Ht|]. right. split; [discriminate | reflexivity].
  Qed.

  (* Three situations: nothing is being answered (the ROM handler may still be about to stall the previous request;
     then the distributed handler's latch is clear, so that stall goes unseen); the ROM handler answers, the
     distributed handler has stalled and is latched; the distributed handler answers, the ROM handler trails. *)
  Definition inv (sU sB sD : sstate) (l0 l1 : bool) : Prop :=
    (sU = SIdle /\ sD = SIdle /\ trailB sB /\ l0 && l1 = false /\ (sB <> SIdle -> l1 = false))
    \/ (sB = sU /\ sD = SIdle /\ (exists q, qof sU = Some q /\ fR q = None) /\ l0 = false /\ l1 = true)
    \/ (sD = sU /\ trailB sB /\
        (exists q, qof sU = Some q /\ fF q = None /\ fR q <> None /\ (sB = SIdle \/ qof sB = Some q)) /\ l1 = false).

  Lemma inv_rest : forall sB l0 l1, trailB sB -> l0 && l1 = false -> (sB <> SIdle -> l1 = false) ->
    inv SIdle sB SIdle l0 l1.
  Proof. intros. left. repeat split; assumption. Qed.

  Lemma inv_rom : forall s q, qof s = Some q -> fR q = None -> inv s s SIdle false true.
  Proof. intros s q Hq HR. right. left. repeat split. exists q. split; assumption. Qed.

  Lemma inv_dist : forall s sB q l0, qof s = Some q -> fF q = None -> fR q <> None -> trailB sB ->
    (sB = SIdle \/ qof sB = Some q) -> inv s sB s l0 false.
  Proof. intros s sB q l0 Hq HF HR Ht HB. right. right. repeat split; try assumption. exists q. repeat split; assumption. Qed.

  Definition mux_ok (sU sB sD : sstate) (l0 l1 : bool) (i : N) : Prop :=
    let o0 := snd (SB sB i) in let o1 := snd (SD sD i) in let ms := mx_stall o0 o1 l0 l1 i in
    mx_out o0 o1 l0 l1 i = snd (SU sU i) /\
    inv (fst (SU sU i)) (fst (SB sB i)) (fst (SD sD i)) (mx_latch o0 l0 ms i) (mx_latch o1 l1 ms i) /\
    wfs (fst (SU sU i)).

  Lemma env_start_false : forall ok s q i, qof s = Some q -> s_env ok s i = true -> i_start i = false.
  Proof. intros ok s q i Hq H. destruct s as [|k q'|bs f q']; [discriminate | |]; apply (held_fields q' i H). Qed.

  Lemma start_cycle : forall l0 l1 i, i_start i = true -> mux_ok SIdle SIdle SIdle l0 l1 i.
  Proof.
    clear HbF HbR. (* lia would take them into the proof *)
    intros l0 l1 i Es. unfold mux_ok. cbn [s_step]. rewrite Es. set (q := req_of i).
    pose proof (bk_lat_pos cF q) as HlB. pose proof (mx_lat_cases q) as Hlat. rewrite (wait_later respB) by lia.
    destruct (fR q) eqn:ER; destruct Hlat as [-> HlD].
    - (* a runtime descriptor *)
      rewrite !wait_later by exact HlD. cbn [fst snd]. split; [apply mx_out_start; [exact Es | reflexivity]|].
      split; [|exact I].
      assert (EF : fF q = None) by (apply fd_disjoint; congruence).
      unfold mx_latch. rewrite Es.
      apply (inv_dist _ _ q); [reflexivity | exact EF | congruence | exact EF | right; reflexivity].
    - (* a ROM descriptor, or none at all *)
      rewrite HlD, (wait_later respU), wait_now, (deliver_absent cR mps q i ER) by lia. cbn [fst snd].
      split; [apply mx_out_start; [exact Es | reflexivity]|]. split; [|exact I].
      unfold mx_latch, mx_stall, mx_stalled. rewrite Es, !andb_false_r.
      apply (inv_rom _ q); [reflexivity | exact ER].
  Qed.

  (* at most the ROM handler's late stall, which the mux does not pass on *)
  Lemma rest_cycle : forall sB l0 l1 i, trailB sB -> l0 && l1 = false -> (sB <> SIdle -> l1 = false) ->
    i_start i = false -> mux_ok SIdle sB SIdle l0 l1 i.
  Proof.
    intros sB l0 l1 i Ht Hl1 Hl2 Es. destruct (trail_step sB i Ht Es) as (Ho0 & Ht' & Hq').
    unfold mux_ok, mx_out. cbn [s_step]. rewrite Es, mx_stall_low, !mx_latch_low by exact Es. cbn [fst snd].
    set (o0 := snd (SB sB i)) in *. change (o_stallb o_quiet) with false. cbn [orb].
    assert (Est : (o_stallb o0 || l0) && l1 = false).
    { destruct sB as [|k q|bs f q]; [|rewrite Hl2 by discriminate; apply andb_false_r | contradiction].
      subst o0. cbn [s_step]. rewrite Es. exact Hl1. }
    rewrite Est, !andb_true_r, mx_tx_left. split; [destruct Ho0 as [-> | ->]; reflexivity|].
    split; [|exact I].
    apply inv_rest; [exact Ht' | exact Est|].
    intros NE. destruct Hq' as [E'|[NB _]]; [congruence | apply Hl2; exact NB].
  Qed.

  Lemma rom_cycle : forall s q i, qof s = Some q -> fR q = None -> wfs s -> i_start i = false ->
    mux_ok s s SIdle false true i.
  Proof.
    intros s q i Hq HqR W Es. unfold mux_ok, mx_out.
    rewrite (step_same respU latU respB latB s i q Hq (respU_B q HqR)).
    destruct (step_facts respB latB s q i (resp_of_ok cF mps HbF) W Hq) as (Ook & W' & Hst & Hqn).
    cbn [s_step]. rewrite Es, mx_stall_low, !mx_latch_low by exact Es. cbn [fst snd].
    set (o := snd (SB s i)) in *. set (s' := fst (SB s i)) in *. change (o_stallb o_quiet) with false.
    rewrite orb_false_r, andb_true_r, andb_negb_r, mx_tx_left. cbn [orb andb].
    split; [apply out_rebuild; exact Ook|]. split; [|exact W'].
    destruct Hqn as [E'|E'].
    - rewrite E'. apply inv_rest; [exact I | reflexivity | congruence].
    - (* still answering, so this was no stall pulse: the latches stay as they are *)
      destruct (o_stallb o); [destruct (Hst eq_refl) as [E0 _]; rewrite E0 in E'; discriminate|].
      apply (inv_rom s' q); [exact E' | exact HqR].
  Qed.

  Lemma dist_cycle : forall s sB q l0 i, qof s = Some q -> fF q = None -> fR q <> None -> trailB sB ->
    (sB = SIdle \/ qof sB = Some q) -> wfs s -> i_start i = false -> mux_ok s sB s l0 false i.
  Proof.
    intros s sB q l0 i Hq HqF HqR Ht HqB W Es. unfold mux_ok, mx_out.
    rewrite (step_same respU latU respD latD s i q Hq (respU_D q HqF)).
    destruct (step_facts respD latD s q i (resp_of_ok cR mps HbR) W Hq) as (Ook & W' & Hst & Hqn).
    destruct (trail_step sB i Ht Es) as (Ho0 & Ht' & Hq'). rewrite mx_stall_low, !mx_latch_low by exact Es.
    set (o := snd (SD s i)) in *. set (s' := fst (SD s i)) in *. set (o0 := snd (SB sB i)) in *.
    assert (Eno : o_stallb o = false).
    { destruct (o_stallb o); [|reflexivity]. destruct (Hst eq_refl) as [_ E2].
      destruct (fR q) as [d|] eqn:E; [|congruence]. rewrite (resp_present cR mps q d E) in E2. discriminate. }
    rewrite Eno, andb_false_r, (mx_tx_right o0 o Ho0 Ook), N.add_0_r. cbn [orb andb negb].
    split; [pose proof (out_rebuild o Ook) as H; rewrite Eno, N.add_0_r in H; exact H|].
    split; [|exact W'].
    destruct Hqn as [E'|E'].
    - rewrite E'. apply inv_rest; [exact Ht' | apply andb_false_r | reflexivity].
    - apply (inv_dist s' _ q); try assumption.
      destruct Hq' as [E0|[NB E0]]; [left; exact E0 | right]. rewrite E0. destruct HqB; congruence.
  Qed.

  (* EU does not give EB: while sU is idle sB may still trail (first case of inv), and only EB keeps a request from
     starting then. *)
  Lemma mux_step : forall sU sB sD l0 l1 i, inv sU sB sD l0 l1 -> wfs sU ->
    s_env (legal_mux cF cR) sU i = true -> s_env (req_legal cF) sB i = true -> mux_ok sU sB sD l0 l1 i.
  Proof.
    intros sU sB sD l0 l1 i HI WU EU EB.
    destruct HI as [(-> & -> & Ht & Hl1 & Hl2) | [(-> & -> & (q & Hq & HqR) & -> & ->) | (-> & Ht & (q & Hq & HqF & HqR & HqB) & ->)]].
    - destruct (i_start i) eqn:Es; [|apply rest_cycle; assumption].
      (* a new request is made only when the ROM handler is idle as well *)
      destruct sB as [|k q|bs f q].
      + apply start_cycle; exact Es.
      + rewrite (env_start_false _ (SWait k q) q i eq_refl EB) in Es. discriminate.
      + contradiction.
    - apply (rom_cycle sU q); try assumption. apply (env_start_false _ _ q i Hq EU).
    - apply (dist_cycle sU sB q); try assumption. apply (env_start_false _ _ q i Hq EU).
  Qed.

  Theorem mux_spec_from : forall tr sU sB sD l0 l1, inv sU sB sD l0 l1 -> wfs sU ->
    env_ok sstate SU (s_env (legal_mux cF cR)) sU tr = true ->
    env_ok sstate SB (s_env (req_legal cF)) sB tr = true ->
    env_ok sstate SD (s_env (req_legal cR)) sD tr = true ->
    run (mx_step SB SD) (sB, sD, (l0, l1)) tr = run SU sU tr.
  Proof.
    induction tr as [|i t IH]; intros sU sB sD l0 l1 HI WU EU EB ED; [reflexivity|].
    cbn [env_ok] in EU, EB, ED.
    apply andb_true_iff in EU as [EU1 EU2]. apply andb_true_iff in EB as [EB1 EB2]. apply andb_true_iff in ED as [ED1 ED2].
    destruct (mux_step sU sB sD l0 l1 i HI WU EU1 EB1) as (Ho & HI' & WU').
    cbn [run]. unfold mx_step at 1.
    destruct (SB sB i) as [sB' o0]. destruct (SD sD i) as [sD' o1]. destruct (SU sU i) as [sU' oU]. cbn [fst snd] in *.
    rewrite Ho. f_equal. apply IH; assumption.
  Qed.
End MuxSpec.

Definition disjointb (cF cR : dcoll) : bool :=
  forallb (fun p => forallb (fun e => match find_desc cR (fst p) (fst e) with None => true | Some _ => false end) (snd p)) cF.

Lemma disjointb_sound : forall cF cR, disjointb cF cR = true -> disjoint_keys cF cR.
Proof.
  intros cF cR H ty ix Hne. unfold find_desc in Hne at 1.
  destruct (assoc ty cF) as [idxs|] eqn:Ea; [|congruence].
  destruct (assoc ix idxs) as [d|] eqn:Ei; [|congruence].
  apply assoc_in in Ea. apply assoc_in in Ei. unfold disjointb in H. rewrite forallb_forall in H.
  specialize (H _ Ea). cbn [fst snd] in H. rewrite forallb_forall in H. specialize (H _ Ei). cbn [fst] in H.
  destruct (find_desc cR ty ix); [discriminate | reflexivity].
Qed.

Lemma coll_bytes_ok : forall c, coll_okb c = true -> forall ty ix d, find_desc c ty ix = Some d -> bytes_ok d.
Proof.
  intros c Hc ty ix d H. pose proof (coll_ok_facts c Hc) as F. unfold find_desc in H.
  destruct (assoc ty c) as [idxs|] eqn:Ea; [|discriminate].
  destruct (cf_group c F ty idxs Ea) as (_ & _ & _ & _ & Hb & _). apply assoc_in in H. apply (Hb _ H).
Qed.

(* C09: the multiplexer (stall latching as of 6bfe03c) over the two handler models is the specification machine of the union *)
Theorem mux_refines : forall cF cR mps, coll_okb cF = true -> coll_okb cR = true -> dist_okb cR = true ->
  disjointb cF cR = true -> 1 <= mps /\ mps < 65536 -> forall tr,
  env_ok sstate (s_step (resp_mux cF cR mps) (mx_lat cF cR)) (s_env (legal_mux cF cR)) SIdle tr = true ->
  env_ok sstate (s_step (resp_of cF mps) (bk_lat cF)) (s_env (req_legal cF)) SIdle tr = true ->
  env_ok sstate (s_step (resp_of cR mps) (ds_lat cR)) (s_env (req_legal cR)) SIdle tr = true ->
  let c := {| x_fixed := cF; x_runtime := cR; x_mps := mps |} in
  run (mxm_step c) (mxm_init c) tr = run (s_step (resp_mux cF cR mps) (mx_lat cF cR)) SIdle tr.
Proof.
  intros cF cR mps HF HR HD Hdj Hm tr EU EB ED c. unfold mxm_init. rewrite mxm_run. cbn [x_fixed x_runtime x_mps c].
  rewrite (mx_run_ext _ _ _ _ _ _ (s_step (resp_of cF mps) (bk_lat cF)) (s_step (resp_of cR mps) (ds_lat cR)) tr
             bk_init (ds_init (dist_gens cR)) SIdle SIdle false false
             (block_refines cF mps HF Hm tr EB) (proj1 (dist_refines cR mps HR HD Hm tr ED))).
  apply (mux_spec_from cF cR mps (disjointb_sound _ _ Hdj) (coll_bytes_ok cF HF) (coll_bytes_ok cR HR)); try exact I; try assumption.
  apply inv_rest; [exact I | reflexivity | reflexivity].
Qed.

(* resp_mux / legal_mux are the C09 responder / legality of ANY collection whose lookup is the union of the two *)
Lemma resp_mux_union : forall cF cR cU mps, (forall ty ix, find_desc cU ty ix = find2 cF cR ty ix) ->
  forall q, resp_mux cF cR mps q = resp_of cU mps q /\ legal_mux cF cR q = req_legal cU q.
Proof.
  intros cF cR cU mps H q. unfold resp_mux, legal_mux, fd2, resp_of, respond, req_legal. rewrite H. split; reflexivity.
Qed.

Lemma mxm_dec_enc : forall c st, mxm_wf c st -> mxm_dec c (mxm_enc c st) = st.
Proof.
  intros c [[[a b] [l0 l1]] g] (Ha & Hb & Hg). unfold mxm_dec, mxm_enc, ConstGen.pair.
  set (gens := dist_gens (x_runtime c)) in *. set (W := 1 + 64 * nlen gens).
  set (lo := b2n l0 + 2 * b2n l1 + 4 * g). set (L := [(1, b2n l0); (1, b2n l1); (45, g)]).
  assert (HL : fields_ok L) by (repeat constructor; cbn [fst snd]; try apply b2n_lt2; exact Hg).
  assert (E : lo = fields_word L) by (subst lo L; cbn [fields_word]; lia).
  assert (Hlo : lo < 2 ^ 47) by (rewrite E; exact (fields_word_lt L HL)).
  pose proof (ds_enc_lt gens b Hb : ds_enc gens b < 2 ^ W) as Hds.
  rewrite (unpair_lo 47), (unpair_hi 47), (unpair_lo W), (unpair_hi W), bk_dec_enc, ds_dec_enc by assumption.
  assert (E0 : N.testbit lo 0 = l0) by (rewrite E; exact (testbit_fields_word L 0 l0 HL eq_refl)).
  assert (E1 : N.testbit lo 1 = l1) by (rewrite E; exact (testbit_fields_word L 1 l1 HL eq_refl)).
  assert (E2 : N.shiftr lo 2 = g).
  { rewrite N.shiftr_div_pow2. apply digit_div. pose proof (b2n_lt2 l0). pose proof (b2n_lt2 l1). change (2 ^ 2) with 4. lia. }
  rewrite E0, E1, E2. reflexivity.
Qed.

Lemma mxm_wf_step : forall c st i, mxm_wf c st -> mxm_wf c (fst (mxm_step c st i)).
Proof.
  intros c [[[a b] [l0 l1]] g] i (Ha & Hb & Hg). unfold mxm_step, mx_step.
  pose proof (bk_wf_step (block_cfg (x_fixed c) (x_mps c)) a i Ha) as Ha'.
  pose proof (ds_wf_step (dist_gens (x_runtime c)) (x_mps c) b i Hb) as Hb'.
  destruct (bk_step _ a i) as [a' o0]. destruct (ds_step _ _ b i) as [b' o1]. cbn [fst] in *.
  split; [exact Ha' | split; [exact Hb'|]]. destruct (i_start i); [apply trunc_lt | exact Hg].
Qed.

Lemma mxm_wf_init : forall c, gens_okb (dist_gens (x_runtime c)) = true -> mxm_wf c (mxm_init c).
Proof.
  intros c H. unfold mxm_wf, mxm_init. split; [apply bk_wf_init | split; [apply ds_wf_init; exact H | apply pow2_pos]].
Qed.
