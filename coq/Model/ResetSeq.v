(* C19 -- hand model of luna/gateware/usb/usb2/reset.py: USBResetSequencer, parametric in the six cycle
   constants the class derives from its 60 MHz clock (_CYCLES_2P5_MICROSECONDS, _CYCLES_5_MICROSECONDS,
   _CYCLES_200_MICROSECONDS, _CYCLES_2_MILLISECONDS, _CYCLES_2P5_MILLISECONDS, _CYCLES_3_MILLISECONDS),
   and the specification of property C19 as rules over the cycle history.

   The model is code-shaped (one constructor per FSM state, "last assignment wins" written as priority
   chains, both timers wrap at the width Amaranth gives Signal(range(0, c_3ms + 1))).  It is the
   PROPERTY-SATISFYING behaviour: it differs from the code as found in /repo (before the fixes 84ee690,
   9979120, cbf8d5f) in three places (see findings/C19-*.diff):
     D1  DETECT_HS_SUSPEND honours low_speed_only/full_speed_only before starting the HS handshake;
     D2  in AWAIT_HOST_K / AWAIT_HOST_J the 2.5 ms time-out has priority over the awaited line state;
     D3  IN_HOST_J counts a K-J pair only when the J is still present in the counting cycle.
   Definitions only; proofs are in ResetSeq_proofs.v. *)
From Coq Require Import NArith List Bool.
Import ListNotations.
From LunaLib Require Import Netlist Machine PackN.
Open Scope N_scope.

(* ------------------------------------------------------------------------------------------ *)
(* Interface                                                                                  *)
Inductive line_t := L_SE0 | L_J | L_K | L_SE1.          (* UTMI line_state 00, 01 (FS/HS J), 10 (FS/HS K), 11 *)
Inductive speed_t := HIGH | FULL | LOW.                  (* USBSpeed 0, 1, 2 *)
Inductive opmode_t := NORMAL | NON_DRIVING | CHIRP.      (* UTMIOperatingMode 0, 1, 2 *)

Record rs_in := { i_ls : bool; i_fs : bool; i_busy : bool; i_vbus : bool; i_line : line_t; i_disc : bool }.
Record rs_out := { o_reset : bool; o_susp : bool; o_speed : speed_t; o_opmode : opmode_t; o_term : bool;
                   o_txvalid : bool }.          (* tx.data is constant 0 *)

Definition is_se0 l := match l with L_SE0 => true | _ => false end.
Definition is_j l := match l with L_J => true | _ => false end.
Definition is_k l := match l with L_K => true | _ => false end.
Definition line_eqb a b :=
  match a, b with L_SE0, L_SE0 | L_J, L_J | L_K, L_K | L_SE1, L_SE1 => true | _, _ => false end.

(* bus idle depends on the current speed: SE0 (squelch) at HS, J at FS, low-speed J (= code 10) at LS *)
Definition bus_idle (sp : speed_t) (l : line_t) : bool :=
  match sp with HIGH => is_se0 l | FULL => is_j l | LOW => is_k l end.

Record rs_consts := { c_2p5us : N; c_5us : N; c_200us : N; c_2ms : N; c_2p5ms : N; c_3ms : N }.

(* the constants LUNA computes for its 60 MHz clock *)
Definition K_60MHz : rs_consts :=
  {| c_2p5us := 150; c_5us := 300; c_200us := 12000; c_2ms := 120000; c_2p5ms := 150000; c_3ms := 180000 |}.

(* ------------------------------------------------------------------------------------------ *)
(* Model                                                                                      *)
Inductive rs_fsm :=
  | INITIALIZE | LS_FS_NON_RESET | HS_NON_RESET | START_HS_DETECTION | PREPARE_FOR_CHIRP_0
  | PREPARE_FOR_CHIRP_1 | DEVICE_CHIRP | AWAIT_HOST_K | IN_HOST_K | AWAIT_HOST_J | IN_HOST_J
  | IS_HIGH_SPEED | IS_LOW_OR_FULL_SPEED | DETECT_HS_SUSPEND | SUSPENDED | DISCONNECT.

Record rs_state := { fsm : rs_fsm; timer : N; lst : N; vp : N; was_hs : bool; tddis : bool;
                     speed : speed_t; opmode : opmode_t; term : bool }.

Definition rs_init : rs_state :=
  {| fsm := INITIALIZE; timer := 0; lst := 0; vp := 0; was_hs := false; tddis := false;
     speed := FULL; opmode := NORMAL; term := true |}.

Definition restricted (i : rs_in) : bool := i_ls i || i_fs i.

Section Model.
  Variable K : rs_consts.

  (* both timers are Signal(range(0, c_3ms + 1)) *)
  Definition tw : N := N.size (c_3ms K).
  (* x + 1 truncated to tw bits, for x < 2^tw (an invariant of the model, rs_wf) *)
  Definition inc (x : N) : N := if x + 1 <? 2 ^ tw then x + 1 else 0.

  Definition rs_outs (st : rs_state) (i : rs_in) : rs_out :=
    {| o_reset :=
         match fsm st with
         | LS_FS_NON_RESET => negb (i_vbus i) || (timer st =? c_5us K)
         | HS_NON_RESET => negb (i_vbus i)
         | DETECT_HS_SUSPEND => (timer st =? c_200us K) && negb (is_j (i_line i))
         | SUSPENDED => timer st =? c_2p5us K
         | _ => false
         end;
       o_susp := match fsm st with SUSPENDED => true | _ => false end;
       o_speed := speed st; o_opmode := opmode st; o_term := term st;
       o_txvalid := match fsm st with DEVICE_CHIRP => true | _ => false end |}.

  Definition rs_next (st : rs_state) (i : rs_in) : rs_state :=
    let t1 := inc (timer st) in
    let l1 := inc (lst st) in
    let nonse0 := negb (is_se0 (i_line i)) in
    let isk := is_k (i_line i) in
    let isj := is_j (i_line i) in
    let timeout := timer st =? c_2p5ms K in
    let same f t l := {| fsm := f; timer := t; lst := l; vp := vp st; was_hs := was_hs st; tddis := tddis st;
                         speed := speed st; opmode := opmode st; term := term st |} in
    match fsm st with
    | INITIALIZE =>
        {| fsm := LS_FS_NON_RESET; timer := 0; lst := 0; vp := vp st; was_hs := was_hs st; tddis := tddis st;
           speed := if i_ls i then LOW else speed st; opmode := opmode st; term := term st |}
    | LS_FS_NON_RESET =>
        let susp := lst st =? c_3ms K in
        {| fsm := if susp then SUSPENDED
                  else if (timer st =? c_5us K) && negb (restricted i) then START_HS_DETECTION
                  else if nonse0 && i_disc i then DISCONNECT else LS_FS_NON_RESET;
           timer := if nonse0 || negb (i_vbus i) then 0 else t1;
           lst := if bus_idle (speed st) (i_line i) then l1 else 0;
           vp := vp st; was_hs := if susp then false else was_hs st; tddis := tddis st;
           speed := speed st; opmode := opmode st; term := term st |}
    | HS_NON_RESET =>
        let t3 := timer st =? c_3ms K in
        {| fsm := if restricted i then IS_LOW_OR_FULL_SPEED
                  else if t3 then DETECT_HS_SUSPEND
                  else if negb (i_vbus i) then IS_LOW_OR_FULL_SPEED
                  else if nonse0 && i_disc i then DISCONNECT else HS_NON_RESET;
           timer := if t3 || nonse0 then 0 else t1;
           lst := l1; vp := vp st; was_hs := was_hs st; tddis := tddis st;
           speed := if t3 then FULL else speed st;
           opmode := if t3 then NORMAL else opmode st;
           term := if t3 then true else term st |}
    | START_HS_DETECTION =>
        {| fsm := PREPARE_FOR_CHIRP_0; timer := 0; lst := l1; vp := vp st; was_hs := was_hs st;
           tddis := tddis st; speed := HIGH; opmode := CHIRP; term := true |}
    | PREPARE_FOR_CHIRP_0 => same (if i_busy i then PREPARE_FOR_CHIRP_0 else PREPARE_FOR_CHIRP_1) t1 l1
    | PREPARE_FOR_CHIRP_1 => same (if i_busy i then PREPARE_FOR_CHIRP_1 else DEVICE_CHIRP) t1 l1
    | DEVICE_CHIRP =>
        if timer st =? c_2ms K then
          {| fsm := AWAIT_HOST_K; timer := 0; lst := l1; vp := 0; was_hs := was_hs st; tddis := tddis st;
             speed := speed st; opmode := opmode st; term := term st |}
        else same DEVICE_CHIRP t1 l1
    | AWAIT_HOST_K =>                                                             (* D2: time-out first *)
        same (if timeout then IS_LOW_OR_FULL_SPEED else if isk then IN_HOST_K else AWAIT_HOST_K)
             t1 (if isk then 0 else l1)
    | IN_HOST_K =>
        same (if timeout then IS_LOW_OR_FULL_SPEED else if negb isk then AWAIT_HOST_K
              else if lst st =? c_2p5us K then AWAIT_HOST_J else IN_HOST_K) t1 l1
    | AWAIT_HOST_J =>                                                             (* D2 *)
        same (if timeout then IS_LOW_OR_FULL_SPEED else if isj then IN_HOST_J else AWAIT_HOST_J)
             t1 (if isj then 0 else l1)
    | IN_HOST_J =>
        let done := (lst st =? c_2p5us K) && isj in                               (* D3: "&& isj" *)
        {| fsm := if timeout then IS_LOW_OR_FULL_SPEED else if negb isj then AWAIT_HOST_J
                  else if done then (if vp st =? 2 then IS_HIGH_SPEED else AWAIT_HOST_K) else IN_HOST_J;
           timer := t1; lst := l1;
           vp := if done && negb (vp st =? 2) then (vp st + 1) mod 4 else vp st;
           was_hs := was_hs st; tddis := tddis st; speed := speed st; opmode := opmode st; term := term st |}
    | IS_HIGH_SPEED =>
        {| fsm := HS_NON_RESET; timer := 0; lst := 0; vp := vp st; was_hs := was_hs st; tddis := tddis st;
           speed := HIGH; opmode := NORMAL; term := false |}
    | IS_LOW_OR_FULL_SPEED =>
        {| fsm := if nonse0 then LS_FS_NON_RESET else IS_LOW_OR_FULL_SPEED;
           timer := if nonse0 then 0 else t1; lst := if nonse0 then 0 else l1;
           vp := vp st; was_hs := was_hs st; tddis := tddis st;
           speed := if i_ls i then LOW else FULL; opmode := NORMAL; term := true |}
    | DETECT_HS_SUSPEND =>
        let hit := timer st =? c_200us K in
        {| fsm := if hit then (if isj then SUSPENDED
                               else if restricted i then IS_LOW_OR_FULL_SPEED      (* D1 *)
                               else START_HS_DETECTION)
                  else DETECT_HS_SUSPEND;
           timer := if hit then 0 else t1; lst := l1; vp := vp st;
           was_hs := if hit && isj then true else was_hs st; tddis := tddis st;
           speed := speed st; opmode := opmode st; term := term st |}
    | SUSPENDED =>
        let resume := (i_ls i && isj) || (negb (i_ls i) && isk) in               (* LS K = code 01, FS K = code 10 *)
        let rst := timer st =? c_2p5us K in
        {| fsm := if rst then (if restricted i then LS_FS_NON_RESET else START_HS_DETECTION)
                  else if resume then (if was_hs st then IS_HIGH_SPEED else LS_FS_NON_RESET)
                  else SUSPENDED;
           timer := if rst || nonse0 then 0 else t1;
           lst := if (rst && restricted i) || (resume && negb (was_hs st)) then 0 else l1;
           vp := vp st; was_hs := was_hs st; tddis := tddis st;
           speed := speed st; opmode := opmode st; term := term st |}
    | DISCONNECT =>
        let leave := negb (i_disc i) && tddis st in
        {| fsm := if leave then INITIALIZE else DISCONNECT; timer := t1; lst := l1; vp := vp st;
           was_hs := was_hs st;
           tddis := if leave then false else if timer st =? c_2p5us K then true else tddis st;
           speed := if leave then FULL else speed st;
           opmode := if leave then NORMAL else NON_DRIVING;
           term := if leave then true else term st |}
    end.

  (* ---- packed-word view (R lock-step / correspondence) ---- *)
  (* inputs, first declared port = least significant: low_speed_only, full_speed_only, bus_busy,
     vbus_connected, line_state[2], disconnect *)
  Definition decode_in (w : N) : rs_in :=
    {| i_ls := N.testbit w 0; i_fs := N.testbit w 1; i_busy := N.testbit w 2; i_vbus := N.testbit w 3;
       i_line := match bits w 4 2 with 0 => L_SE0 | 1 => L_J | 2 => L_K | _ => L_SE1 end;
       i_disc := N.testbit w 6 |}.
  Definition speed_n (s : speed_t) : N := match s with HIGH => 0 | FULL => 1 | LOW => 2 end.
  Definition opmode_n (m : opmode_t) : N := match m with NORMAL => 0 | NON_DRIVING => 1 | CHIRP => 2 end.
  (* outputs: bus_reset, suspended, current_speed[2], operating_mode[2], termination_select, tx_valid, tx_data[8] *)
  Definition pack_out (o : rs_out) : N :=
    b2n (o_reset o) + 2 * b2n (o_susp o) + 4 * speed_n (o_speed o) + 16 * opmode_n (o_opmode o)
    + 64 * b2n (o_term o) + 128 * b2n (o_txvalid o).

  Definition rs_step (st : rs_state) (w : N) : rs_state * N :=
    let i := decode_in w in (rs_next st i, pack_out (rs_outs st i)).

  Definition fsm_n (f : rs_fsm) : N :=
    match f with
    | INITIALIZE => 0 | LS_FS_NON_RESET => 1 | HS_NON_RESET => 2 | START_HS_DETECTION => 3
    | PREPARE_FOR_CHIRP_0 => 4 | PREPARE_FOR_CHIRP_1 => 5 | DEVICE_CHIRP => 6 | AWAIT_HOST_K => 7
    | IN_HOST_K => 8 | AWAIT_HOST_J => 9 | IN_HOST_J => 10 | IS_HIGH_SPEED => 11
    | IS_LOW_OR_FULL_SPEED => 12 | DETECT_HS_SUSPEND => 13 | SUSPENDED => 14 | DISCONNECT => 15
    end.
  Definition n_fsm (n : N) : rs_fsm :=
    match n with
    | 0 => INITIALIZE | 1 => LS_FS_NON_RESET | 2 => HS_NON_RESET | 3 => START_HS_DETECTION
    | 4 => PREPARE_FOR_CHIRP_0 | 5 => PREPARE_FOR_CHIRP_1 | 6 => DEVICE_CHIRP | 7 => AWAIT_HOST_K
    | 8 => IN_HOST_K | 9 => AWAIT_HOST_J | 10 => IN_HOST_J | 11 => IS_HIGH_SPEED
    | 12 => IS_LOW_OR_FULL_SPEED | 13 => DETECT_HS_SUSPEND | 14 => SUSPENDED | _ => DISCONNECT
    end.
  Definition n_speed (n : N) : speed_t := match n with 0 => HIGH | 1 => FULL | _ => LOW end.
  Definition n_opmode (n : N) : opmode_t := match n with 0 => NORMAL | 1 => NON_DRIVING | _ => CHIRP end.
  Definition n_bool (n : N) : bool := match n with 0 => false | _ => true end.

  Definition rs_enc (st : rs_state) : N :=
    pk 16 (fsm_n (fsm st)) (pk (2 ^ tw) (timer st) (pk (2 ^ tw) (lst st) (pk 4 (vp st)
      (pk 2 (b2n (was_hs st)) (pk 2 (b2n (tddis st)) (pk 4 (speed_n (speed st))
        (pk 4 (opmode_n (opmode st)) (b2n (term st))))))))).
  Definition rs_dec (n : N) : rs_state :=
    let f := n mod 16 in let n := n / 16 in
    let t := n mod 2 ^ tw in let n := n / 2 ^ tw in
    let l := n mod 2 ^ tw in let n := n / 2 ^ tw in
    let v := n mod 4 in let n := n / 4 in
    let wh := n mod 2 in let n := n / 2 in
    let td := n mod 2 in let n := n / 2 in
    let sp := n mod 4 in let n := n / 4 in
    let op := n mod 4 in let n := n / 4 in
    {| fsm := n_fsm f; timer := t; lst := l; vp := v; was_hs := n_bool wh; tddis := n_bool td;
       speed := n_speed sp; opmode := n_opmode op; term := n_bool n |}.
  Definition rs_wf (st : rs_state) : Prop := timer st < 2 ^ tw /\ lst st < 2 ^ tw /\ vp st < 4.
End Model.

(* ------------------------------------------------------------------------------------------ *)
(* Typed runs: one record per cycle, holding the inputs and the outputs of that cycle          *)
Record cyc := { c_in : rs_in; c_out : rs_out }.

Fixpoint rs_trace (K : rs_consts) (st : rs_state) (ins : list rs_in) : list cyc :=
  match ins with
  | [] => []
  | i :: t => {| c_in := i; c_out := rs_outs K st i |} :: rs_trace K (rs_next K st i) t
  end.

(* ------------------------------------------------------------------------------------------ *)
(* Specification.  Histories are lists of cycles, MOST RECENT FIRST.                           *)

(* observable classifications of one cycle *)
Definition hs_op (c : cyc) : bool :=          (* operating at high speed: HS transceiver, normal mode, HS termination *)
  match o_speed (c_out c), o_opmode (c_out c), o_term (c_out c) with HIGH, NORMAL, false => true | _, _, _ => false end.
Definition fs_ls_op (c : cyc) : bool :=       (* operating at full/low speed *)
  match o_speed (c_out c), o_opmode (c_out c), o_term (c_out c) with
  | FULL, NORMAL, true | LOW, NORMAL, true => true | _, _, _ => false end.
Definition chirpmode (c : cyc) : bool := match o_opmode (c_out c) with CHIRP => true | _ => false end.
Definition txvalid (c : cyc) : bool := o_txvalid (c_out c).
Definition chirping (c : cyc) : bool := chirpmode c && txvalid c.       (* the device drives its chirp K *)
Definition c_restricted (c : cyc) : bool := restricted (c_in c).
Definition c_line (c : cyc) : line_t := i_line (c_in c).
Definition se0 (c : cyc) : bool := is_se0 (c_line c).
Definition idle (c : cyc) : bool := bus_idle (o_speed (c_out c)) (c_line c).
Definition hs_idle (c : cyc) : bool := hs_op c && se0 c.
Definition reset_out (c : cyc) : bool := o_reset (c_out c).
Definition susp_out (c : cyc) : bool := o_susp (c_out c).

(* number of most recent consecutive cycles satisfying P *)
Fixpoint streak (P : cyc -> bool) (h : list cyc) : N :=
  match h with
  | x :: t => if P x then N.succ (streak P t) else 0
  | [] => 0
  end.

(* the history as it was n cycles ago *)
Fixpoint drop (n : N) (h : list cyc) : list cyc :=
  match h with
  | [] => []
  | _ :: t => if n =? 0 then h else drop (N.pred n) t
  end.

(* Some n: the device chirp (tx.valid) ended n cycles ago and the device has been in chirp mode since *)
Fixpoint listen (h : list cyc) : option N :=
  match h with
  | [] => None
  | x :: t => if txvalid x then Some 0
              else if chirpmode x then option_map N.succ (listen t) else None
  end.

Section Spec.
  Variable K : rs_consts.

  (* n+1 cycles ago the device was in HS operation and had then seen c_3ms cycles of HS idle (SE0) *)
  Definition hs_idle_ago (n : N) (past : list cyc) : Prop :=
    match drop n past with
    | u :: rest => hs_op u = true /\ c_3ms K <= streak hs_idle rest
    | [] => False
    end.

  (* hsk p h: h contains a bus reset r, issued while the device was not speed-restricted, after which the
     device has been in chirp mode in every cycle (from the second cycle after r), has driven its chirp K,
     and has then seen p line states K, J, K, J, ... in this order, each lasting at least c_2p5us cycles
     (possibly separated by anything else). *)
  Definition line_of (p : N) : line_t := if N.even p then L_K else L_J.
  Inductive hsk : N -> list cyc -> Prop :=
  | hsk_chirp : forall c g0 s r h0,
      c <> [] -> Forall (fun x => chirping x = true) c -> Forall (fun x => chirpmode x = true) g0 ->
      reset_out r = true -> c_restricted r = false ->
      hsk 0 (c ++ g0 ++ s :: r :: h0)
  | hsk_state : forall p s rest,
      hsk p rest -> c_2p5us K <= N.of_nat (length s) ->
      Forall (fun x => chirpmode x = true /\ c_line x = line_of p) s ->
      hsk (p + 1) (s ++ rest)
  | hsk_wait : forall p c h, hsk p h -> chirpmode c = true -> hsk p (c :: h).

  (* the suspend the device is in was entered from high speed (3 ms of HS idle, then J 200 us later) *)
  Definition hs_suspend_entry (past : list cyc) : Prop :=
    match past with
    | p :: past' => susp_out p = false /\ c_line p = L_J /\ hs_idle_ago (c_200us K) past'
    | [] => False
    end.
  Inductive sfh : list cyc -> Prop :=
  | sfh_enter : forall c past, susp_out c = true -> hs_suspend_entry past -> sfh (c :: past)
  | sfh_stay : forall c past, susp_out c = true -> sfh past -> sfh (c :: past).

  (* ---- the rules: what may happen in cycle c, given the cycles before it ---- *)

  (* (1) bus_reset only while VBUS is absent, or after >= 2.5 us of continuous SE0 (suspended), >= 5 us (active
         at FS/LS), or -- at high speed -- 3 ms of SE0 and a non-idle line 200 us after reverting to FS *)
  Definition rule_reset (past : list cyc) (c : cyc) : Prop :=
    reset_out c = true ->
    i_vbus (c_in c) = false
    \/ (susp_out c = true /\ c_2p5us K <= streak se0 past)
    \/ (susp_out c = false /\ c_5us K <= streak se0 past)
    \/ (susp_out c = false /\ c_line c <> L_J /\ hs_idle_ago (c_200us K) past).

  (* (2) suspend is entered only after 3 ms of continuous idle (at high speed: followed by J 200 us later) *)
  Definition rule_suspend (past : list cyc) (c : cyc) : Prop :=
    susp_out c = true ->
    match past with
    | p :: past' => susp_out p = true \/ c_3ms K <= streak idle past' \/ hs_suspend_entry past
    | [] => False
    end.

  (* (3) high-speed operation begins only after a complete handshake or a resume from an HS suspend *)
  Definition rule_hs_entry (past : list cyc) (c : cyc) : Prop :=
    hs_op c = true ->
    match past with
    | p :: past' => hs_op p = true \/ hsk 6 past' \/ sfh past'
    | [] => False
    end.

  (* (4) chirp mode (the handshake) is entered only two cycles after a bus reset reported while unrestricted *)
  Definition rule_start (past : list cyc) (c : cyc) : Prop :=
    chirpmode c = true ->
    match past with
    | p :: past' => chirpmode p = true \/
                    match past' with q :: _ => reset_out q = true /\ c_restricted q = false | [] => False end
    | [] => False
    end.

  (* (5) a speed restriction seen while in HS operation ends HS operation within two cycles *)
  Definition rule_leave (past : list cyc) (c : cyc) : Prop :=
    match past with
    | _ :: q :: _ => hs_op q = true -> c_restricted q = true -> hs_op c = false
    | _ => True
    end.

  (* (6) after its own chirp the device stays in chirp mode for at most c_2p5ms + 2 cycles ... *)
  Definition rule_timeout (past : list cyc) (c : cyc) : Prop :=
    match listen (c :: past) with Some n => n <= c_2p5ms K + 2 | None => True end.

  (* (7) ... and it leaves chirp mode either into HS operation (rule 3: only after three valid K-J pairs)
         or into FS/LS operation *)
  Definition rule_exit (past : list cyc) (c : cyc) : Prop :=
    match past with
    | p :: _ => chirpmode p = true -> chirpmode c = false -> hs_op c = true \/ fs_ls_op c = true
    | [] => True
    end.

  (* rules 1-5 and 7 hold for every choice of the constants with c_200us <= c_3ms; rule 6 needs c_2p5ms <= c_3ms
     (the timer must be able to reach the time-out) *)
  Definition rule_safe (past : list cyc) (c : cyc) : Prop :=
    rule_reset past c /\ rule_suspend past c /\ rule_hs_entry past c /\ rule_start past c
    /\ rule_leave past c /\ rule_exit past c.
  Definition rule_all (past : list cyc) (c : cyc) : Prop := rule_safe past c /\ rule_timeout past c.
End Spec.

(* "in every cycle of the run l that follows the history `past`, rule P holds" *)
Fixpoint always (P : list cyc -> cyc -> Prop) (past : list cyc) (l : list cyc) : Prop :=
  match l with
  | [] => True
  | c :: t => P past c /\ always P (c :: past) t
  end.

(* ------------------------------------------------------------------------------------------ *)
(* Runtime oracle: the rules above as boolean functions of (history, cycle), evaluated by the check over
   simulator traces of the real module (tie.cmon).  ResetSeq_proofs.v shows: oracle accepts => rule holds. *)
Section Oracle.
  Variable K : rs_consts.

  Definition hs_idle_ago_b (n : N) (past : list cyc) : bool :=
    match drop n past with
    | u :: rest => hs_op u && (c_3ms K <=? streak hs_idle rest)
    | [] => false
    end.
  Definition hs_suspend_entry_b (past : list cyc) : bool :=
    match past with
    | p :: past' => negb (susp_out p) && is_j (c_line p) && hs_idle_ago_b (c_200us K) past'
    | [] => false
    end.
  Fixpoint sfh_b (h : list cyc) : bool :=
    match h with
    | c :: past => susp_out c && (hs_suspend_entry_b past || sfh_b past)
    | [] => false
    end.

  (* scanning backwards: chirp-mode cycles, at least one of them chirping, then the START cycle, then the reset *)
  Fixpoint hsk0_b (seen : bool) (h : list cyc) : bool :=
    match h with
    | x :: t => if chirpmode x then hsk0_b (seen || txvalid x) t
                else seen && match t with r :: _ => reset_out r && negb (c_restricted r) | [] => false end
    | [] => false
    end.
  (* scanning backwards for p line states; n = length of the current run of the state looked for *)
  Fixpoint hsk_b (p : nat) (n : N) (h : list cyc) {struct h} : bool :=
    match p with
    | O => hsk0_b false h
    | S q =>
        match h with
        | [] => false
        | x :: t =>
            chirpmode x &&
            (if line_eqb (c_line x) (line_of (N.of_nat q))
             then (if c_2p5us K <=? n + 1 then hsk_b q 0 t else hsk_b p (n + 1) t)
             else hsk_b p 0 t)
        end
    end.

  Definition rule_reset_b (past : list cyc) (c : cyc) : bool :=
    implb (reset_out c)
      (negb (i_vbus (c_in c))
       || (susp_out c && (c_2p5us K <=? streak se0 past))
       || (negb (susp_out c) && (c_5us K <=? streak se0 past))
       || (negb (susp_out c) && negb (is_j (c_line c)) && hs_idle_ago_b (c_200us K) past)).
  Definition rule_suspend_b (past : list cyc) (c : cyc) : bool :=
    implb (susp_out c)
      match past with
      | p :: past' => susp_out p || (c_3ms K <=? streak idle past') || hs_suspend_entry_b past
      | [] => false
      end.
  Definition rule_hs_entry_b (past : list cyc) (c : cyc) : bool :=
    implb (hs_op c)
      match past with
      | p :: past' => hs_op p || hsk_b 6 0 past' || sfh_b past'
      | [] => false
      end.
  Definition rule_start_b (past : list cyc) (c : cyc) : bool :=
    implb (chirpmode c)
      match past with
      | p :: past' => chirpmode p ||
                      match past' with q :: _ => reset_out q && negb (c_restricted q) | [] => false end
      | [] => false
      end.
  Definition rule_leave_b (past : list cyc) (c : cyc) : bool :=
    match past with
    | _ :: q :: _ => implb (hs_op q && c_restricted q) (negb (hs_op c))
    | _ => true
    end.
  Definition rule_exit_b (past : list cyc) (c : cyc) : bool :=
    match past with
    | p :: _ => implb (chirpmode p && negb (chirpmode c)) (hs_op c || fs_ls_op c)
    | [] => true
    end.
  Definition rule_timeout_b (past : list cyc) (c : cyc) : bool :=
    match listen (c :: past) with Some n => n <=? c_2p5ms K + 2 | None => true end.

  Definition rule_safe_b (past : list cyc) (c : cyc) : bool :=
    rule_reset_b past c && rule_suspend_b past c && rule_hs_entry_b past c && rule_start_b past c
    && rule_leave_b past c && rule_exit_b past c.
  Definition rule_all_b (past : list cyc) (c : cyc) : bool := rule_safe_b past c && rule_timeout_b past c.

  (* ---- the oracle as a monitor over packed words: the monitor state is the whole history ---- *)
  Definition n_line (n : N) : line_t := match n with 0 => L_SE0 | 1 => L_J | 2 => L_K | _ => L_SE1 end.
  Definition decode_out (o : N) : rs_out :=
    {| o_reset := N.testbit o 0; o_susp := N.testbit o 1; o_speed := n_speed (bits o 2 2);
       o_opmode := n_opmode (bits o 4 2); o_term := N.testbit o 6; o_txvalid := N.testbit o 7 |}.
  (* outputs the typed interface cannot express (speed 3, op-mode 3, tx.data <> 0) are rejected outright *)
  Definition out_ok (o : N) : bool :=
    negb (bits o 2 2 =? 3) && negb (bits o 4 2 =? 3) && (N.shiftr o 8 =? 0).
  (* history: sentinel 1, then 15 bits per cycle (7 input bits, 8 output bits), most recent cycle lowest *)
  Fixpoint dec_hist (fuel : nat) (m : N) : list cyc :=
    match fuel with
    | O => []
    | S f => if m <=? 1 then []
             else {| c_in := decode_in (bits m 0 7); c_out := decode_out (bits m 7 8) |}
                  :: dec_hist f (N.shiftr m 15)
    end.
  Definition rs_mon (all : bool) (m i o : N) : option (N * bool) :=
    let past := dec_hist (N.to_nat (N.size m)) m in
    let c := {| c_in := decode_in i; c_out := decode_out o |} in
    Some (N.lor (N.shiftl m 15) (N.lor (bits i 0 7) (N.shiftl (bits o 0 8) 7)),
          out_ok o && (if all then rule_all_b past c else rule_safe_b past c)).
  Definition rs_mon0 : N := 1.
End Oracle.
