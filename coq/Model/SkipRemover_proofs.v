(* C32 -- proofs about the CTCSkipRemover model (Model/SkipRemover.v), for every W >= 1: the shift-register model
   refines the symbol FIFO (ctc_refines_fifo, by the relation Inv), and the FIFO conserves the non-SKP symbol
   stream (ctc_stream; ctc_packed_stream is the same on the packed machine). *)
From Coq Require Import NArith List Bool Arith Lia.
Import ListNotations.
From LunaLib Require Import Netlist Machine SymWord ListFacts.
From LunaModel Require Import SkipRemover.
Open Scope nat_scope.

Lemma keep_length : forall l, length (keep l) <= length l.
Proof. intros. apply filter_length_le'. Qed.

Lemma keep_ok : forall (P : N -> Prop) l, Forall P l -> Forall P (keep l).
Proof. intros. apply Forall_filter. assumption. Qed.

Lemma keep_in_stream : forall ins,
  keep (in_stream ins) = concat (map (fun i => if iv i then keep (isyms i) else []) ins).
Proof.
  intros ins. unfold in_stream, keep. rewrite <- concat_filter_map, map_map. f_equal.
  apply map_ext. intros i. destruct (iv i); reflexivity.
Qed.

Lemma keep_no_skp : forall l, ~ In SKP (keep l).
Proof. intros l H. apply filter_In in H. destruct H as [_ H]. rewrite N.eqb_refl in H. discriminate. Qed.

(* A queue q kept as the top of a shift register b: when m symbols leave it and `add` is shifted in
   from the top, the register holds the new queue in the same way. *)
Lemma suffix_shift : forall (b q add : list N) m,
  skipn (length b - length q) b = q -> m <= length q <= length b ->
  length q - m + length add <= length b ->
  skipn (length b - (length q - m + length add)) (skipn (length add) (b ++ add)) = skipn m q ++ add.
Proof.
  intros b q add m Hs Hm Hfit. rewrite skipn_skipn, skipn_app.
  replace (length add + (length b - (length q - m + length add))) with (length b - length q + m) by lia.
  replace (length b - length q + m - length b) with 0 by lia.
  rewrite <- skipn_skipn, Hs. reflexivity.
Qed.

Section Refinement.
  Variable W : nat.
  Hypothesis HW : 1 <= W.

  Lemma cwidth_big : 2 * W < 2 ^ cwidth W.
  Proof.
    unfold cwidth. replace (Nat.log2 (2 * W) + 1) with (S (Nat.log2 (2 * W))) by lia.
    apply Nat.log2_spec. lia.
  Qed.

  (* length q < 2 * W strictly: with source.ready high (in_ok) a word leaves whenever W symbols are queued and at most
     W arrive, so the fill never reaches 2 * W, which ctc_in_ready admits and the Switch of ctc_out_word lacks *)
  Definition Inv (st : ctc_state) (q : list N) : Prop :=
    length (buf st) = 2 * W /\ fill st = length q /\ length q < 2 * W /\
    skipn (2 * W - fill st) (buf st) = q.

  Definition in_ok (i : ctc_in) : Prop := ir i = true /\ length (isyms i) = W.

  Lemma Inv_init : Inv (ctc_init W) [].
  Proof.
    unfold Inv, ctc_init. cbn [buf fill length]. rewrite repeat_length. repeat split; try lia.
    rewrite Nat.sub_0_r. apply skipn_all2. rewrite repeat_length. lia.
  Qed.

  Lemma ctc_sim_step : forall st q i, Inv st q -> in_ok i ->
    Inv (ctc_next W st i) (fst (sp_step W q i)) /\ snd (ctc_step W st i) = snd (sp_step W q i).
  Proof.
    intros [b n] q i (Hb & Hn & Hq & Hs) (Hr & Hl). cbn [buf fill] in *. subst n.
    pose proof cwidth_big as HC.
    pose proof (keep_length (isyms i)) as Hk. rewrite Hl in Hk.
    unfold ctc_step, ctc_next, sp_step, ctc_out_valid, ctc_in_ready, ctc_out_word.
    cbn [buf fill fst snd]. rewrite Hr, Hs.
    replace (length q <=? 2 * W) with true by (symmetry; apply Nat.leb_le; lia).
    replace (length q <? 2 * W) with true by (symmetry; apply Nat.ltb_lt; lia).
    rewrite !andb_true_r. split; [|destruct (W <=? length q); reflexivity].
    set (add := if iv i then keep (isyms i) else []).
    set (m := if W <=? length q then W else 0).
    assert (Ha : length add <= W) by (subst add; destruct (iv i); [exact Hk | apply Nat.le_0_l]).
    assert (Hm : m <= length q /\ length q - m + length add < 2 * W)
      by (subst m; destruct (Nat.leb_spec W (length q)); lia).
    assert (Eq : (if W <=? length q then skipn W q else q) ++ add = skipn m q ++ add)
      by (subst m; destruct (W <=? length q); reflexivity).
    assert (Eb : (if iv i then skipn (length (keep (isyms i))) (b ++ keep (isyms i)) else b)
                 = skipn (length add) (b ++ add))
      by (subst add; destruct (iv i); [reflexivity | symmetry; apply app_nil_r]).
    assert (Ef : (if iv i
                  then (if W <=? length q then length q + length (keep (isyms i)) - W
                        else length q + length (keep (isyms i))) mod 2 ^ cwidth W
                  else if W <=? length q then length q - W else length q)
                 = length q - m + length add).
    { subst add m. destruct (iv i), (Nat.leb_spec W (length q)); cbn [length];
        try rewrite Nat.mod_small; lia. }
    unfold Inv. cbn [buf fill]. rewrite Eq, Eb, Ef, skipn_length, !app_length, skipn_length.
    repeat split; try lia.
    rewrite <- Hb. apply suffix_shift; rewrite Hb; [exact Hs | lia | lia].
  Qed.

  Lemma ctc_sim_run : forall ins st q, Inv st q -> Forall in_ok ins ->
    trun (ctc_step W) st ins = trun (sp_step W) q ins /\
    Inv (tstate (ctc_step W) st ins) (tstate (sp_step W) q ins).
  Proof.
    induction ins as [|i t IH]; intros st q HI HA; [split; [reflexivity | exact HI]|].
    inversion HA as [|? ? Hi Ht]; subst.
    destruct (ctc_sim_step st q i HI Hi) as [HI' Ho]. destruct (IH _ _ HI' Ht) as [H1 H2].
    cbn [trun tstate]. rewrite (surjective_pairing (sp_step W q i)), <- Ho, <- H1.
    split; [reflexivity | exact H2].
  Qed.

  (* The model is trace-equivalent to the FIFO specification when the downstream is always ready. *)
  Theorem ctc_refines_fifo : forall ins, Forall in_ok ins ->
    trun (ctc_step W) (ctc_init W) ins = trun (sp_step W) [] ins.
  Proof. intros ins H. apply (ctc_sim_run ins _ _ Inv_init H). Qed.

  Lemma sp_conservation : forall ins q,
    out_stream (trun (sp_step W) q ins) ++ tstate (sp_step W) q ins
    = q ++ concat (map (fun i => if iv i then keep (isyms i) else []) ins).
  Proof.
    induction ins as [|i t IH]; intros q; [cbn; rewrite app_nil_r; reflexivity|].
    cbn [trun tstate map concat sp_step fst]. unfold out_stream in *. cbn [map concat].
    rewrite <- app_assoc, IH.
    destruct (W <=? length q).
    - rewrite !app_assoc, firstn_skipn. reflexivity.
    - cbn [app]. rewrite app_assoc. reflexivity.
  Qed.

  Definition word_ok (P : N -> Prop) (o : option (list N)) : Prop :=
    match o with Some w => length w = W /\ Forall P w | None => True end.

  Lemma sp_words_ok : forall P ins q, Forall P q -> Forall (fun i => Forall P (isyms i)) ins ->
    Forall (word_ok P) (trun (sp_step W) q ins).
  Proof.
    intros P. induction ins as [|i t IH]; intros q Hq HA; [constructor|].
    inversion HA as [|? ? Hi Ht]; subst. cbn [trun sp_step].
    assert (Hadd : Forall P (if iv i then keep (isyms i) else [])).
    { destruct (iv i); [apply keep_ok; exact Hi | constructor]. }
    destruct (Nat.leb_spec W (length q)) as [E|E].
    - constructor.
      + split; [apply firstn_length_le; exact E | apply Forall_firstn; exact Hq].
      + apply IH; [|exact Ht]. apply Forall_app. split; [apply Forall_skipn; exact Hq | exact Hadd].
    - constructor; [exact I|]. apply IH; [|exact Ht]. apply Forall_app. split; assumption.
  Qed.

  (* C32 on the typed model; every word that leaves is full *)
  Theorem ctc_stream : forall ins, Forall in_ok ins ->
    let outs := trun (ctc_step W) (ctc_init W) ins in
    exists pending, length pending < 2 * W /\
      out_stream outs ++ pending = keep (in_stream ins) /\
      Forall (fun o => match o with Some w => length w = W | None => True end) outs.
  Proof.
    intros ins H outs. subst outs. destruct (ctc_sim_run ins _ _ Inv_init H) as [HR HI]. rewrite HR.
    exists (tstate (sp_step W) [] ins). destruct HI as (_ & _ & Hlen & _). split; [exact Hlen|]. split.
    - rewrite sp_conservation, keep_in_stream. reflexivity.
    - eapply Forall_impl; [|apply (sp_words_ok (fun _ => True) ins [])].
      + intros [w|] Hw; [apply Hw | exact I].
      + constructor.
      + apply Forall_forall. intros i _. apply Forall_forall. trivial.
  Qed.
End Refinement.

Lemma ctc_mrun : forall W tr st,
  run (ctc_mstep W) st tr = map (ctc_eout W) (trun (ctc_step W) st (map (ctc_din W) tr)).
Proof. intros. unfold ctc_mstep. apply (run_packed (ctc_step W) (ctc_din W) (ctc_eout W)). Qed.

Definition ready_bit (W : nat) (i : N) : Prop := N.testbit i (9 * N.of_nat W + 1) = true.

Lemma din_ok : forall W tr, Forall (ready_bit W) tr -> Forall (in_ok W) (map (ctc_din W) tr).
Proof.
  intros W tr H. apply Forall_map. eapply Forall_impl; [|exact H]. intros i Hi.
  split; [exact Hi | apply syms_of_length].
Qed.

Lemma din_sym_ok : forall W tr, Forall (fun i => Forall sym_ok (isyms i)) (map (ctc_din W) tr).
Proof. intros W tr. apply Forall_map. apply Forall_forall. intros i _. apply syms_of_ok. Qed.

Theorem ctc_packed_refines : forall W, 1 <= W -> forall tr, Forall (ready_bit W) tr ->
  run (ctc_mstep W) (ctc_init W) tr = map (ctc_eout W) (trun (sp_step W) [] (map (ctc_din W) tr)).
Proof. intros W HW tr H. rewrite ctc_mrun, (ctc_refines_fifo W HW) by (apply din_ok; exact H). reflexivity. Qed.

Lemma dout_eout : forall W o, word_ok W sym_ok o -> ctc_dout W (ctc_eout W o) = o.
Proof.
  intros W [w|] H; [|reflexivity]. destruct H as [Hl Hs]. unfold ctc_dout, ctc_eout, NW.
  set (n := N.of_nat W).
  set (L := [(8 * n, data_of w); (n, ctrl_of w); (1, b2n true)]%N).
  assert (HL : fields_ok L).
  { repeat constructor; cbn [fst snd]; subst n; rewrite <- Hl; [apply data_of_bound | apply ctrl_of_bound]. }
  replace (data_of w + N.shiftl (ctrl_of w) (8 * n) + N.shiftl 1 (9 * n))%N with (fields_word L).
  - pose proof (bits_fields_word L 0 HL) as E0. pose proof (bits_fields_word L 1 HL) as E1.
    pose proof (testbit_fields_word L 2 true HL eq_refl) as E2.
    subst L. cbn [field_off nth fst snd] in E0, E1, E2. rewrite N.add_0_r in E1.
    replace (8 * n + (n + 0))%N with (9 * n)%N in E2 by lia.
    rewrite E2, E1, E0.
    subst n. rewrite <- Hl, syms_of_data_ctrl by exact Hs. reflexivity.
  - subst L. cbn [fields_word b2n]. rewrite !N.shiftl_mul_pow2.
    replace (9 * n)%N with (8 * n + n)%N by lia. rewrite N.pow_add_r. lia.
Qed.

Lemma dout_norm : forall W o, ctc_dout W (ctc_norm W o) = ctc_dout W o.
Proof.
  intros W o. unfold ctc_norm, ctc_dout. destruct (N.testbit o (9 * NW W)) eqn:E; [rewrite E; reflexivity|].
  rewrite N.bits_0. reflexivity.
Qed.

(* C32 on the packed machine that the lock-step obligations tie to the netlist; source.ready = 1 throughout *)
Theorem ctc_packed_stream : forall W, 1 <= W -> forall tr, Forall (ready_bit W) tr ->
  exists pending, length pending < 2 * W /\
    out_stream (map (ctc_dout W) (run (ctc_mstep W) (ctc_init W) tr)) ++ pending
    = keep (in_stream (map (ctc_din W) tr)).
Proof.
  intros W HW tr H.
  destruct (ctc_stream W HW (map (ctc_din W) tr) (din_ok W tr H)) as (p & Hp & He & _).
  exists p. split; [exact Hp|]. rewrite <- He. f_equal. f_equal.
  rewrite ctc_mrun, map_map. rewrite (ctc_refines_fifo W HW) by (apply din_ok; exact H).
  pose proof (sp_words_ok W sym_ok (map (ctc_din W) tr) [] (Forall_nil _) (din_sym_ok W tr)) as Hw.
  induction Hw as [|o l Ho Hl IH]; [reflexivity|]. cbn [map]. rewrite dout_eout by exact Ho. rewrite IH. reflexivity.
Qed.

(* for the lock-step tie to the netlist (props/C32.py) *)
Definition ctc_wf (W : nat) (st : ctc_state) : Prop :=
  length (buf st) = 2 * W /\ Forall sym_ok (buf st) /\ fill st < 2 ^ cwidth W.

Lemma cwidth_pos : forall W, 0 < 2 ^ cwidth W.
Proof. intro W. apply Nat.neq_0_lt_0, Nat.pow_nonzero. discriminate. Qed.

Lemma ctc_wf_init : forall W, ctc_wf W (ctc_init W).
Proof.
  intros W. unfold ctc_wf, ctc_init. cbn [buf fill]. rewrite repeat_length.
  split; [reflexivity | split; [apply Forall_repeat; reflexivity | apply cwidth_pos]].
Qed.

Lemma ctc_dec_enc : forall W, cwidth W <= 8 -> forall st, ctc_wf W st -> ctc_dec W (ctc_enc st) = st.
Proof.
  intros W HC [b n] (Hl & Hs & Hn). cbn [buf fill] in *. unfold ctc_dec, ctc_enc. cbn [buf fill].
  assert (Hn8 : (N.of_nat n < 2 ^ 8)%N).
  { assert (2 ^ cwidth W <= 2 ^ 8) by (apply Nat.pow_le_mono_r; lia). change (2 ^ 8) with 256 in *.
    change (2 ^ 8)%N with 256%N. lia. }
  f_equal.
  - rewrite lor_high by exact Hn8. rewrite <- Hl. apply unpack9_pack9. exact Hs.
  - change 255%N with (N.ones 8). rewrite lor_low by exact Hn8. apply Nat2N.id.
Qed.

Lemma ctc_wf_step : forall W st i, ctc_wf W st -> ctc_wf W (fst (ctc_mstep W st i)).
Proof.
  intros W [b n] i (Hl & Hs & Hn). unfold ctc_mstep, ctc_step. cbn [fst]. unfold ctc_next, ctc_wf.
  cbn [buf fill] in *.
  set (d := ctc_din W i). assert (Hd : Forall sym_ok (isyms d)) by apply syms_of_ok.
  pose proof (cwidth_pos W) as Hpos.
  destruct (iv d && ctc_in_ready W {| buf := b; fill := n |}).
  - repeat split.
    + rewrite skipn_length, app_length. lia.
    + apply Forall_skipn. apply Forall_app. split; [exact Hs | apply keep_ok; exact Hd].
    + apply Nat.mod_upper_bound. lia.
  - repeat split; try assumption.
    destruct (ctc_out_valid W {| buf := b; fill := n |} && ir d); cbn [fill]; lia.
Qed.

Lemma ctc_cw4 : cwidth 4 <= 8.
Proof. vm_compute. repeat constructor. Qed.
