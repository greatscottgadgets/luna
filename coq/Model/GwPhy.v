(* C25 -- code-shaped models of the gateware full-speed PHY (luna/gateware/interface/gateware_phy):
     transmitter.py  TxShifter, TxBitstuffer, TxNRZIEncoder, TxPipeline  +  phy.py (strobe counter, op-mode mux)
     receiver.py     RxClockDataRecovery, RxNRZIDecoder, RxPacketDetect, RxBitstuffRemover, RxShifter,
                     RxPipeline up to the write ports of its two clock-domain-crossing FIFOs
   Definitions only.  One step of the two-clock machines is one usb_io (48 MHz) cycle; the usb (12 MHz)
   registers move only in steps whose tick_usb input bit is set.

   The models are the PROPERTY-SATISFYING behaviour.  They differ from the tree as found (before 00613d0, 258a454,
   c549349) in exactly the places listed in findings/C25-{opmode-encodings,tx-bitstuffer-reset,rx-error-pulse}.diff
   (the fourth, C25-pulldown-wiring.diff / f2959f9, is wiring that GwPhyTie.pulls_mon checks):
     - op_mode 1 = non-driving, 2 = no bit-stuffing/NRZI (UTMI encodings);
     - the transmit bit stuffer is restarted with the shifter at the end of SYNC;
     - a receive bit-stuffing error inside a packet is held until the next packet starts.
   Faithfully modelled quirks that do not violate the property are commented where they occur. *)
From Coq Require Import NArith List Bool.
Import ListNotations.
From LunaLib Require Import Netlist.
From LunaModel Require Import GwPhyCodec.
Open Scope N_scope.

Definition nb (x : N) : bool := negb (N.eqb x 0).          (* 1-bit word -> bool *)
Definition bit0 (x : N) : bool := N.odd x.

(* ================================================================================================ *)
(* 1. Transmit path                                                                                 *)
(* ================================================================================================ *)

(* ---- 1.1 TxShifter(width W): usb domain ---- *)
Record txsh := { sh_reg : N; sh_pos : N; sh_get : bool }.
Definition txsh_init : txsh := {| sh_reg := 0; sh_pos := 1; sh_get := false |}.
Definition txsh_empty (s : txsh) : bool := bit0 (sh_pos s).
Definition txsh_data (s : txsh) : bool := bit0 (sh_reg s).
(* i_enable: shift / reload when empty;  i_clear (assigned last, wins): shifter := 0, pos := 1 *)
Definition txsh_next (W : N) (s : txsh) (data : N) (enable clear : bool) : txsh :=
  let e := txsh_empty s in
  let r1 := if enable then (if e then data mod 2 ^ W else sh_reg s / 2) else sh_reg s in
  let p1 := if enable then (if e then 2 ^ (W - 1) else sh_pos s / 2) else sh_pos s in
  {| sh_reg := if clear then 0 else r1;
     sh_pos := if clear then 1 else p1;
     sh_get := if enable then e else sh_get s |}.

(* ---- 1.2 TxBitstuffer: usb domain; state = number of consecutive ones seen (D0..D6) ---- *)
Definition txbs_stall (c : N) : bool := N.eqb c 6.
Definition txbs_will_stall (c : N) (d : bool) : bool := N.eqb c 5 && d.
Definition txbs_next (c : N) (d : bool) : N :=
  if N.eqb c 6 then 0 else if d then c + 1 else 0.

(* ---- 1.3 TxNRZIEncoder: usb_io domain ---- *)
Inductive nzst := NzIdle | NzDJ | NzDK | NzSE0A | NzSE0B | NzEOPJ.
(* (usbp, usbn, oe) driven combinationally by the state; registered once more on the way out *)
Definition nz_out (q : nzst) : bool * bool * bool :=
  match q with
  | NzIdle => (true, false, false)
  | NzDJ => (true, false, true)
  | NzDK => (false, true, true)
  | NzSE0A | NzSE0B => (false, false, true)
  | NzEOPJ => (true, false, true)
  end.
Definition nz_next (q : nzst) (valid oe data : bool) : nzst :=
  if valid then
    match q with
    | NzIdle => if oe then NzDK else NzIdle
    | NzDJ => if negb oe then NzSE0A else if data then NzDJ else NzDK
    | NzDK => if negb oe then NzSE0A else if data then NzDK else NzDJ
    | NzSE0A => NzSE0B
    | NzSE0B => NzEOPJ
    | NzEOPJ => NzIdle
    end
  else q.

(* ---- 1.4 TxPipeline, usb-domain half ---- *)
Inductive txfsm := TxIdle | TxSync | TxData | TxLast.
Record txu := { u_fsm : txfsm; u_sp : N (* sync_pulse, 8 bits *); u_gray : N (* state_gray, 2 bits *);
                u_sh : txsh; u_bs : N }.
Definition txu_init : txu := {| u_fsm := TxIdle; u_sp := 0; u_gray := 0; u_sh := txsh_init; u_bs := 0 |}.

Definition u_state_data (s : txu) : bool := N.eqb (u_gray s) 3.
Definition u_state_sync (s : txu) : bool := N.eqb (u_gray s) 1.
Definition u_stall (s : txu) : bool := txbs_stall (u_bs s).
Definition u_fit_oe (s : txu) : bool := u_state_data s || u_state_sync s.
Definition u_fit_dat (s : txu) : bool :=
  (u_state_data s && txsh_data (u_sh s) && negb (u_stall s)) || bit0 (u_sp s).
Definition u_ready (s : txu) (oe : bool) : bool :=
  u_state_data s && sh_get (u_sh s) && negb (u_stall s) && oe.

(* one usb clock edge; W = shifter width (8 in LUNA) *)
Definition txu_next (W : N) (s : txu) (data : N) (oe : bool) : txu :=
  let stall := u_stall s in
  let empty := txsh_empty (u_sh s) in
  let d := txsh_data (u_sh s) in
  let sp_reset := N.testbit (u_sp s) 1 in                 (* sp_reset_shifter = sync_pulse[1] *)
  let sh' := txsh_next W (u_sh s) data (negb stall) sp_reset in
  (* the stuffer restarts together with the shifter (findings/C25-tx-bitstuffer-reset.diff) *)
  let bs' := if sp_reset then 0 else txbs_next (u_bs s) d in
  match u_fsm s with
  | TxIdle =>
      if oe then {| u_fsm := TxSync; u_sp := 128; u_gray := 1; u_sh := sh'; u_bs := bs' |}
      else {| u_fsm := TxIdle; u_sp := u_sp s; u_gray := 0; u_sh := sh'; u_bs := bs' |}
  | TxSync =>
      if bit0 (u_sp s) then {| u_fsm := TxData; u_sp := u_sp s / 2; u_gray := 3; u_sh := sh'; u_bs := bs' |}
      else {| u_fsm := TxSync; u_sp := u_sp s / 2; u_gray := 1; u_sh := sh'; u_bs := bs' |}
  | TxData =>
      if negb oe && empty && negb stall then
        if txbs_will_stall (u_bs s) d
        then {| u_fsm := TxLast; u_sp := u_sp s; u_gray := u_gray s; u_sh := sh'; u_bs := bs' |}
        else {| u_fsm := TxIdle; u_sp := u_sp s; u_gray := 2; u_sh := sh'; u_bs := bs' |}
      else {| u_fsm := TxData; u_sp := u_sp s; u_gray := 3; u_sh := sh'; u_bs := bs' |}
  | TxLast => {| u_fsm := TxIdle; u_sp := u_sp s; u_gray := 2; u_sh := sh'; u_bs := bs' |}
  end.

(* ---- 1.5 usb_io half: two 3-stage synchronisers, strobe counter (phy.py), NRZI encoder + output registers ---- *)
Record txio := { c_d0 : bool; c_d1 : bool; c_d2 : bool;       (* fit_dat -> nrzi_dat *)
                 c_e0 : bool; c_e1 : bool; c_e2 : bool;       (* fit_oe  -> nrzi_oe  *)
                 c_nz : nzst; c_p : bool; c_n : bool; c_oe : bool;   (* o_usbp, o_usbn, o_oe *)
                 c_ctr : N }.
Definition txio_init : txio :=
  {| c_d0 := false; c_d1 := false; c_d2 := false; c_e0 := false; c_e1 := false; c_e2 := false;
     c_nz := NzIdle; c_p := false; c_n := false; c_oe := false; c_ctr := 0 |}.
Definition txio_next (s : txio) (fit_dat fit_oe : bool) : txio :=
  let strobe := N.eqb (c_ctr s) 0 in
  let '(p, n, oe) := nz_out (c_nz s) in
  {| c_d0 := fit_dat; c_d1 := c_d0 s; c_d2 := c_d1 s;
     c_e0 := fit_oe; c_e1 := c_e0 s; c_e2 := c_e1 s;
     c_nz := nz_next (c_nz s) strobe (c_e2 s) (c_d2 s);
     c_p := p; c_n := n; c_oe := oe;
     c_ctr := (c_ctr s + 1) mod 4 |}.

(* ---- 1.6 GatewarePHY transmit side.  Input word: tx_data[0..7] tx_valid[8] op_mode[9..10]
        tick_usb_io[11] tick_usb[12];  output word: dp_o dn_o dp_oe dn_oe tx_ready ---- *)
Record txs := { x_u : txu; x_io : txio }.
Definition txs_init : txs := {| x_u := txu_init; x_io := txio_init |}.

Definition tx_out (dp dn oe rdy : bool) : N :=
  b2n dp + 2 * b2n dn + 4 * b2n oe + 8 * b2n oe + 16 * b2n rdy.

Definition tx_step (W : N) (s : txs) (i : N) : txs * N :=
  let data := bits i 0 8 in
  let valid := nb (bits i 8 1) in
  let mode := bits i 9 2 in
  let tick_io := nb (bits i 11 1) in
  let tick_usb := nb (bits i 12 1) in
  let normal := N.eqb mode 0 in
  let p_data := if normal then data else 0 in          (* transmitter inputs are only driven in normal mode *)
  let p_oe := normal && valid in
  let u := x_u s in let c := x_io s in
  let out :=
    if normal then tx_out (c_p c) (c_n c) (c_oe c) (u_ready u p_oe)
    else if N.eqb mode 2 then tx_out (bit0 data) (negb (bit0 data)) valid false
    else 0 in
  let u' := if tick_usb then txu_next W u p_data p_oe else u in
  let c' := if tick_io then txio_next c (u_fit_dat u) (u_fit_oe u) else c in
  ({| x_u := u'; x_io := c' |}, out).

(* ================================================================================================ *)
(* 2. Receive path (usb_io domain up to the FIFO write ports)                                       *)
(* ================================================================================================ *)

(* ---- 2.1 RxClockDataRecovery.  NOTE the state names follow the code, whose `dpair = Cat(sync_dp, sync_dn)`
        makes its "DJ" state the one with D+ low / D- high (a full-speed K) and its "DK" the idle level; the
        NRZI decoder only looks at changes, so the swap is harmless and is modelled as it is. ---- *)
Inductive cdrst := CdT | CdJ | CdK | Cd0 | Cd1.
Record cdr := { k_p0 : bool; k_p1 : bool; k_n0 : bool; k_n1 : bool;     (* two 2-stage synchronisers *)
                k_fsm : cdrst; k_phase : N; k_valid : bool;
                k_se0 : bool; k_se1 : bool; k_dj : bool; k_dk : bool }.
Definition cdr_init : cdr :=
  {| k_p0 := false; k_p1 := false; k_n0 := false; k_n1 := false; k_fsm := CdT; k_phase := 0; k_valid := false;
     k_se0 := false; k_se1 := false; k_dj := false; k_dk := false |}.
(* state selected by the synchronised pair (dp, dn) *)
Definition cdr_of_pair (dp dn : bool) : cdrst :=
  match dp, dn with
  | false, true => CdJ          (* dpair = 0b10 *)
  | true, false => CdK          (* dpair = 0b01 *)
  | false, false => Cd0
  | true, true => Cd1
  end.
Definition cdrst_eqb (a b : cdrst) : bool :=
  match a, b with CdT, CdT | CdJ, CdJ | CdK, CdK | Cd0, Cd0 | Cd1, Cd1 => true | _, _ => false end.
Definition cdr_next (s : cdr) (dp dn : bool) : cdr :=
  let tgt := cdr_of_pair (k_p1 s) (k_n1 s) in
  let in_t := cdrst_eqb (k_fsm s) CdT in
  {| k_p0 := dp; k_p1 := k_p0 s; k_n0 := dn; k_n1 := k_n0 s;
     k_fsm := if in_t then tgt else if cdrst_eqb (k_fsm s) tgt then k_fsm s else CdT;
     k_phase := if in_t then 0 else (k_phase s + 1) mod 4;
     k_valid := if in_t then false else N.eqb (k_phase s) 1;
     k_se0 := cdrst_eqb (k_fsm s) Cd0; k_se1 := cdrst_eqb (k_fsm s) Cd1;
     k_dj := cdrst_eqb (k_fsm s) CdJ; k_dk := cdrst_eqb (k_fsm s) CdK |}.

(* ---- 2.2 RxNRZIDecoder ---- *)
Record rxnz := { z_last : bool; z_data : bool; z_se0 : bool; z_valid : bool }.
Definition rxnz_init : rxnz := {| z_last := false; z_data := false; z_se0 := false; z_valid := false |}.
Definition rxnz_next (s : rxnz) (valid dj dk : bool) : rxnz :=
  if valid then {| z_last := dk; z_data := negb (xorb dk (z_last s)); z_se0 := negb dj && negb dk; z_valid := true |}
  else {| z_last := z_last s; z_data := z_data s; z_se0 := z_se0 s; z_valid := false |}.

(* ---- 2.3 RxPacketDetect: states D0..D5 = 0..5, PKT_ACTIVE = 6; outputs are combinational ---- *)
Definition det_start (q : N) (valid data se0 : bool) : bool := N.eqb q 5 && valid && negb se0 && data.
Definition det_end (q : N) (valid se0 : bool) : bool := N.eqb q 6 && valid && se0.
Definition det_active (q : N) (valid se0 : bool) : bool := N.eqb q 6 && negb (valid && se0).
Definition det_next (q : N) (valid data se0 : bool) : N :=
  if valid then
    if N.eqb q 6 then (if se0 then 0 else 6)
    else if N.eqb q 5 then (if se0 then 0 else if data then 6 else 5)
    else if data || se0 then 0 else q + 1
  else q.

(* ---- 2.4 RxBitstuffRemover.  The ResetInserter(~pkt_active) around it in RxPipeline names no clock domain and
        therefore resets nothing: the remover runs all the time.  After a SYNC it has seen exactly one 1, so
        inside a packet it implements USB 2.0's rule (SYNC's last 1 counts). ---- *)
Record rxbs := { b_cnt : N; b_data : bool; b_stall : bool; b_error : bool }.
Definition rxbs_init : rxbs := {| b_cnt := 0; b_data := false; b_stall := true; b_error := false |}.
Definition rxbs_next (s : rxbs) (valid data : bool) : rxbs :=
  let drop := N.eqb (b_cnt s) 6 && valid in
  {| b_cnt := if valid then (if N.eqb (b_cnt s) 6 then 0 else if data then b_cnt s + 1 else 0) else b_cnt s;
     b_data := data; b_stall := drop || negb valid; b_error := drop && data && valid |}.

(* ---- 2.5 RxShifter(width W): W+1-bit register with a marker bit ---- *)
Record rxsh := { r_reg : N; r_put : bool }.
Definition rxsh_init : rxsh := {| r_reg := 1; r_put := false |}.
Definition rxsh_next (W : N) (s : rxsh) (reset valid data : bool) : rxsh :=
  let full := N.testbit (r_reg s) W in
  {| r_reg := if valid then (if full then b2n data + 2 else (b2n data + 2 * (r_reg s mod 2 ^ W)))
              else if reset then 1 else r_reg s;
     r_put := N.testbit (r_reg s) (W - 1) && negb full && valid |}.
(* o_data[::-1] for W = 8 *)
Definition rev8 (x : N) : N :=
  b2n (N.testbit x 7) + 2 * b2n (N.testbit x 6) + 4 * b2n (N.testbit x 5) + 8 * b2n (N.testbit x 4)
  + 16 * b2n (N.testbit x 3) + 32 * b2n (N.testbit x 2) + 64 * b2n (N.testbit x 1) + 128 * b2n (N.testbit x 0).

(* ---- 2.6 RxPipeline front end.  Input word: i_usbp[0] i_usbn[1];
        output word: payload w_en[0] w_data[1..8], flags w_en[9] w_data[10..11] (bit 0 = end, bit 1 = start),
        receive_error[12], bit_strobe[13] ---- *)
Record rxf := { f_cdr : cdr; f_nz : rxnz; f_det : N; f_bs : rxbs; f_sh : rxsh; f_past : bool; f_err : bool }.
Definition rxf_init : rxf :=
  {| f_cdr := cdr_init; f_nz := rxnz_init; f_det := 0; f_bs := rxbs_init; f_sh := rxsh_init;
     f_past := false; f_err := false |}.

Definition rxf_out (s : rxf) : N :=
  let z := f_nz s in
  let st := det_start (f_det s) (z_valid z) (z_data z) (z_se0 z) in
  let en := det_end (f_det s) (z_valid z) (z_se0 z) in
  b2n (r_put (f_sh s)) + 2 * rev8 (r_reg (f_sh s) mod 256) + 512 * b2n (st || en) + 1024 * b2n en + 2048 * b2n st
  + 4096 * b2n (f_err s) + 8192 * b2n (k_valid (f_cdr s)).

Definition rxf_next (s : rxf) (dp dn : bool) : rxf :=
  let k := f_cdr s in let z := f_nz s in let b := f_bs s in
  let st := det_start (f_det s) (z_valid z) (z_data z) (z_se0 z) in
  let en := det_end (f_det s) (z_valid z) (z_se0 z) in
  let act := det_active (f_det s) (z_valid z) (z_se0 z) in
  {| f_cdr := cdr_next k dp dn;
     f_nz := rxnz_next z (k_valid k) (k_dj k) (k_dk k);
     f_det := det_next (f_det s) (z_valid z) (z_data z) (z_se0 z);
     f_bs := rxbs_next b (z_valid z) (z_data z);
     f_sh := rxsh_next 8 (f_sh s) en (negb (b_stall b) && f_past s) (b_data b);
     f_past := act;
     (* held until the next packet starts (findings/C25-rx-error-pulse.diff) *)
     f_err := if st then false else if b_error b && f_past s then true else f_err s |}.

Definition rxf_step (s : rxf) (i : N) : rxf * N :=
  (rxf_next s (nb (bits i 0 1)) (nb (bits i 1 1)), rxf_out s).

(* ================================================================================================ *)
(* 3. Environments, abstractions and observation functions used by the theorems                     *)
(* ================================================================================================ *)

(* ---- 3.1 UTMI transmit driver in closed loop with the usb-domain half (one element per usb cycle).
        q = bytes still to be handed over (head = byte on tx_data, tx_valid = q is non-empty); the driver moves to
        the next byte after a cycle with tx_ready.  g = what is on tx_data while tx_valid = 0 (arbitrary); its
        length is the number of cycles. ---- *)
Definition drv_oe (q : list N) : bool := match q with [] => false | _ => true end.
Definition drv_data (q : list N) (gd : N) : N := match q with [] => gd | b :: _ => b end.

(* (fit_dat, fit_oe, tx_ready) per cycle *)
Fixpoint tx_loop (W : N) (s : txu) (q : list N) (g : list N) : list (bool * bool * bool) :=
  match g with
  | [] => []
  | gd :: g' =>
      let oe := drv_oe q in
      let r := u_ready s oe in
      (u_fit_dat s, u_fit_oe s, r) :: tx_loop W (txu_next W s (drv_data q gd) oe) (if r then tl q else q) g'
  end.
(* state and bytes left after the loop *)
Fixpoint tx_loop_end (W : N) (s : txu) (q : list N) (g : list N) : txu * list N :=
  match g with
  | [] => (s, q)
  | gd :: g' =>
      let oe := drv_oe q in
      tx_loop_end W (txu_next W s (drv_data q gd) oe) (if u_ready s oe then tl q else q) g'
  end.
(* the (tx_data, tx_valid) history the driver produced *)
Fixpoint tx_loop_in (W : N) (s : txu) (q : list N) (g : list N) : list (N * bool) :=
  match g with
  | [] => []
  | gd :: g' =>
      let oe := drv_oe q in
      (drv_data q gd, oe) :: tx_loop_in W (txu_next W s (drv_data q gd) oe) (if u_ready s oe then tl q else q) g'
  end.

(* between packets: FSM idle, SYNC generator empty, not in the data or sync phase; the shifter and the stuffer
   free-run on whatever is on tx_data, so nothing is assumed about them beyond their ranges *)
Definition onehot8 (p : N) : bool :=
  N.eqb p 1 || N.eqb p 2 || N.eqb p 4 || N.eqb p 8 || N.eqb p 16 || N.eqb p 32 || N.eqb p 64 || N.eqb p 128.
Definition txu_quiet (s : txu) : Prop :=
  u_fsm s = TxIdle /\ u_sp s = 0 /\ (u_gray s = 0 \/ u_gray s = 2) /\
  onehot8 (sh_pos (u_sh s)) = true /\ sh_reg (u_sh s) < 256 /\ u_bs s <= 6.

(* ---- 3.2 the usb_io half driven by a (fit_dat, fit_oe) value per usb_io step ---- *)
Fixpoint txio_run (c : txio) (fits : list (bool * bool)) : list (bool * bool * bool) :=
  match fits with
  | [] => []
  | (d, e) :: t => (c_p c, c_n c, c_oe c) :: txio_run (txio_next c d e) t
  end.
(* the NRZI encoder's state after each strobe, one (fit_dat, fit_oe) per strobe *)
Fixpoint nz_states (q : nzst) (fits : list (bool * bool)) : list nzst :=
  match fits with
  | [] => []
  | (d, e) :: t => let q' := nz_next q true e d in q' :: nz_states q' t
  end.
(* line level driven for a symbol *)
Definition sym_drive (s : sym) : bool * bool * bool :=
  match s with SJ => (true, false, true) | SK => (false, true, true) | S0 => (false, false, true) | S1 => (true, true, true) end.
Definition line_idle : bool * bool * bool := (true, false, false).       (* not driven *)
Definition rep4 {A} (l : list A) : list A := flat_map (fun x => [x; x; x; x]) l.

(* ---- 3.3 input words of the two-clock transmit machine: cycle-0 word once, then every usb cycle four times;
        tick_usb_io in every step, tick_usb in steps 0, 4, 8, ... ---- *)
Definition tx_word (data : N) (valid : bool) (mode : N) (tick_usb : bool) : N :=
  data mod 256 + 256 * b2n valid + 512 * (mode mod 4) + 2048 + 4096 * b2n tick_usb.
Definition tx_words4 (mode : N) (dv : N * bool) : list N :=
  let w := tx_word (fst dv) (snd dv) mode in [w false; w false; w false; w true].
Definition tx_trace (mode : N) (u : list (N * bool)) : list N :=
  match u with
  | [] => []
  | dv :: t => tx_word (fst dv) (snd dv) mode true :: flat_map (tx_words4 mode) t
  end.
(* observation: (dp_o, dn_o, oe) and tx_ready of an output word *)
Definition tx_line_of (o : N) : bool * bool * bool := (N.testbit o 0, N.testbit o 1, N.testbit o 2).
Definition tx_ready_of (o : N) : bool := N.testbit o 4.

(* ---- 3.4 receive: bit-level abstraction of the front end (one step per recovered line symbol) ---- *)
Inductive rxev := EvStart | EvByte (b : N) | EvEnd.
Record rxb := { a_last : bool; a_det : N; a_cnt : N; a_reg : N; a_err : bool }.
(* the code's (dj, dk) for a line symbol: its "dk" is the idle level J *)
Definition sym_dj (s : sym) : bool := match s with SK => true | _ => false end.
Definition sym_dk (s : sym) : bool := match s with SJ => true | _ => false end.
Definition rxb_step (s : rxb) (y : sym) : rxb * list rxev :=
  let dj := sym_dj y in let dk := sym_dk y in
  let data := negb (xorb dk (a_last s)) in
  let se0 := negb dj && negb dk in
  let st := det_start (a_det s) true data se0 in
  let en := det_end (a_det s) true se0 in
  let act := det_active (a_det s) true se0 in
  let drop := N.eqb (a_cnt s) 6 in
  let shift := negb drop && act in
  let full := N.testbit (a_reg s) 8 in
  let reg1 := if shift then (if full then b2n data + 2 else b2n data + 2 * (a_reg s mod 256)) else a_reg s in
  let put := N.testbit (a_reg s) 7 && negb full && shift in
  ({| a_last := dk;
      a_det := det_next (a_det s) true data se0;
      a_cnt := if drop then 0 else if data then a_cnt s + 1 else 0;
      a_reg := if en then 1 else reg1;
      a_err := if st then false else if drop && data && act then true else a_err s |},
   (if st then [EvStart] else []) ++ (if put then [EvByte (rev8 (reg1 mod 256))] else []) ++ (if en then [EvEnd] else [])).
Fixpoint rxb_run (s : rxb) (l : list sym) : rxb * list rxev :=
  match l with
  | [] => (s, [])
  | y :: t => let (s1, e1) := rxb_step s y in let (s2, e2) := rxb_run s1 t in (s2, e1 ++ e2)
  end.
(* bus idle: last level J, detector waiting, shifter empty, no error pending; the remover's count is arbitrary *)
Definition rxb_idle (s : rxb) : Prop :=
  a_last s = true /\ a_det s = 0 /\ a_cnt s <= 6 /\ a_reg s = 1 /\ a_err s = false.

(* events written into the two FIFOs in one usb_io cycle, decoded from the front end's output word *)
Definition rxf_events (o : N) : list rxev :=
  (if N.testbit o 9 && N.testbit o 11 then [EvStart] else []) ++
  (if N.testbit o 0 then [EvByte (bits o 1 8)] else []) ++
  (if N.testbit o 9 && N.testbit o 10 then [EvEnd] else []).
Definition rxf_err_of (o : N) : bool := N.testbit o 12.
Definition line_word (s : sym) : N :=
  match s with SJ => 1 | SK => 2 | S0 => 0 | S1 => 3 end.      (* i_usbp + 2 * i_usbn *)

(* ---- 3.5 the front end "locked" on an ideally (4x) sampled line: the cycle in which the strobe for symbol sk is
        visible (k_valid), the synchronisers already hold two samples of the next symbol sk1, and everything behind
        the clock recovery is at rest in the condition described by the bit-level state b ---- *)
Definition sym_dp (s : sym) : bool := match s with SJ | S1 => true | _ => false end.
Definition sym_dn (s : sym) : bool := match s with SK | S1 => true | _ => false end.
Definition cdr_of_sym (s : sym) : cdrst := cdr_of_pair (sym_dp s) (sym_dn s).
Definition rxf_simb (s : rxf) (sk sk1 : sym) (b : rxb) : bool :=
  let k := f_cdr s in
  Bool.eqb (k_p0 k) (sym_dp sk1) && Bool.eqb (k_p1 k) (sym_dp sk1) &&
  Bool.eqb (k_n0 k) (sym_dn sk1) && Bool.eqb (k_n1 k) (sym_dn sk1) &&
  cdrst_eqb (k_fsm k) (cdr_of_sym sk) && N.eqb (k_phase k) 2 && k_valid k &&
  Bool.eqb (k_se0 k) (cdrst_eqb (cdr_of_sym sk) Cd0) && Bool.eqb (k_se1 k) (cdrst_eqb (cdr_of_sym sk) Cd1) &&
  Bool.eqb (k_dj k) (sym_dj sk) && Bool.eqb (k_dk k) (sym_dk sk) &&
  Bool.eqb (z_last (f_nz s)) (a_last b) && negb (z_valid (f_nz s)) &&
  N.eqb (f_det s) (a_det b) &&
  N.eqb (b_cnt (f_bs s)) (a_cnt b) && b_stall (f_bs s) && negb (b_error (f_bs s)) &&
  N.eqb (r_reg (f_sh s)) (a_reg b) && negb (r_put (f_sh s)) &&
  Bool.eqb (f_past s) (N.eqb (a_det b) 6) && Bool.eqb (f_err s) (a_err b).

(* ---- 3.6 observation helpers and sessions ---- *)
Definition fit_of (x : bool * bool * bool) : bool * bool := (fst (fst x), snd (fst x)).
Definition rdy_of (x : bool * bool * bool) : bool := snd x.

(* a transmit session: phases (bytes, g); in each phase the driver hands over `bytes` (none = stay idle) and the
   phase lasts length g usb cycles (g = tx_data while tx_valid = 0) *)
Fixpoint tx_session_in (W : N) (s : txu) (ph : list (list N * list N)) : list (N * bool) :=
  match ph with
  | [] => []
  | (bs, g) :: t => tx_loop_in W s bs g ++ tx_session_in W (fst (tx_loop_end W s bs g)) t
  end.
(* what the line must show during a phase of n usb cycles, one entry per bit time *)
Definition phase_line (bs : list N) (n : nat) : list (bool * bool * bool) :=
  match bs with
  | [] => repeat line_idle n
  | _ => let f := frame0 bs in line_idle :: map sym_drive f ++ repeat line_idle (n - 1 - length f)
  end.
Definition phase_ok (p : list N * list N) : Prop :=
  Forall (fun b => b < 256) (fst p) /\ (fst p <> [] -> (1 + length (frame0 (fst p)) <= length (snd p))%nat).

(* error flag after each recovered symbol *)
Fixpoint rxb_errs (s : rxb) (l : list sym) : list bool :=
  match l with
  | [] => []
  | y :: t => let s1 := fst (rxb_step s y) in a_err s1 :: rxb_errs s1 t
  end.
Definition rxb_idle_c (c : N) : rxb := {| a_last := true; a_det := 0; a_cnt := c; a_reg := 1; a_err := false |}.
