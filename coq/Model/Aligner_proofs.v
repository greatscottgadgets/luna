(* C34 -- proofs about the word-aligner model (Model/Aligner.v; every W >= 1, every criteria, unbounded traces):
   which offset is chosen and what word is presented (al_match_word, al_no_match, al_invalid), and that while the
   offset is unchanged the output words are a contiguous regrouping of the input symbol stream (al_regroup);
   al_align_on_com puts these together for the COM criteria. *)
From Coq Require Import NArith List Arith Lia.
Import ListNotations.
From LunaLib Require Import Netlist Machine SymWord ListFacts.
From LunaModel Require Import Aligner.
Open Scope nat_scope.

Section AlignerProofs.
  Variable W : nat.
  Variable crit : list N -> bool.

  Lemma last_match_some : forall cat n j, last_match W crit cat n = Some j ->
    j < n /\ crit (window W j cat) = true /\ (forall j', j < j' < n -> crit (window W j' cat) = false).
  Proof.
    intros cat. induction n as [|n IH]; intros j H; [discriminate|]. cbn [last_match] in H.
    destruct (crit (window W n cat)) eqn:E.
    - inversion H; subst. repeat split; [lia | exact E | intros; lia].
    - destruct (IH j H) as (H1 & H2 & H3). repeat split; [lia | exact H2|].
      intros j' Hj. destruct (Nat.eq_dec j' n) as [->|]; [exact E | apply H3; lia].
  Qed.

  Lemma last_match_none : forall cat n, last_match W crit cat n = None ->
    forall j, j < n -> crit (window W j cat) = false.
  Proof.
    intros cat. induction n as [|n IH]; intros H j Hj; [lia|]. cbn [last_match] in H.
    destruct (crit (window W n cat)) eqn:E; [discriminate|].
    destruct (Nat.eq_dec j n) as [->|]; [exact E | apply IH; [exact H | lia]].
  Qed.

  Lemma last_match_found : forall cat n j, j < n -> crit (window W j cat) = true ->
    (forall j', j < j' < n -> crit (window W j' cat) = false) -> last_match W crit cat n = Some j.
  Proof.
    intros cat. induction n as [|n IH]; intros j Hj Hc Hn; [lia|]. cbn [last_match].
    destruct (Nat.eq_dec j n) as [->|Hne]; [rewrite Hc; reflexivity|].
    rewrite (Hn n) by lia. apply IH; [lia | exact Hc | intros; apply Hn; lia].
  Qed.

  Lemma last_match_missing : forall cat n, (forall j, j < n -> crit (window W j cat) = false) ->
    last_match W crit cat n = None.
  Proof.
    intros cat. induction n as [|n IH]; intros H; [reflexivity|]. cbn [last_match].
    rewrite (H n) by lia. apply IH. intros; apply H; lia.
  Qed.

  (* the highest offset j at which (previous ++ current) meets the criteria wins *)
  Theorem al_match_word : forall st i j, av i = true -> j < W ->
    crit (window W j (prev st ++ asyms i)) = true ->
    (forall j', j < j' < W -> crit (window W j' (prev st ++ asyms i)) = false) ->
    al_result W crit st i = {| rv := true; rword := window W j (prev st ++ asyms i); roff := j |} /\
    shift (al_next W crit st i) = j.
  Proof.
    intros st i j Hv Hj Hc Hn. unfold al_next, al_result, al_offset. cbn [shift]. rewrite Hv.
    rewrite (last_match_found _ _ _ Hj Hc Hn). split; reflexivity.
  Qed.

  Theorem al_no_match : forall st i, av i = true ->
    (forall j, j < W -> crit (window W j (prev st ++ asyms i)) = false) ->
    al_result W crit st i = {| rv := true; rword := window W (shift st) (prev st ++ asyms i); roff := shift st |} /\
    shift (al_next W crit st i) = shift st.
  Proof.
    intros st i Hv Hn. unfold al_next, al_result, al_offset. cbn [shift]. rewrite Hv.
    rewrite (last_match_missing _ _ Hn). split; reflexivity.
  Qed.

  Theorem al_invalid : forall st i, av i = false ->
    rv (al_result W crit st i) = false /\ roff (al_result W crit st i) = shift st /\
    prev (al_next W crit st i) = prev st /\ shift (al_next W crit st i) = shift st.
  Proof. intros st i Hv. unfold al_next, al_result, al_offset. cbn. rewrite Hv. repeat split. Qed.

  Lemma al_offset_lt : forall st i, shift st < W -> al_offset W crit st i < W.
  Proof.
    intros st i H. unfold al_offset. destruct (av i); [|exact H].
    destruct (last_match W crit (prev st ++ asyms i) W) as [j|] eqn:E; [|exact H].
    apply last_match_some in E. tauto.
  Qed.

  Theorem al_outputs_are_results : forall ins st x,
    trun (al_step W crit) st (ins ++ [x]) = oreg st :: al_results W crit st ins.
  Proof.
    induction ins as [|i t IH]; intros st x; [reflexivity|].
    cbn [app trun al_results]. unfold al_step at 1. rewrite IH. reflexivity.
  Qed.

  Lemma window_split : forall s P C R, length P = W -> length C = W -> s <= W ->
    skipn s (P ++ C ++ R) = window W s (P ++ C) ++ skipn s (C ++ R).
  Proof.
    intros s P C R HP HC Hs. unfold window.
    rewrite !skipn_app, HP, HC. replace (s - W) with 0 by lia. rewrite !skipn_O.
    rewrite firstn_app, skipn_length, HP. replace (W - (W - s)) with s by lia.
    rewrite (firstn_all2 (skipn s P)) by (rewrite skipn_length; lia).
    rewrite <- !app_assoc. f_equal. rewrite app_assoc, firstn_skipn. reflexivity.
  Qed.

  Lemma window_length : forall s P C, length P = W -> length C = W -> s <= W ->
    length (window W s (P ++ C)) = W.
  Proof. intros. unfold window. rewrite firstn_length, skipn_length, app_length. lia. Qed.

  Lemma al_out_stream_cons : forall r l,
    al_out_stream (r :: l) = (if rv r then rword r else []) ++ al_out_stream l.
  Proof. reflexivity. Qed.
  Lemma al_in_stream_cons : forall i l,
    al_in_stream (i :: l) = (if av i then asyms i else []) ++ al_in_stream l.
  Proof. reflexivity. Qed.
  Lemma al_nvalid_cons : forall i l, al_nvalid (i :: l) = (if av i then 1 else 0) + al_nvalid l.
  Proof. intros. unfold al_nvalid. cbn [filter]. destruct (av i); reflexivity. Qed.
  Lemma al_result_word : forall st i,
    rword (al_result W crit st i) = window W (roff (al_result W crit st i)) (prev st ++ asyms i).
  Proof. reflexivity. Qed.

  (* While alignment_offset stays s: a contiguous segment of "held previous word, then the valid input words",
     nothing lost, duplicated or reordered. *)
  Theorem al_regroup : forall s ins st, length (prev st) = W -> s <= W ->
    Forall (fun i => length (asyms i) = W) ins ->
    Forall (fun r => roff r = s) (al_results W crit st ins) ->
    al_out_stream (al_results W crit st ins)
    = firstn (W * al_nvalid ins) (skipn s (prev st ++ al_in_stream ins)).
  Proof.
    intros s. induction ins as [|i t IH]; intros st HP Hs HL HR.
    - cbn. rewrite Nat.mul_0_r. reflexivity.
    - apply Forall_cons_iff in HL. destruct HL as [Hi Ht]. cbn [al_results] in HR.
      apply Forall_cons_iff in HR. destruct HR as [Hr Hrt].
      cbn [al_results]. rewrite al_out_stream_cons, al_in_stream_cons, al_nvalid_cons.
      rewrite al_result_word, Hr.
      assert (HP' : length (prev (al_next W crit st i)) = W) by (cbn [al_next prev]; destruct (av i); assumption).
      rewrite (IH _ HP' Hs Ht Hrt). cbn [al_result rv al_next prev].
      destruct (av i).
      + rewrite (window_split s (prev st) (asyms i)) by assumption.
        replace (W * (1 + al_nvalid t)) with (length (window W s (prev st ++ asyms i)) + W * al_nvalid t)
          by (rewrite window_length by assumption; lia).
        rewrite firstn_app_2. reflexivity.
      + (* an invalid word contributes nothing and leaves the held word in place *)
        reflexivity.
  Qed.
End AlignerProofs.

Lemma word_eqb_eq : forall a b, word_eqb a b = true <-> a = b.
Proof. intros. unfold word_eqb. apply list_eqb_eq. Qed.

(* C34 for the COM criteria: COM^4 at offset j, not followed by a fifth COM-window, is presented as a whole word, and
   as long as the offset then stays j, everything that follows is the input stream regrouped at that offset. *)
Theorem al_align_on_com : forall st i mid j,
  length (prev st) = 4 -> length (asyms i) = 4 -> Forall (fun i => length (asyms i) = 4) mid ->
  av i = true -> j < 4 ->
  window 4 j (prev st ++ asyms i) = [COM; COM; COM; COM] ->
  (forall j', j < j' < 4 -> window 4 j' (prev st ++ asyms i) <> [COM; COM; COM; COM]) ->
  Forall (fun r => roff r = j) (al_results 4 crit_com (al_next 4 crit_com st i) mid) ->
  al_results 4 crit_com st (i :: mid)
    = {| rv := true; rword := [COM; COM; COM; COM]; roff := j |} :: al_results 4 crit_com (al_next 4 crit_com st i) mid
  /\ al_out_stream (al_results 4 crit_com st (i :: mid))
     = firstn (4 * S (al_nvalid mid)) (skipn j (prev st ++ asyms i ++ al_in_stream mid)).
Proof.
  intros st i mid j HP Hi Hmid Hv Hj Hw Hno Hoff.
  assert (Hc : crit_com (window 4 j (prev st ++ asyms i)) = true) by (unfold crit_com; apply word_eqb_eq; exact Hw).
  assert (Hn : forall j', j < j' < 4 -> crit_com (window 4 j' (prev st ++ asyms i)) = false).
  { intros j' Hj'. unfold crit_com. destruct (word_eqb _ _) eqn:E; [|reflexivity].
    apply word_eqb_eq in E. exfalso. exact (Hno j' Hj' E). }
  destruct (al_match_word 4 crit_com st i j Hv Hj Hc Hn) as [Hres Hsh]. split.
  - cbn [al_results]. rewrite Hres, Hw. reflexivity.
  - rewrite (al_regroup 4 crit_com j (i :: mid) st HP) ; [| lia | constructor; assumption |].
    + unfold al_nvalid, al_in_stream. cbn [filter map concat]. rewrite Hv. reflexivity.
    + cbn [al_results]. constructor; [rewrite Hres; reflexivity | exact Hoff].
Qed.

Lemma al_mrun : forall W crit tr st,
  run (al_mstep W crit) st tr = map (al_eout W) (trun (al_step W crit) st (map (al_din W) tr)).
Proof. intros. unfold al_mstep. apply (run_packed (al_step W crit) (al_din W) (al_eout W)). Qed.

Lemma al_din_len : forall W tr, Forall (fun i => length (asyms i) = W) (map (al_din W) tr).
Proof. intros. apply Forall_map. apply Forall_forall. intros i _. apply syms_of_length. Qed.

(* for the lock-step tie to the netlist (props/C34.py) *)
Definition al_wf (W : nat) (st : al_state) : Prop :=
  length (prev st) = W /\ Forall sym_ok (prev st) /\
  length (rword (oreg st)) = W /\ Forall sym_ok (rword (oreg st)) /\
  shift st < W /\ roff (oreg st) < W.

Lemma al_wf_init : forall W, 1 <= W -> al_wf W (al_init W).
Proof.
  intros W HW. unfold al_wf, al_init. cbn. rewrite !repeat_length.
  assert (Forall sym_ok (repeat 0%N W)) by (apply Forall_repeat; reflexivity).
  repeat split; assumption.
Qed.

Lemma two_words_tail : forall (p w t : list N) W, length p = W -> length w = W ->
  firstn W (p ++ w ++ t) = p /\ firstn W (skipn W (p ++ w ++ t)) = w /\
  forall k, nth (2 * W + k) (p ++ w ++ t) 0%N = nth k t 0%N.
Proof.
  intros p w t W Hp Hw.
  split; [apply firstn_app_l, Hp | split; [rewrite skipn_app_l by exact Hp; apply firstn_app_l, Hw|]].
  intro k. replace (2 * W + k) with (length p + (length w + k)) by lia.
  rewrite !app_nth2_plus. reflexivity.
Qed.

Lemma al_dec_enc : forall W, W <= 512 -> forall st, al_wf W st -> al_dec W (al_enc st) = st.
Proof.
  intros W HW [p s [v w o]] (Hp & Hps & Hw & Hws & Hs & Ho). cbn [prev shift oreg rv rword roff] in *.
  unfold al_dec, al_enc. cbn [prev shift oreg rv rword roff].
  set (t := [N.of_nat s; N.of_nat o; b2n v]).
  assert (HL : length (p ++ w ++ t) = 2 * W + 3) by (rewrite !app_length; cbn [length t]; lia).
  assert (HLok : Forall sym_ok (p ++ w ++ t)).
  { apply Forall_app. split; [exact Hps|]. apply Forall_app. split; [exact Hws|].
    repeat constructor; unfold sym_ok; [lia | lia | destruct v; reflexivity]. }
  rewrite <- HL, (unpack9_pack9 _ HLok).
  destruct (two_words_tail p w t W Hp Hw) as (E1 & E2 & En).
  pose proof (En 0) as N0. rewrite Nat.add_0_r in N0.
  rewrite E1, E2, N0, (En 1), (En 2). cbn [nth t]. rewrite !Nat2N.id, b2n_eqb1. reflexivity.
Qed.

Lemma al_wf_step : forall W crit st i, al_wf W st -> al_wf W (fst (al_mstep W crit st i)).
Proof.
  intros W crit st i (Hp & Hps & Hw & Hws & Hs & Ho). unfold al_mstep, al_step. cbn [fst].
  set (d := al_din W i).
  assert (Hd : length (asyms d) = W) by apply syms_of_length.
  assert (Hdo : Forall sym_ok (asyms d)) by apply syms_of_ok.
  pose proof (al_offset_lt W crit st d Hs) as Hoff.
  unfold al_wf, al_next, al_result. cbn [prev shift oreg rword roff].
  repeat split; try assumption.
  - destruct (av d); assumption.
  - destruct (av d); assumption.
  - apply window_length; try assumption; lia.
  - unfold window. apply Forall_firstn, Forall_skipn, Forall_app. split; assumption.
Qed.

(* the side conditions of al_dec_enc / al_wf_init at W = 4, as props/C34.py passes them *)
Lemma al_w4 : 4 <= 512. Proof. lia. Qed.
Lemma al_w4' : 1 <= 4. Proof. lia. Qed.
