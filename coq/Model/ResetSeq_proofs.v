(* C19 -- proofs about the USBResetSequencer model (Model/ResetSeq.v).
   rs_safe, rs_timeout, rs_all: every run of the model obeys the rules of Section Spec.  The run is followed
   by an invariant between the registers and the history h of the cycles so far (most recent first): the FSM
   state tells in which class (HS, FS/LS, chirp) the transceiver-control registers are, or are not (regs_ok); per
   FSM state, the timers are lower bounds of the streaks in h they count, and h witnesses how far the handshake has come
   (state_inv); the rules that look one or two cycles back hold of the cycle about to be appended (Inv).
   rule_safe_b_sound, rule_all_b_sound: the runtime oracle accepts only what the rules allow.  The lemmas about the
   N packing, for the lock-step obligation, are at the end. *)
From Coq Require Import NArith List Bool Lia.
Import ListNotations.
From LunaLib Require Import Netlist Machine PackN.
From LunaModel Require Import ResetSeq.
Open Scope N_scope.

Ltac split_ifs := repeat match goal with |- context [if ?b then _ else _] => destruct b end.

Lemma drop_0 : forall h, drop 0 h = h.
Proof. destruct h; reflexivity. Qed.

Lemma drop_succ : forall n c h, drop (n + 1) (c :: h) = drop n h.
Proof.
  intros. rewrite N.add_1_r. cbn [drop]. rewrite N.pred_succ.
  destruct (N.eqb_spec (N.succ n) 0) as [E|_]; [destruct (N.neq_succ_0 _ E) | reflexivity].
Qed.

Section Facts.
  Variable K : rs_consts.

  Lemma inc_le : forall x, inc K x <= x + 1.
  Proof. intro x. unfold inc. destruct (x + 1 <? 2 ^ tw K); [apply N.le_refl | apply N.le_0_l]. Qed.

  (* c_3ms fits the timers, so they count up to it without wrapping *)
  Lemma inc_small : forall x, x < c_3ms K -> inc K x = x + 1.
  Proof.
    intros x H. unfold inc, tw. destruct (N.ltb_spec (x + 1) (2 ^ N.size (c_3ms K))) as [_|E]; [reflexivity|].
    pose proof (N.size_gt (c_3ms K)). lia.
  Qed.

  Definition mkcyc (st : rs_state) (i : rs_in) : cyc := {| c_in := i; c_out := rs_outs K st i |}.

  (* register classes of a state, shaped like the observable classes hs_op, fs_ls_op, chirpmode of a cycle:
     hs_op (mkcyc st i) is r_hs st, and so on, by computation *)
  Definition r_hs (st : rs_state) : bool :=
    match speed st, opmode st, term st with HIGH, NORMAL, false => true | _, _, _ => false end.
  Definition r_fs (st : rs_state) : bool :=
    match speed st, opmode st, term st with FULL, NORMAL, true | LOW, NORMAL, true => true | _, _, _ => false end.
  Definition r_chirp (st : rs_state) : bool := match opmode st with CHIRP => true | _ => false end.

  Lemma r_fs_not_hs : forall st, r_fs st = true -> r_hs st = false.
  Proof. intro st. unfold r_fs, r_hs. destruct (speed st), (opmode st), (term st); congruence. Qed.
  Lemma r_fs_not_chirp : forall st, r_fs st = true -> r_chirp st = false.
  Proof. intro st. unfold r_fs, r_chirp. destruct (speed st), (opmode st), (term st); congruence. Qed.
  Lemma r_hs_not_chirp : forall st, r_hs st = true -> r_chirp st = false.
  Proof. intro st. unfold r_hs, r_chirp. destruct (speed st), (opmode st), (term st); congruence. Qed.
  Lemma r_chirp_not_hs : forall st, r_chirp st = true -> r_hs st = false.
  Proof. intro st. unfold r_hs, r_chirp. destruct (speed st), (opmode st), (term st); congruence. Qed.
  Lemma r_chirp_not_fs : forall st, r_chirp st = true -> r_fs st = false.
  Proof. intro st. unfold r_fs, r_chirp. destruct (speed st), (opmode st), (term st); congruence. Qed.
  Lemma r_fs_speed : forall st, r_fs st = true -> speed st <> HIGH.
  Proof. intro st. unfold r_fs. destruct (speed st); congruence. Qed.

  Lemma streak_step : forall P n c h (b : bool),
    n <= streak P h -> (b = true -> P c = true) ->
    (if b then inc K n else 0) <= streak P (c :: h).
  Proof.
    intros P n c h b H Hb. cbn [streak]. destruct b; [|apply N.le_0_l].
    rewrite (Hb eq_refl). pose proof (inc_le n). lia.
  Qed.

  Lemma streak_step_clr : forall P n c h (b : bool),
    n <= streak P h -> (b = false -> P c = true) ->
    (if b then 0 else inc K n) <= streak P (c :: h).
  Proof.
    intros P n c h b H Hb. rewrite <- if_negb. apply streak_step; [exact H|].
    intro E. apply Hb, negb_true_iff, E.
  Qed.

  Lemma hs_idle_ago_0 : forall u rest, hs_op u = true -> c_3ms K <= streak hs_idle rest -> hs_idle_ago K 0 (u :: rest).
  Proof. intros. unfold hs_idle_ago. rewrite drop_0. split; assumption. Qed.

  Lemma hs_idle_ago_cons : forall n c h, hs_idle_ago K n h -> hs_idle_ago K (n + 1) (c :: h).
  Proof. intros n c h H. unfold hs_idle_ago. rewrite drop_succ. exact H. Qed.

  (* The history up to the device chirp: a bus reset reported in cycle r while unrestricted, the cycle s of
     START_HS_DETECTION, then chirp-mode cycles g without tx.valid (pre_chirp); then the chirping cycles c (in_chirp). *)
  Definition pre_chirp (h : list cyc) : Prop :=
    exists g s r h0, h = g ++ s :: r :: h0
      /\ Forall (fun x => chirpmode x = true /\ txvalid x = false) g
      /\ chirpmode s = false /\ txvalid s = false /\ reset_out r = true /\ c_restricted r = false.

  Definition in_chirp (h : list cyc) : Prop :=
    exists c rest, h = c ++ rest /\ Forall (fun x => chirping x = true) c /\ pre_chirp rest.

  Lemma pre_chirp_start : forall s r h0, chirpmode s = false -> txvalid s = false ->
    reset_out r = true -> c_restricted r = false -> pre_chirp (s :: r :: h0).
  Proof. intros s r h0 Hs Ht Hr Hu. exists [], s, r, h0. repeat split; try assumption. constructor. Qed.

  Lemma pre_chirp_cons : forall c h, pre_chirp h -> chirpmode c = true -> txvalid c = false -> pre_chirp (c :: h).
  Proof.
    intros c h (g & s & r & h0 & -> & Hg & Hs) Hc Ht. exists (c :: g), s, r, h0.
    split; [reflexivity|]. split; [constructor; [split; assumption | exact Hg] | exact Hs].
  Qed.

  Lemma pre_chirp_listen : forall h, pre_chirp h -> listen h = None.
  Proof.
    intros h (g & s & r & h0 & -> & Hg & Hs & Ht & _).
    induction Hg as [|x g [Hx1 Hx2] _ IH]; cbn [app listen].
    - rewrite Ht, Hs. reflexivity.
    - rewrite Hx2, Hx1, IH. reflexivity.
  Qed.

  Lemma in_chirp_start : forall h, pre_chirp h -> in_chirp h.
  Proof. intros h H. exists [], h. split; [reflexivity|]. split; [constructor | exact H]. Qed.

  Lemma in_chirp_cons : forall x h, in_chirp h -> chirping x = true -> in_chirp (x :: h).
  Proof.
    intros x h (c & rest & -> & Hc & Hp) Hx. exists (x :: c), rest.
    split; [reflexivity|]. split; [constructor; assumption | exact Hp].
  Qed.

  Lemma in_chirp_done : forall x h, in_chirp h -> chirping x = true -> hsk K 0 (x :: h).
  Proof.
    intros x h (c & rest & -> & Hc & (g & s & r & h0 & -> & Hg & Hs & Ht & Hr & Hu)) Hx.
    apply (hsk_chirp K (x :: c)); [discriminate | constructor; assumption | | exact Hr | exact Hu].
    eapply Forall_impl; [|exact Hg]. intros a [Ha _]. exact Ha.
  Qed.

  Lemma hsk_app_wait : forall p s rest, Forall (fun x => chirpmode x = true) s -> hsk K p rest -> hsk K p (s ++ rest).
  Proof.
    intros p s rest Hs H. induction Hs as [|x s Hx _ IH]; [exact H|].
    apply hsk_wait; assumption.
  Qed.

  (* n cycles of the line state awaited in phase p have just been seen, after phase p was reached *)
  Definition hsk_in (p n : N) (h : list cyc) : Prop :=
    exists s rest, h = s ++ rest /\ n <= N.of_nat (length s)
      /\ Forall (fun x => chirpmode x = true /\ c_line x = line_of p) s /\ hsk K p rest.

  Lemma hsk_in_start : forall p c h, hsk K p h -> chirpmode c = true -> c_line c = line_of p -> hsk_in p 1 (c :: h).
  Proof.
    intros p c h H Hc Hl. exists [c], h. repeat split; [apply N.le_refl | | exact H].
    constructor; [split; assumption | constructor].
  Qed.

  (* n is the register lst, one behind the count: the cycle that sees the first of them clears it *)
  Lemma hsk_in_cons : forall p n c h, hsk_in p (n + 1) h -> chirpmode c = true -> c_line c = line_of p ->
    hsk_in p (inc K n + 1) (c :: h).
  Proof.
    intros p n c h (s & rest & -> & Hn & Hs & H) Hc Hl. exists (c :: s), rest.
    repeat split; [pose proof (inc_le n); cbn [length]; lia | | exact H].
    constructor; [split; assumption | exact Hs].
  Qed.

  Lemma hsk_in_done : forall p n c h, hsk_in p n h -> c_2p5us K <= n -> chirpmode c = true -> hsk K (p + 1) (c :: h).
  Proof.
    intros p n c h (s & rest & -> & Hn & Hs & H) Hd Hc. apply hsk_wait; [|exact Hc].
    apply hsk_state; [exact H | lia | exact Hs].
  Qed.

  Lemma hsk_in_abort : forall p n c h, hsk_in p n h -> chirpmode c = true -> hsk K p (c :: h).
  Proof.
    intros p n c h (s & rest & -> & Hn & Hs & H) Hc. apply hsk_wait; [|exact Hc]. apply hsk_app_wait; [|exact H].
    eapply Forall_impl; [|exact Hs]. intros a [Ha _]. exact Ha.
  Qed.

  Lemma is_k_eq : forall l, is_k l = true -> l = L_K.
  Proof. destruct l; discriminate || reflexivity. Qed.
  Lemma is_j_eq : forall l, is_j l = true -> l = L_J.
  Proof. destruct l; discriminate || reflexivity. Qed.

  (* K is awaited in the even phases of the handshake, J in the odd ones *)
  Lemma line_of_k : forall v l, is_k l = true -> l = line_of (2 * v).
  Proof. intros v l H. unfold line_of. rewrite N.even_mul. apply is_k_eq, H. Qed.
  Lemma line_of_j : forall v l, is_j l = true -> l = line_of (2 * v + 1).
  Proof. intros v l H. unfold line_of. rewrite N.add_comm, N.even_add_mul_2. apply is_j_eq, H. Qed.
End Facts.

Section Regs.
  Variable K : rs_consts.

  (* The last three are entered from more than one class.  IS_HIGH_SPEED keeps that its own cycle is not HS operation yet
     (prev1_ok on entering HS_NON_RESET); DISCONNECT assigns NON_DRIVING, which rule_exit allows only outside chirp mode *)
  Definition regs_ok (st : rs_state) : Prop :=
    match fsm st with
    | INITIALIZE | LS_FS_NON_RESET | START_HS_DETECTION | SUSPENDED | DETECT_HS_SUSPEND => r_fs st = true
    | HS_NON_RESET => r_hs st = true
    | PREPARE_FOR_CHIRP_0 | PREPARE_FOR_CHIRP_1 | DEVICE_CHIRP | AWAIT_HOST_K | IN_HOST_K
    | AWAIT_HOST_J | IN_HOST_J => r_chirp st = true
    | IS_HIGH_SPEED => r_hs st = false
    | DISCONNECT => r_chirp st = false
    | IS_LOW_OR_FULL_SPEED => True
    end.

  (* Most transitions keep the three registers, so that r_hs, r_fs, r_chirp of the next state are those of st by
     computation; where they are assigned, the new values are constants (up to LOW or FULL). *)
  Lemma regs_ok_next : forall st i, regs_ok st -> regs_ok (rs_next K st i).
  Proof.
    intros [f t l v wh td sp op tm] i H. unfold regs_ok in *. cbn [fsm] in H.
    destruct f; cbn [rs_next fsm]; split_ifs; cbn [fsm];
      auto using r_fs_not_chirp, r_hs_not_chirp, r_fs_not_hs, r_chirp_not_hs.
    (* INITIALIZE under low_speed_only: LOW in place of FULL *)
    revert H. unfold r_fs. cbn [speed opmode term]. destruct sp; trivial; discriminate.
  Qed.

  (* r_hs st, r_fs st, r_chirp st are hs_ctl (ctl st), fs_ctl (ctl st), chirp_ctl (ctl st) by computation.  The classes
     are stated once more of the triple alone so that one rewrite with ctl_next says what the class of the next
     state is computed from: a constant triple, ctl st, or ctl st with one component replaced (INITIALIZE, DISCONNECT) *)
  Definition ctl (st : rs_state) : speed_t * opmode_t * bool := (speed st, opmode st, term st).
  Definition hs_ctl (c : speed_t * opmode_t * bool) : bool :=
    match c with (HIGH, NORMAL, false) => true | _ => false end.
  Definition fs_ctl (c : speed_t * opmode_t * bool) : bool :=
    match c with (FULL, NORMAL, true) | (LOW, NORMAL, true) => true | _ => false end.
  Definition chirp_ctl (c : speed_t * opmode_t * bool) : bool :=
    match c with (_, CHIRP, _) => true | _ => false end.

  (* the six states in which the code assigns the registers *)
  Lemma ctl_next : forall st i, ctl (rs_next K st i) =
    match fsm st with
    | INITIALIZE => (if i_ls i then LOW else speed st, opmode st, term st)
    | HS_NON_RESET => if timer st =? c_3ms K then (FULL, NORMAL, true) else ctl st
    | START_HS_DETECTION => (HIGH, CHIRP, true)
    | IS_HIGH_SPEED => (HIGH, NORMAL, false)
    | IS_LOW_OR_FULL_SPEED => (if i_ls i then LOW else FULL, NORMAL, true)
    | DISCONNECT => if negb (i_disc i) && tddis st then (FULL, NORMAL, true) else (speed st, NON_DRIVING, term st)
    | _ => ctl st
    end.
  Proof. intros [f t l v wh td sp op tm] i. destruct f; cbn [rs_next fsm timer tddis]; split_ifs; reflexivity. Qed.

  Lemma r_hs_next : forall st i, regs_ok st -> r_hs (rs_next K st i) = true ->
    fsm st = IS_HIGH_SPEED \/ fsm st = HS_NON_RESET.
  Proof.
    intros st i H E. change (hs_ctl (ctl (rs_next K st i)) = true) in E. rewrite ctl_next in E.
    unfold regs_ok in H. destruct (fsm st); auto; exfalso;
      try exact (eq_true_false_abs _ E (r_fs_not_hs _ H)); try exact (eq_true_false_abs _ E (r_chirp_not_hs _ H)).
    - (* INITIALIZE *) destruct (i_ls i); [discriminate E | exact (eq_true_false_abs _ E (r_fs_not_hs _ H))].
    - (* START_HS_DETECTION *) discriminate E.
    - (* IS_LOW_OR_FULL_SPEED *) destruct (i_ls i); discriminate E.
    - (* DISCONNECT *) destruct (negb (i_disc i) && tddis st); [|destruct (speed st)]; discriminate E.
  Qed.

  Lemma r_chirp_next : forall st i, r_chirp (rs_next K st i) = true ->
    fsm st = START_HS_DETECTION \/ r_chirp st = true.
  Proof.
    intros st i E. change (chirp_ctl (ctl (rs_next K st i)) = true) in E. rewrite ctl_next in E.
    destruct (fsm st); auto.
    - (* HS_NON_RESET *) destruct (timer st =? c_3ms K); [discriminate E | auto].
    - (* IS_HIGH_SPEED *) discriminate E.
    - (* IS_LOW_OR_FULL_SPEED *) discriminate E.
    - (* DISCONNECT *) destruct (negb (i_disc i) && tddis st); discriminate E.
  Qed.

  Lemma r_chirp_exit : forall st i, regs_ok st -> r_chirp st = true -> r_chirp (rs_next K st i) = false ->
    r_hs (rs_next K st i) = true \/ r_fs (rs_next K st i) = true.
  Proof.
    intros st i H C E.
    change (hs_ctl (ctl (rs_next K st i)) = true \/ fs_ctl (ctl (rs_next K st i)) = true).
    change (chirp_ctl (ctl (rs_next K st i)) = false) in E. rewrite ctl_next in *.
    unfold regs_ok in H. destruct (fsm st); try destruct (eq_true_false_abs _ C E).
    - (* HS_NON_RESET *) destruct (timer st =? c_3ms K); [right; reflexivity | destruct (eq_true_false_abs _ C E)].
    - (* START_HS_DETECTION *) discriminate E.
    - (* IS_HIGH_SPEED *) left. reflexivity.
    - (* IS_LOW_OR_FULL_SPEED *) right. destruct (i_ls i); reflexivity.
    - (* DISCONNECT *) destruct (eq_true_false_abs _ C H).
  Qed.
End Regs.

Section Invariant.
  Variable K : rs_consts.
  Notation mkcyc := (mkcyc K).

  (* prev1_ok, prev_not_hs: what rule_leave (5), which looks two cycles back, needs of the last cycle, kept in the two
     states HS operation can follow (r_hs_next): HS_NON_RESET and IS_HIGH_SPEED *)
  Definition prev1_ok (h : list cyc) : Prop :=
    match h with q :: _ => hs_op q = true -> c_restricted q = true -> False | [] => True end.
  Definition prev_not_hs (h : list cyc) : Prop := match h with q :: _ => hs_op q = false | [] => True end.
  (* the conclusion of rule_suspend (2) *)
  Definition susp_ok (h : list cyc) : Prop :=
    match h with
    | p :: past' => susp_out p = true \/ c_3ms K <= streak idle past' \/ hs_suspend_entry K h
    | [] => False
    end.

  Definition state_inv (st : rs_state) (h : list cyc) : Prop :=
    match fsm st with
    | INITIALIZE | DISCONNECT | IS_LOW_OR_FULL_SPEED => True
    | LS_FS_NON_RESET => timer st <= streak se0 h /\ lst st <= streak idle h
    | HS_NON_RESET => timer st <= streak hs_idle h /\ prev1_ok h
    | START_HS_DETECTION =>
        match h with r :: _ => reset_out r = true /\ c_restricted r = false | [] => False end
    | PREPARE_FOR_CHIRP_0 | PREPARE_FOR_CHIRP_1 => pre_chirp h
    | DEVICE_CHIRP => in_chirp h
    | AWAIT_HOST_K => vp st <= 2 /\ hsk K (2 * vp st) h
    | IN_HOST_K => vp st <= 2 /\ hsk_in K (2 * vp st) (lst st + 1) h
    | AWAIT_HOST_J => vp st <= 2 /\ hsk K (2 * vp st + 1) h
    | IN_HOST_J => vp st <= 2 /\ hsk_in K (2 * vp st + 1) (lst st + 1) h
    | IS_HIGH_SPEED => prev_not_hs h /\ (hsk K 6 h \/ sfh K h)
    | DETECT_HS_SUSPEND => timer st <= c_200us K /\ hs_idle_ago K (timer st) h
    | SUSPENDED => timer st <= streak se0 h /\ susp_ok h
                   (* sfh wants a suspended cycle on top, which h lacks on entry; every cycle SUSPENDED shows is
                      one, and the resume puts the last of them there *)
                   /\ (was_hs st = true -> forall c, susp_out c = true -> sfh K (c :: h))
    end.

  Definition handshaking (f : rs_fsm) : bool :=
    match f with
    | START_HS_DETECTION | PREPARE_FOR_CHIRP_0 | PREPARE_FOR_CHIRP_1 | DEVICE_CHIRP
    | AWAIT_HOST_K | IN_HOST_K | AWAIT_HOST_J | IN_HOST_J => true
    | _ => false
    end.

  Lemma state_next_handshake : forall st i h, handshaking (fsm st) = true -> regs_ok st -> state_inv st h ->
    state_inv (rs_next K st i) (mkcyc st i :: h).
  Proof.
    intros [f t l v wh td sp op tm] i h Hf HR HS. unfold state_inv, regs_ok in *. cbn [fsm timer lst vp was_hs] in *.
    set (c := mkcyc _ i).
    destruct f; try discriminate Hf; cbn [rs_next fsm timer lst vp was_hs tddis].
    - (* START_HS_DETECTION *) destruct h as [|r h0]; [contradiction|]. destruct HS as [Hr Hu].
      apply pre_chirp_start; [exact (r_fs_not_chirp _ HR) | reflexivity | exact Hr | exact Hu].
    - (* PREPARE_FOR_CHIRP_0 *) destruct (i_busy i); (apply pre_chirp_cons; [exact HS | exact HR | reflexivity]).
    - (* PREPARE_FOR_CHIRP_1 *)
      destruct (i_busy i); [|apply in_chirp_start]; (apply pre_chirp_cons; [exact HS | exact HR | reflexivity]).
    - (* DEVICE_CHIRP *) assert (C : chirping c = true) by exact (andb_true_intro (conj HR eq_refl)).
      destruct (t =? c_2ms K); cbn [fsm vp].
      + split; [discriminate | exact (in_chirp_done K c h HS C)].
      + exact (in_chirp_cons c h HS C).
    - (* AWAIT_HOST_K *) destruct HS as [Hv Hh]. destruct (t =? c_2p5ms K); [exact I|].
      destruct (is_k (i_line i)) eqn:Ek; (split; [exact Hv|]).
      + apply hsk_in_start; [exact Hh | exact HR | apply line_of_k, Ek].
      + apply hsk_wait; [exact Hh | exact HR].
    - (* IN_HOST_K *) destruct HS as [Hv Hh]. destruct (t =? c_2p5ms K); [exact I|].
      destruct (is_k (i_line i)) eqn:Ek; cbn [negb].
      + destruct (N.eqb_spec l (c_2p5us K)) as [->|_]; (split; [exact Hv|]).
        * exact (hsk_in_done K _ _ c h Hh (N.le_add_r _ _) HR).
        * apply hsk_in_cons; [exact Hh | exact HR | apply line_of_k, Ek].
      + split; [exact Hv | exact (hsk_in_abort K _ _ c h Hh HR)].
    - (* AWAIT_HOST_J *) destruct HS as [Hv Hh]. destruct (t =? c_2p5ms K); [exact I|].
      destruct (is_j (i_line i)) eqn:Ej; (split; [exact Hv|]).
      + apply hsk_in_start; [exact Hh | exact HR | apply line_of_j, Ej].
      + apply hsk_wait; [exact Hh | exact HR].
    - (* IN_HOST_J *) destruct HS as [Hv Hh]. destruct (t =? c_2p5ms K); [exact I|].
      destruct (is_j (i_line i)) eqn:Ej; cbn [negb].
      + destruct (N.eqb_spec l (c_2p5us K)) as [->|_]; cbn [andb].
        * (* a K-J pair is complete: the third one ends the handshake *)
          pose proof (hsk_in_done K _ _ c h Hh (N.le_add_r _ _) HR) as D.
          destruct (N.eqb_spec v 2) as [->|Hne]; cbn [negb fsm vp].
          -- split; [exact (r_chirp_not_hs _ HR) | left; exact D].
          -- rewrite N.mod_small by lia. split; [lia|].
             replace (2 * (v + 1)) with (2 * v + 1 + 1) by lia. exact D.
        * split; [exact Hv|].
          apply hsk_in_cons; [exact Hh | exact HR | apply line_of_j, Ej].
      + rewrite andb_false_r. cbn [andb]. split; [exact Hv | exact (hsk_in_abort K _ _ c h Hh HR)].
  Qed.

  (* needed in DETECT_HS_SUSPEND: the timer reaches c_200us without wrapping *)
  Hypothesis wf1 : c_200us K <= c_3ms K.

  Lemma state_next_operating : forall st i h, handshaking (fsm st) = false -> regs_ok st -> state_inv st h ->
    state_inv (rs_next K st i) (mkcyc st i :: h).
  Proof.
    intros [f t l v wh td sp op tm] i h Hf HR HS. unfold state_inv, regs_ok in *. cbn [fsm timer lst vp was_hs] in *.
    set (c := mkcyc _ i).
    destruct f; try discriminate Hf; cbn [rs_next fsm timer lst vp was_hs tddis].
    - (* INITIALIZE *) split; apply N.le_0_l.
    - (* LS_FS_NON_RESET *) destruct HS as [Ht Hl].
      assert (T' : (if negb (is_se0 (i_line i)) || negb (i_vbus i) then 0 else inc K t) <= streak se0 (c :: h)).
      { apply streak_step_clr; [exact Ht|]. intros [E _]%orb_false_elim. apply negb_false_iff, E. }
      destruct (N.eqb_spec l (c_3ms K)) as [->|_].
      + (* to SUSPENDED *) split; [exact T' | split; [right; left; exact Hl | discriminate]].
      + destruct ((t =? c_5us K) && negb (restricted i)) eqn:E5.
        * (* to START_HS_DETECTION *) apply andb_true_iff in E5 as [E5 Er].
          split; [|apply negb_true_iff, Er]. change (negb (i_vbus i) || (t =? c_5us K) = true).
          rewrite E5. apply orb_true_r.
        * destruct (negb (is_se0 (i_line i)) && i_disc i); [exact I|].
          split; [exact T' | apply streak_step; [exact Hl | trivial]].
    - (* HS_NON_RESET *) destruct HS as [Ht Hp]. destruct (restricted i) eqn:Er; [exact I|].
      destruct (N.eqb_spec t (c_3ms K)) as [->|_].
      + (* to DETECT_HS_SUSPEND *) split; [apply N.le_0_l | apply hs_idle_ago_0; [exact HR | exact Ht]].
      + destruct (negb (i_vbus i)); [exact I|]. destruct (negb (is_se0 (i_line i)) && i_disc i); [exact I|].
        split.
        * apply streak_step_clr; [exact Ht|]. intro E. apply negb_false_iff in E.
          exact (andb_true_intro (conj HR E)).
        * intros _ E. change (restricted i = true) in E. congruence.
    - (* IS_HIGH_SPEED *) split; [apply N.le_0_l|]. intros E _. exact (eq_true_false_abs _ E HR).
    - (* IS_LOW_OR_FULL_SPEED *) destruct (negb (is_se0 (i_line i))); [split; apply N.le_0_l | exact I].
    - (* DETECT_HS_SUSPEND *) destruct HS as [Ht Ha]. destruct (N.eqb_spec t (c_200us K)) as [->|Hne].
      + destruct (is_j (i_line i)) eqn:Ej.
        * (* to SUSPENDED *)
          assert (E : hs_suspend_entry K (c :: h)).
          { split; [reflexivity|]. split; [exact (is_j_eq _ Ej) | exact Ha]. }
          split; [apply N.le_0_l|]. split; [right; right; exact E|].
          intros _ c' Hc'. apply sfh_enter; assumption.
        * destruct (restricted i) eqn:Er; [exact I|].
          (* to START_HS_DETECTION *) split; [|exact Er].
          change ((c_200us K =? c_200us K) && negb (is_j (i_line i)) = true). rewrite N.eqb_refl, Ej. reflexivity.
      + rewrite inc_small by lia. split; [lia | apply hs_idle_ago_cons, Ha].
    - (* SUSPENDED *) destruct HS as (Ht & Hs & Hw).
      assert (Sc : susp_out c = true) by reflexivity.
      destruct (t =? c_2p5us K) eqn:Er; cbn [orb andb].
      + destruct (restricted i) eqn:Ei; cbn [fsm lst].
        * (* to LS_FS_NON_RESET *) split; apply N.le_0_l.
        * (* to START_HS_DETECTION *) split; [|exact Ei]. change ((t =? c_2p5us K) = true). exact Er.
      + destruct ((i_ls i && is_j (i_line i)) || (negb (i_ls i) && is_k (i_line i))) eqn:Eres.
        * (* resume *) destruct wh; cbn [negb andb fsm].
          -- (* to IS_HIGH_SPEED *) split; [exact (r_fs_not_hs _ HR)|]. right. apply Hw; [reflexivity | exact Sc].
          -- (* to LS_FS_NON_RESET: the resume state is J or K, not SE0, so the timer is cleared *)
             split; [|apply N.le_0_l]. destruct (i_ls i), (i_line i); discriminate Eres || apply N.le_0_l.
        * cbn [andb]. split; [|split].
          -- apply streak_step_clr; [exact Ht|]. intro E. apply negb_false_iff, E.
          -- left. exact Sc.
          -- intros W c' Hc'. apply sfh_stay; [exact Hc' | apply Hw; assumption].
    - (* DISCONNECT *) destruct (negb (i_disc i) && td); exact I.
  Qed.

  Lemma state_next : forall st i h, regs_ok st -> state_inv st h -> state_inv (rs_next K st i) (mkcyc st i :: h).
  Proof.
    intros st i h. destruct (handshaking (fsm st)) eqn:Hf; [apply state_next_handshake | apply state_next_operating]; exact Hf.
  Qed.

  (* Rules 3, 4, 5 and 7 look one or two cycles back from the cycle c about to be appended; they depend on c
     through the registers only, so they are stated for every input of that cycle. *)
  Record Inv (st : rs_state) (h : list cyc) : Prop := {
    inv_regs : regs_ok st;
    inv_state : state_inv st h;
    inv_hs_entry : forall i, rule_hs_entry K h (mkcyc st i);
    inv_start : forall i, rule_start h (mkcyc st i);
    inv_leave : forall i, rule_leave h (mkcyc st i);
    inv_exit : forall i, rule_exit h (mkcyc st i) }.

  Lemma Inv_init : Inv rs_init [].
  Proof. split; try exact I; try reflexivity; discriminate. Qed.

  Lemma Inv_next : forall st i h, Inv st h -> Inv (rs_next K st i) (mkcyc st i :: h).
  Proof.
    intros st i h [HR HS _ _ _ _].
    split; [apply regs_ok_next, HR | apply state_next; assumption | intros i' ..].
    - (* HS operation begins out of IS_HIGH_SPEED only *)
      intro H. change (r_hs (rs_next K st i) = true) in H.
      destruct (r_hs_next K st i HR H) as [Hf|Hf]; unfold state_inv, regs_ok in *; rewrite Hf in *.
      + destruct HS as [_ [Hk|Hs]]; auto.
      + left. exact HR.
    - (* chirp mode begins out of START_HS_DETECTION only, which is entered in the cycle of the bus reset *)
      intro H. destruct (r_chirp_next K st i H) as [Hf|Hc]; [right | left; exact Hc].
      unfold state_inv in HS. rewrite Hf in HS. exact HS.
    - (* in HS operation two cycles after a restriction: only out of HS_NON_RESET, which was left at once *)
      destruct h as [|q h']; [exact I|]. intros H1 H2.
      destruct (r_hs (rs_next K st i)) eqn:H; [exfalso | exact H].
      destruct (r_hs_next K st i HR H) as [Hf|Hf]; unfold state_inv in HS; rewrite Hf in HS.
      + destruct HS as [Hp _]. exact (eq_true_false_abs _ H1 Hp).
      + destruct HS as [_ Hp]. exact (Hp H1 H2).
    - intros H1 H2. apply r_chirp_exit; [exact HR | exact H1 | exact H2].
  Qed.

  Lemma state_reset : forall st i h, state_inv st h -> rule_reset K h (mkcyc st i).
  Proof.
    intros [f t l v wh td sp op tm] i h HS. unfold state_inv in HS. cbn [fsm timer] in HS.
    unfold rule_reset, reset_out, susp_out. cbn [mkcyc c_out c_in rs_outs o_reset o_susp fsm timer].
    destruct f; try discriminate; intro H.
    - (* LS_FS_NON_RESET *) apply orb_true_iff in H as [H|H]; [left; apply negb_true_iff, H|].
      right. right. left. apply N.eqb_eq in H. subst t. split; [reflexivity | apply HS].
    - (* HS_NON_RESET *) left. apply negb_true_iff, H.
    - (* DETECT_HS_SUSPEND *) apply andb_true_iff in H as [H1 H2]. apply N.eqb_eq in H1. subst t.
      right. right. right. split; [reflexivity|]. split; [|apply HS].
      intro E. change (i_line i = L_J) in E. rewrite E in H2. discriminate H2.
    - (* SUSPENDED *) right. left. apply N.eqb_eq in H. subst t. split; [reflexivity | apply HS].
  Qed.

  Lemma state_suspend : forall st i h, state_inv st h -> rule_suspend K h (mkcyc st i).
  Proof.
    intros st i h HS H. unfold state_inv in HS. change (o_susp (rs_outs K st i) = true) in H.
    cbn [rs_outs o_susp] in H. destruct (fsm st); try discriminate H. apply HS.
  Qed.

  Lemma Inv_safe : forall st i h, Inv st h -> rule_safe K h (mkcyc st i).
  Proof.
    intros st i h H. repeat split;
      [apply state_reset, H | apply state_suspend, H | apply H | apply H | apply H | apply H].
  Qed.

  Lemma always_safe : forall ins st h, Inv st h -> always (rule_safe K) h (rs_trace K st ins).
  Proof.
    induction ins as [|i t IH]; intros st h H; [exact I|].
    split; [apply Inv_safe, H | apply IH, Inv_next, H].
  Qed.

  Theorem rs_safe : forall ins, always (rule_safe K) [] (rs_trace K rs_init ins).
  Proof. intro ins. apply always_safe, Inv_init. Qed.
End Invariant.

(* rule 6, the time-out of the handshake, by an invariant of its own *)
Section Timeout.
  Variable K : rs_consts.
  Notation mkcyc := (mkcyc K).

  Definition listen_le (n : N) (h : list cyc) : Prop :=
    match listen h with Some m => m <= n | None => True end.

  Definition listening (f : rs_fsm) : bool :=
    match f with AWAIT_HOST_K | IN_HOST_K | AWAIT_HOST_J | IN_HOST_J => true | _ => false end.

  (* while the device listens for the host's chirps, the timer is the number of cycles since its own chirp.  The
     time-out is seen in the cycle with timer = c_2p5ms, so an exit state is entered with listen h <= c_2p5ms + 1; it
     assigns the registers, so its first cycle still shows CHIRP: the + 2 of rule_timeout *)
  Definition listen_inv (st : rs_state) (h : list cyc) : Prop :=
    match fsm st with
    | PREPARE_FOR_CHIRP_0 | PREPARE_FOR_CHIRP_1 => listen h = None
    | AWAIT_HOST_K | IN_HOST_K | AWAIT_HOST_J | IN_HOST_J =>
        listen h = Some (timer st) /\ timer st <= c_2p5ms K
    | IS_HIGH_SPEED | IS_LOW_OR_FULL_SPEED => r_chirp st = true -> listen_le (c_2p5ms K + 1) h
    | _ => True
    end.

  Lemma listen_mk : forall st i h, listen (mkcyc st i :: h) =
    if match fsm st with DEVICE_CHIRP => true | _ => false end then Some 0
    else if r_chirp st then option_map N.succ (listen h) else None.
  Proof. reflexivity. Qed.

  Lemma listen_inv_rule : forall st i h, regs_ok st -> listen_inv st h -> rule_timeout K h (mkcyc st i).
  Proof.
    intros [f t l v wh td sp op tm] i h HR HL. unfold rule_timeout, listen_inv, regs_ok, listen_le in *.
    rewrite listen_mk. cbn [fsm timer] in *.
    destruct f; try (rewrite (r_fs_not_chirp _ HR); exact I).
    - (* HS_NON_RESET *) rewrite (r_hs_not_chirp _ HR). exact I.
    - (* PREPARE_FOR_CHIRP_0 *) rewrite HR, HL. exact I.
    - (* PREPARE_FOR_CHIRP_1 *) rewrite HR, HL. exact I.
    - (* DEVICE_CHIRP *) apply N.le_0_l.
    - (* AWAIT_HOST_K *) destruct HL as [HL Ht]. rewrite HR, HL. cbn [option_map]. lia.
    - (* IN_HOST_K *) destruct HL as [HL Ht]. rewrite HR, HL. cbn [option_map]. lia.
    - (* AWAIT_HOST_J *) destruct HL as [HL Ht]. rewrite HR, HL. cbn [option_map]. lia.
    - (* IN_HOST_J *) destruct HL as [HL Ht]. rewrite HR, HL. cbn [option_map]. lia.
    - (* IS_HIGH_SPEED *) destruct (r_chirp _); [|exact I]. specialize (HL eq_refl).
      destruct (listen h); cbn [option_map]; [lia | exact I].
    - (* IS_LOW_OR_FULL_SPEED *) destruct (r_chirp _); [|exact I]. specialize (HL eq_refl).
      destruct (listen h); cbn [option_map]; [lia | exact I].
    - (* DISCONNECT *) rewrite HR. exact I.
  Qed.

  (* the timer reaches the time-out without wrapping *)
  Hypothesis wf2 : c_2p5ms K <= c_3ms K.

  Lemma listen_step : forall t h (f1 f2 : rs_fsm) (P : rs_fsm -> Prop),
    listen h = Some t -> t <= c_2p5ms K ->
    (P IS_LOW_OR_FULL_SPEED) -> (t < c_2p5ms K -> P f2) ->
    (forall f, P f -> True) ->
    P (if t =? c_2p5ms K then IS_LOW_OR_FULL_SPEED else f2).
  Proof using wf2. intros. destruct (N.eqb_spec t (c_2p5ms K)); [assumption | apply H2; lia]. Qed.

  Lemma listening_next : forall st i h, listening (fsm st) = true -> regs_ok st -> listen_inv st h ->
    listen_inv (rs_next K st i) (mkcyc st i :: h).
  Proof.
    intros [f t l v wh td sp op tm] i h Lf HR HL. unfold listen_inv, regs_ok, listen_le in *.
    rewrite listen_mk. cbn [fsm timer] in *. destruct f; try discriminate Lf.
    all: destruct HL as [HL Ht]; rewrite HR, HL; cbn [rs_next fsm timer option_map]; rewrite <- N.add_1_r.
    (* the time-out cycle leads to IS_LOW_OR_FULL_SPEED; before it the timer counts on, into a listening state or IS_HIGH_SPEED *)
    all: destruct (N.eqb_spec t (c_2p5ms K)) as [->|Hne]; [intros _; apply N.le_refl|].
    all: rewrite inc_small by lia; split_ifs; cbn [fsm timer]; (split; [reflexivity | lia]) || (intros _; lia).
  Qed.

  Lemma listen_inv_next : forall st i h, regs_ok st -> listen_inv st h ->
    listen_inv (rs_next K st i) (mkcyc st i :: h).
  Proof.
    intros st i h HR HL. destruct (listening (fsm st)) eqn:Lf; [apply listening_next; assumption|].
    destruct st as [f t l v wh td sp op tm]. unfold listen_inv, regs_ok, listen_le in *.
    rewrite listen_mk. cbn [fsm timer] in *.
    destruct f; try discriminate Lf; cbn [rs_next fsm timer]; try exact I.
    - (* LS_FS_NON_RESET *) split_ifs; exact I.
    - (* HS_NON_RESET *) rewrite (r_hs_not_chirp _ HR). split_ifs; try exact I; intros _; exact I.
    - (* START_HS_DETECTION *) rewrite (r_fs_not_chirp _ HR). reflexivity.
    - (* PREPARE_FOR_CHIRP_0 *) rewrite HR, HL. destruct (i_busy i); reflexivity.
    - (* PREPARE_FOR_CHIRP_1 *) rewrite HR, HL. destruct (i_busy i); [reflexivity | exact I].
    - (* DEVICE_CHIRP *) destruct (t =? c_2ms K); [split; [reflexivity | apply N.le_0_l] | exact I].
    - (* IS_LOW_OR_FULL_SPEED *) destruct (negb (is_se0 (i_line i))); [exact I | discriminate].
    - (* DETECT_HS_SUSPEND *) rewrite (r_fs_not_chirp _ HR). split_ifs; try exact I; intros _; exact I.
    - (* SUSPENDED *) rewrite (r_fs_not_chirp _ HR). split_ifs; try exact I; intros _; exact I.
    - (* DISCONNECT *) split_ifs; exact I.
  Qed.

  Lemma always_timeout : forall ins st h, regs_ok st -> listen_inv st h ->
    always (rule_timeout K) h (rs_trace K st ins).
  Proof.
    induction ins as [|i t IH]; intros st h HR HL; [exact I|].
    split; [apply listen_inv_rule; assumption|]. apply IH; [apply regs_ok_next | apply listen_inv_next]; assumption.
  Qed.

  Theorem rs_timeout : forall ins, always (rule_timeout K) [] (rs_trace K rs_init ins).
  Proof. intro ins. apply always_timeout; [reflexivity | exact I]. Qed.
End Timeout.

Lemma always_and : forall P Q h l, always P h l -> always Q h l -> always (fun p c => P p c /\ Q p c) h l.
Proof.
  intros P Q h l. revert h. induction l as [|c t IH]; intros h HP HQ; [exact I|].
  destruct HP, HQ. split; [split; assumption | apply IH; assumption].
Qed.

Theorem rs_all : forall K, c_200us K <= c_3ms K -> c_2p5ms K <= c_3ms K ->
  forall ins, always (rule_all K) [] (rs_trace K rs_init ins).
Proof. intros K H1 H2 ins. apply always_and; [apply rs_safe, H1 | apply rs_timeout, H2]. Qed.

Section OracleSound.
  Variable K : rs_consts.

  Lemma line_eqb_eq : forall a b, line_eqb a b = true -> a = b.
  Proof. destruct a, b; discriminate || reflexivity. Qed.

  Lemma hs_idle_ago_b_sound : forall n past, hs_idle_ago_b K n past = true -> hs_idle_ago K n past.
  Proof.
    intros n past. unfold hs_idle_ago_b, hs_idle_ago. destruct (drop n past) as [|u rest]; [discriminate|].
    intros [H1 H2%N.leb_le]%andb_true_iff. split; assumption.
  Qed.

  Lemma hs_suspend_entry_b_sound : forall past, hs_suspend_entry_b K past = true -> hs_suspend_entry K past.
  Proof.
    intros [|p past']; [discriminate|]. cbn [hs_suspend_entry_b hs_suspend_entry].
    intros [[H1%negb_true_iff H2%is_j_eq]%andb_true_iff H3%hs_idle_ago_b_sound]%andb_true_iff.
    repeat split; assumption.
  Qed.

  Lemma sfh_b_sound : forall h, sfh_b K h = true -> sfh K h.
  Proof.
    induction h as [|c past IH]; [discriminate|]. cbn [sfh_b].
    intros [H1 [H2%hs_suspend_entry_b_sound|H2%IH]%orb_true_iff]%andb_true_iff.
    - apply sfh_enter; assumption.
    - apply sfh_stay; assumption.
  Qed.

  (* pre: the chirp-mode cycles scanned so far, the most recent first; seen: one of them was chirping *)
  Lemma hsk0_b_sound : forall h seen pre,
    hsk0_b seen h = true -> Forall (fun x => chirpmode x = true) pre ->
    (seen = true -> Exists (fun x => chirping x = true) pre) -> hsk K 0 (pre ++ h).
  Proof.
    induction h as [|x t IH]; intros seen pre H Hp Hs; cbn [hsk0_b] in H; [discriminate|].
    destruct (chirpmode x) eqn:Ex.
    - change (pre ++ x :: t) with (pre ++ [x] ++ t). rewrite app_assoc.
      apply (IH (seen || txvalid x)); [exact H | |].
      + apply Forall_app. split; [exact Hp | constructor; [exact Ex | constructor]].
      + intros [E|E]%orb_true_iff; apply Exists_app; [left; apply Hs, E|].
        right. constructor. exact (andb_true_intro (conj Ex E)).
    - destruct t as [|r h0]; [rewrite andb_false_r in H; discriminate|].
      apply andb_true_iff in H as [H1 [H2 H3%negb_true_iff]%andb_true_iff].
      apply Hs, Exists_exists in H1 as (c0 & (g1 & g2 & ->)%in_split & Hc0).
      apply Forall_app in Hp as [Hg1 Hg2]. apply Forall_cons_iff in Hg2 as [_ Hg2].
      rewrite <- app_assoc. apply hsk_app_wait; [exact Hg1|].
      apply (hsk_chirp K [c0]); [discriminate | constructor; [exact Hc0 | constructor] | exact Hg2 | exact H2 | exact H3].
  Qed.

  (* pre: the run of the line state looked for in phase q, n cycles long, that has just been scanned *)
  Lemma hsk_b_sound : forall h p n pre,
    hsk_b K p n h = true ->
    match p with
    | O => pre = []
    | S q => N.of_nat (length pre) = n
             /\ Forall (fun x => chirpmode x = true /\ c_line x = line_of (N.of_nat q)) pre
    end ->
    hsk K (N.of_nat p) (pre ++ h).
  Proof.
    induction h as [|x t IH]; intros p n pre H HP.
    - destruct p; discriminate H.
    - destruct p as [|q].
      + subst pre. apply (hsk0_b_sound (x :: t) false []); [exact H | constructor | discriminate].
      + cbn [hsk_b] in H. destruct HP as [Hn Hg]. apply andb_true_iff in H as [Hx H].
        destruct (line_eqb (c_line x) (line_of (N.of_nat q))) eqn:El.
        * apply line_eqb_eq in El.
          assert (Hg' : Forall (fun y => chirpmode y = true /\ c_line y = line_of (N.of_nat q)) (pre ++ [x])).
          { apply Forall_app. split; [exact Hg | constructor; [split; assumption | constructor]]. }
          change (pre ++ x :: t) with (pre ++ [x] ++ t). rewrite app_assoc.
          destruct (N.leb_spec (c_2p5us K) (n + 1)) as [Et|_].
          -- rewrite Nat2N.inj_succ, <- N.add_1_r. apply hsk_state; [| rewrite app_length; cbn [length]; lia | exact Hg'].
             apply (IH q 0 []); [exact H|]. destruct q; [reflexivity | split; [reflexivity | constructor]].
          -- apply (IH (S q) (n + 1) (pre ++ [x])); [exact H|]. split; [|exact Hg'].
             rewrite app_length. cbn [length]. lia.
        * apply hsk_app_wait; [eapply Forall_impl; [|exact Hg]; intros a [Ha _]; exact Ha|].
          apply hsk_wait; [|exact Hx]. apply (IH (S q) 0 []); [exact H|]. split; [reflexivity | constructor].
  Qed.

  Lemma rule_reset_b_sound : forall past c, rule_reset_b K past c = true -> rule_reset K past c.
  Proof.
    intros past c H Hr. unfold rule_reset_b in H. rewrite Hr in H. cbn [implb] in H.
    apply orb_true_iff in H as [[[H|H]%orb_true_iff|H]%orb_true_iff|H].
    - left. apply negb_true_iff, H.
    - right. left. apply andb_true_iff in H as [H1 H2%N.leb_le]. split; assumption.
    - right. right. left. apply andb_true_iff in H as [H1%negb_true_iff H2%N.leb_le]. split; assumption.
    - right. right. right.
      apply andb_true_iff in H as [[H1%negb_true_iff H2]%andb_true_iff H3%hs_idle_ago_b_sound].
      repeat split; [exact H1 | | exact H3]. intro E. rewrite E in H2. discriminate H2.
  Qed.

  Lemma rule_suspend_b_sound : forall past c, rule_suspend_b K past c = true -> rule_suspend K past c.
  Proof.
    intros past c H Hs. unfold rule_suspend_b in H. rewrite Hs in H. cbn [implb] in H.
    destruct past as [|p past']; [discriminate|].
    apply orb_true_iff in H as [[H|H%N.leb_le]%orb_true_iff|H%hs_suspend_entry_b_sound]; auto.
  Qed.

  Lemma rule_hs_entry_b_sound : forall past c, rule_hs_entry_b K past c = true -> rule_hs_entry K past c.
  Proof.
    intros past c H Hs. unfold rule_hs_entry_b in H. rewrite Hs in H. cbn [implb] in H.
    destruct past as [|p past']; [discriminate|].
    apply orb_true_iff in H as [[H|H]%orb_true_iff|H%sfh_b_sound]; auto.
    right. left. apply (hsk_b_sound past' 6%nat 0 []); [exact H | split; [reflexivity | constructor]].
  Qed.

  Lemma rule_start_b_sound : forall past c, rule_start_b past c = true -> rule_start past c.
  Proof.
    intros past c H Hs. unfold rule_start_b in H. rewrite Hs in H. cbn [implb] in H.
    destruct past as [|p past']; [discriminate|]. apply orb_true_iff in H as [H|H]; [left; exact H|].
    right. destruct past' as [|q ?]; [discriminate|].
    apply andb_true_iff in H as [H1 H2%negb_true_iff]. split; assumption.
  Qed.

  Lemma rule_leave_b_sound : forall past c, rule_leave_b past c = true -> rule_leave past c.
  Proof.
    intros past c H. unfold rule_leave_b, rule_leave in *. destruct past as [|p [|q t]]; try exact I.
    intros H1 H2. rewrite H1, H2 in H. apply negb_true_iff, H.
  Qed.

  Lemma rule_exit_b_sound : forall past c, rule_exit_b past c = true -> rule_exit past c.
  Proof.
    intros past c H. unfold rule_exit_b, rule_exit in *. destruct past as [|p t]; [exact I|].
    intros H1 H2. rewrite H1, H2 in H. apply orb_true_iff, H.
  Qed.

  Lemma rule_timeout_b_sound : forall past c, rule_timeout_b K past c = true -> rule_timeout K past c.
  Proof.
    intros past c H. unfold rule_timeout_b, rule_timeout in *. destruct (listen (c :: past)); [|exact I].
    apply N.leb_le, H.
  Qed.

  Theorem rule_safe_b_sound : forall past c, rule_safe_b K past c = true -> rule_safe K past c.
  Proof.
    intros past c H. unfold rule_safe_b in H. repeat (apply andb_true_iff in H as [H ?]).
    repeat split;
      [apply rule_reset_b_sound | apply rule_suspend_b_sound | apply rule_hs_entry_b_sound | apply rule_start_b_sound
       | apply rule_leave_b_sound | apply rule_exit_b_sound]; assumption.
  Qed.

  Theorem rule_all_b_sound : forall past c, rule_all_b K past c = true -> rule_all K past c.
  Proof.
    intros past c [H1 H2]%andb_true_iff.
    split; [apply rule_safe_b_sound, H1 | apply rule_timeout_b_sound, H2].
  Qed.
End OracleSound.

Lemma fsm_n_lt : forall f, fsm_n f < 16.
Proof. destruct f; reflexivity. Qed.
Lemma n_fsm_n : forall f, n_fsm (fsm_n f) = f.
Proof. destruct f; reflexivity. Qed.
Lemma speed_n_lt : forall s, speed_n s < 4.
Proof. destruct s; reflexivity. Qed.
Lemma n_speed_n : forall s, n_speed (speed_n s) = s.
Proof. destruct s; reflexivity. Qed.
Lemma opmode_n_lt : forall m, opmode_n m < 4.
Proof. destruct m; reflexivity. Qed.
Lemma n_opmode_n : forall m, n_opmode (opmode_n m) = m.
Proof. destruct m; reflexivity. Qed.
Lemma n_bool_b2n : forall b, n_bool (b2n b) = b.
Proof. destruct b; reflexivity. Qed.

Lemma rs_dec_enc : forall K st, rs_wf K st -> rs_dec K (rs_enc K st) = st.
Proof.
  intros K [f t l v wh td sp op tm] (Ht & Hl & Hv). unfold rs_dec, rs_enc.
  cbn [fsm timer lst vp was_hs tddis speed opmode term] in *. cbv zeta.
  repeat rewrite ?pk_mod, ?pk_div by auto using fsm_n_lt, b2n_lt2, speed_n_lt, opmode_n_lt.
  rewrite n_fsm_n, !n_bool_b2n, n_speed_n, n_opmode_n. reflexivity.
Qed.

Lemma inc_lt : forall K x, inc K x < 2 ^ tw K.
Proof. intros. unfold inc. destruct (N.ltb_spec (x + 1) (2 ^ tw K)); [assumption | apply pow2_pos]. Qed.

Lemma rs_wf_step : forall K st w, rs_wf K st -> rs_wf K (fst (rs_step K st w)).
Proof.
  intros K [f t l v wh td sp op tm] w (Ht & Hl & Hv). cbn [timer lst vp rs_step fst] in *.
  pose proof (inc_lt K t) as It. pose proof (inc_lt K l) as Il. pose proof (pow2_pos (tw K)) as P.
  assert (V : (v + 1) mod 4 < 4) by (apply N.mod_lt; discriminate).
  unfold rs_wf. destruct f; cbn [rs_next fsm timer lst vp]; split_ifs; cbn [timer lst vp];
    repeat split; assumption || reflexivity.
Qed.

Lemma rs_wf_init : forall K, rs_wf K rs_init.
Proof. intro K. repeat split; apply pow2_pos. Qed.

Lemma rs_run_trace : forall K tr st,
  run (rs_step K) st tr = map (fun c => pack_out (c_out c)) (rs_trace K st (map decode_in tr)).
Proof.
  induction tr as [|w t IH]; intro st; [reflexivity|].
  cbn [run map rs_trace rs_step c_out]. rewrite IH. reflexivity.
Qed.

Lemma env_ok_of_Forall : forall St (mstep : St -> N -> St * N) (P : N -> bool) tr s,
  Forall (fun i => P i = true) tr -> env_ok St mstep (fun _ i => P i) s tr = true.
Proof.
  induction tr as [|i t IH]; intros s H; cbn [env_ok]; [reflexivity|].
  inversion H as [|? ? Hi Ht]; subst. rewrite Hi. apply IH, Ht.
Qed.
