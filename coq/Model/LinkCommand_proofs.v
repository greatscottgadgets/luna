(* C35 -- proofs about the link command generator / detector models (Model/LinkCommand.v): the coded CRC-5
   equations and the bit-serial crc5_ser both equal crc5_usb, the CRC-5 of Model/Crc.v that the other link-layer
   models use (crc5_par_usb, crc5_ser_usb; hence crc5_par_ser), the wire format of a generated command under arbitrary
   ready stalls (gen_transaction), the detector accepts exactly the well-formed words (lc_accepts_iff_wellformed), and
   generator -> detector under arbitrary stalls reports the requested command exactly once (roundtrip). *)
From Coq Require Import NArith List Bool Lia.
Import ListNotations.
From LunaLib Require Import Netlist Machine SymWord ListFacts Bits Affine.
From LunaModel Require Import Crc Crc_proofs LinkCommand.
Open Scope N_scope.

Lemma word_split : forall x k w, x < 2 ^ (k + w) -> x = bits x 0 k + 2 ^ k * bits x k w.
Proof. intros x k w H. rewrite <- (bits_small x (k + w) H) at 1. apply bits_split. Qed.

(* crc5_par is the reference of Model/Crc.v: both are affine over GF(2) in the eleven message bits, and their normal
   forms coincide *)
Definition xsum (l : list nat) : xt := fold_right (fun k acc => X (V k) acc) (K false) l.
Definition crc5_par_xt : list xt :=
  [xsum [0; 1; 2; 5; 6; 8]; Nt (xsum [0; 1; 2; 3; 6; 7; 9]); xsum [0; 1; 2; 3; 4; 7; 8; 10]; xsum [0; 3; 4; 6; 9];
   xsum [0; 1; 4; 5; 7; 10]]%nat.

Lemma crc5_par_terms : forall x, crc5_par x = bits2N (map (ev (fun i => N.testbit x (N.of_nat i))) crc5_par_xt).
Proof.
  intro x. unfold crc5_par. cbn [crc5_par_xt map xsum fold_right ev bits2N xbits N.of_nat Pos.of_succ_nat Pos.succ].
  unfold b2n. lia.
Qed.

Lemma crc5_forms :
  map (nf 11) crc5_par_xt
  = crc_finish aff anot (crc_shifts aff axor (aconst 11 false) poly5 (map (aconst 11) (repeat true 5)) (map (avar 11) (seq 0 11))).
Proof. vm_compute. reflexivity. Qed.

Theorem crc5_par_usb : forall x, crc5_par x = crc5_usb x.
Proof.
  intro x. rewrite crc5_par_terms. unfold crc5_usb, crc_bits. rewrite N2bits_testbit.
  set (env := fun i => N.testbit x (N.of_nat i)).
  rewrite (affine_reflect 11 crc5_par_xt _ eq_refl crc5_forms env).
  rewrite (crc_finish_hom aff bool anot negb (eva env) (eva_anot env)).
  rewrite (crc_shifts_hom aff bool axor (aconst 11 false) xorb false (eva env) (eva_axor env) (eva_aconst 11 env false)).
  rewrite map_eva_aconst, map_eva_avar by lia. reflexivity.
Qed.

(* crc5_ser keeps the same shift register in an N *)
Lemma crc5_shift_bits : forall reg b, length reg = 5%nat ->
  crc5_shift (bits2N reg) b = bits2N (crc_shift bool xorb false poly5 reg b).
Proof.
  intros [|a [|b [|c [|d [|e [|]]]]]] m H; try discriminate H. destruct a, b, c, d, e, m; reflexivity.
Qed.

Lemma crc5_shifts_bits : forall bs reg, length reg = 5%nat ->
  fold_left crc5_shift bs (bits2N reg) = bits2N (crc_shifts bool xorb false poly5 reg bs).
Proof.
  induction bs as [|b bs IH]; intros reg H; [reflexivity|]. cbn [fold_left]. unfold crc_shifts. cbn [fold_left].
  rewrite crc5_shift_bits by exact H. apply IH. apply (crc_shift_length bool xorb false poly5 reg b H).
Qed.

Lemma crc5_finish_bits : forall reg, length reg = 5%nat -> rev5 (N.lxor (bits2N reg) 31) = bits2N (crc_finish bool negb reg).
Proof. intros [|a [|b [|c [|d [|e [|]]]]]] H; try discriminate H. destruct a, b, c, d, e; reflexivity. Qed.

Theorem crc5_ser_usb : forall x, crc5_ser x = crc5_usb x.
Proof.
  intro x. unfold crc5_ser, crc5_usb, crc_bits. rewrite N2bits_testbit.
  change 31 with (bits2N (repeat true 5)) at 1. rewrite crc5_shifts_bits by reflexivity.
  apply crc5_finish_bits. apply (crc_update_length poly5). reflexivity.
Qed.

(* the bound is not used: both sides read bits 0..10 of x only *)
Theorem crc5_par_ser : forall x, x < 2048 -> crc5_par x = crc5_ser x.
Proof. intros x _. rewrite crc5_par_usb, crc5_ser_usb. reflexivity. Qed.

Lemma crc5_par_bound : forall x, crc5_par x < 32.
Proof. intro x. rewrite crc5_par_usb. apply crc5_usb_lt. Qed.

Lemma hdr_is_slc_slc_slc_epf : HDR_DATA = data_of HDR_SYMS /\ HDR_CTRL = ctrl_of HDR_SYMS.
Proof. split; reflexivity. Qed.

Lemma payload_bound : forall c s, c < 16 -> s < 16 -> lc_payload c s < 2048.
Proof. intros. unfold lc_payload. lia. Qed.

(* the generated command word carries the reference CRC-5 of its 11 payload bits *)
Theorem lc_word_has_valid_crc : forall c s, c < 16 -> s < 16 ->
  lc_word c s = lc_payload c s + 2048 * crc5_ser (lc_payload c s).
Proof. intros c s Hc Hs. unfold lc_word, lc_word_of. rewrite crc5_par_ser by (apply payload_bound; assumption). reflexivity. Qed.

Lemma lc_word_bound : forall p, p < 2048 -> lc_word_of crc5_par p < 65536.
Proof. intros p H. unfold lc_word_of. pose proof (crc5_par_bound p). lia. Qed.

Lemma two_copies : forall w, w < 65536 -> lc_lo (w + 65536 * w) = w /\ lc_hi (w + 65536 * w) = w.
Proof.
  intros w H. unfold lc_lo, lc_hi. rewrite bits_0, bits_spec. change (2 ^ 16) with 65536.
  rewrite digit_mod, digit_div by exact H. split; [reflexivity | apply N.mod_small, H].
Qed.

Lemma lc_accepts_wellformed : forall p, p < 2048 ->
  lc_accepts (lc_word_of crc5_par p + 65536 * lc_word_of crc5_par p) 0 = true.
Proof.
  intros p Hp. unfold lc_accepts. destruct (two_copies _ (lc_word_bound p Hp)) as [-> ->].
  rewrite !N.eqb_refl. apply N.eqb_eq. unfold lc_word_of.
  rewrite bits_0, bits_spec. change (2 ^ 11) with 2048.
  rewrite digit_mod, digit_div by exact Hp. apply N.mod_small, crc5_par_bound.
Qed.

(* well-formed: no control flag, two identical 16-bit copies, each = 11 payload bits followed by their CRC-5 *)
Theorem lc_accepts_iff_wellformed : forall data ctrl, data < 2 ^ 32 ->
  (lc_accepts data ctrl = true <->
   ctrl = 0 /\ exists p, p < 2048 /\ data = lc_word_of crc5_par p + 65536 * lc_word_of crc5_par p).
Proof.
  intros data ctrl Hd. split.
  - unfold lc_accepts. intros H. apply andb_true_iff in H as [H H3]. apply andb_true_iff in H as [H1 H2].
    apply N.eqb_eq in H1, H2, H3. split; [exact H1|].
    exists (bits (lc_lo data) 0 11). split; [apply (bits_lt _ 0 11)|].
    pose proof (word_split (lc_lo data) 11 5 (bits_lt data 0 16)) as Elo. change (2 ^ 11) with 2048 in Elo.
    pose proof (word_split data 16 16 Hd) as Ed. change (2 ^ 16) with 65536 in Ed.
    unfold lc_word_of. rewrite <- H3, <- Elo. rewrite H2 at 2. exact Ed.
  - intros [-> (p & Hp & ->)]. apply lc_accepts_wellformed. exact Hp.
Qed.

Lemma lc_roundtrip : forall c s, c < 16 -> s < 16 ->
  lc_accepts (lc_data c s) 0 = true /\ bits (lc_data c s) 7 4 = c /\ bits (lc_data c s) 0 4 = s.
Proof.
  intros c s Hc Hs. split; [apply lc_accepts_wellformed, payload_bound; assumption|].
  set (K := crc5_par (lc_payload c s)).
  assert (E : lc_word c s = s + 128 * c + 2048 * K) by reflexivity.
  set (L := [(4, s); (3, 0); (4, c); (5, K); (16, lc_word c s)]).
  assert (HL : fields_ok L).
  { repeat constructor; try assumption; [apply crc5_par_bound | apply lc_word_bound, payload_bound; assumption]. }
  replace (lc_data c s) with (fields_word L) by (subst L; unfold lc_data; cbn [fields_word]; lia).
  split; [exact (bits_fields_word L 2 HL) | exact (bits_fields_word L 0 HL)].
Qed.

Theorem det_reports_iff : forall st i,
  dnew (fst (det_step st i)) = true <->
  dfsm st = D_PARSE /\ d_valid i = true /\ lc_accepts (d_data i) (d_ctrl i) = true.
Proof.
  intros st i. unfold det_step. destruct (dfsm st); cbn [fst dnew].
  - split; [discriminate | intros [H _]; discriminate].
  - destruct (d_valid i); [destruct (lc_accepts (d_data i) (d_ctrl i))|]; cbn [fst dnew];
      split; intro H; try discriminate; try tauto; destruct H as (_ & H1 & H2); discriminate.
Qed.

Theorem det_report_fields : forall st i, dnew (fst (det_step st i)) = true ->
  dcmd (fst (det_step st i)) = bits (d_data i) 7 4 /\ dsub (fst (det_step st i)) = bits (d_data i) 0 4.
Proof.
  intros st i H. pose proof H as H'. apply det_reports_iff in H' as (H1 & H2 & H3).
  unfold det_step. rewrite H1, H2, H3. split; reflexivity.
Qed.

Theorem det_silent_keeps : forall st i, dnew (fst (det_step st i)) = false ->
  dcmd (fst (det_step st i)) = dcmd st /\ dsub (fst (det_step st i)) = dsub st.
Proof.
  intros st i. unfold det_step. destruct (dfsm st); cbn [fst]; [split; reflexivity|].
  destruct (d_valid i); [destruct (lc_accepts (d_data i) (d_ctrl i))|]; cbn [fst dnew dcmd dsub];
    intro H; try discriminate; split; reflexivity.
Qed.

Definition stalled (i : gen_in) : Prop := g_ready i = false.

Lemma gen_idle : forall st i, gfsm st = G_IDLE -> g_generate i = false -> gen_step st i = (st, gen_quiet).
Proof. intros st i H1 H2. unfold gen_step. rewrite H1, H2. reflexivity. Qed.

Lemma gen_hdr_step : forall st, gfsm st = G_HEADER -> forall i, stalled i -> gen_step st i = (st, gen_hdr).
Proof. intros st H1 i H2. unfold gen_step. rewrite H1, H2. reflexivity. Qed.

Lemma gen_cmd_step : forall st, gfsm st = G_COMMAND -> forall i, stalled i ->
  gen_step st i = (st, gen_cmdw (lcmd st) (lsub st) false).
Proof. intros st H1 i H2. unfold gen_step. rewrite H1, H2. reflexivity. Qed.

(* C35: the wire format of a generated command; command/subtype/generate inputs are arbitrary after the request cycle *)
Theorem gen_transaction : forall st i0 pre1 x1 pre2 x2,
  gfsm st = G_IDLE -> g_generate i0 = true ->
  Forall stalled pre1 -> g_ready x1 = true -> Forall stalled pre2 -> g_ready x2 = true ->
  trun gen_step st (i0 :: pre1 ++ x1 :: pre2 ++ [x2])
  = gen_quiet :: repeat gen_hdr (length pre1) ++ gen_hdr
    :: repeat (gen_cmdw (g_cmd i0) (g_sub i0) false) (length pre2) ++ [gen_cmdw (g_cmd i0) (g_sub i0) true]
  /\ gfsm (tstate gen_step st (i0 :: pre1 ++ x1 :: pre2 ++ [x2])) = G_IDLE.
Proof.
  intros st i0 pre1 x1 pre2 x2 Hs Hg H1 Hx1 H2 Hx2.
  set (s1 := {| gfsm := G_HEADER; lcmd := g_cmd i0; lsub := g_sub i0 |}).
  set (s2 := {| gfsm := G_COMMAND; lcmd := g_cmd i0; lsub := g_sub i0 |}).
  set (s3 := {| gfsm := G_IDLE; lcmd := g_cmd i0; lsub := g_sub i0 |}).
  assert (S0 : gen_step st i0 = (s1, gen_quiet)) by (unfold gen_step; rewrite Hs, Hg; reflexivity).
  assert (S1 : gen_step s1 x1 = (s2, gen_hdr)) by (unfold gen_step; cbn [gfsm s1]; rewrite Hx1; reflexivity).
  assert (S2 : gen_step s2 x2 = (s3, gen_cmdw (g_cmd i0) (g_sub i0) true))
    by (unfold gen_step; cbn [gfsm s2]; rewrite Hx2; reflexivity).
  destruct (trun_hold gen_step s1 _ pre1 (Forall_impl _ (gen_hdr_step s1 eq_refl) H1)) as [E1 E2].
  destruct (trun_hold gen_step s2 _ pre2 (Forall_impl _ (gen_cmd_step s2 eq_refl) H2)) as [E3 E4].
  cbn [trun tstate]. rewrite S0. cbn [fst]. rewrite trun_app, tstate_app, E1, E2.
  cbn [trun tstate]. rewrite S1. cbn [fst]. rewrite trun_app, tstate_app, E3, E4.
  cbn [trun tstate]. rewrite S2. cbn [fst]. split; reflexivity.
Qed.

Definition det_regs (d : det_state) : det_out := {| r_cmd := dcmd d; r_sub := dsub d; r_new := dnew d |}.
Definition det_quiet (d : det_state) : det_out := {| r_cmd := dcmd d; r_sub := dsub d; r_new := false |}.
Definition det_hold (d : det_state) (f : det_fsm) : det_state :=
  {| dfsm := f; dcmd := dcmd d; dsub := dsub d; dnew := false |}.

Lemma det_hold_idem : forall d f, det_hold (det_hold d f) f = det_hold d f.
Proof. reflexivity. Qed.

Lemma det_out_regs : forall st i, snd (det_step st i) = det_regs st.
Proof. intros st i. unfold det_step. destruct (dfsm st); [reflexivity|]. destruct (d_valid i); [destruct (lc_accepts _ _)|]; reflexivity. Qed.

Lemma det_step_invalid : forall d i, d_valid i = false -> det_step d i = (det_hold d (dfsm d), det_regs d).
Proof. intros d i H. unfold det_step, is_header. rewrite H. destruct (dfsm d); reflexivity. Qed.

Lemma rt_stall : forall g d f o pre, (forall i, stalled i -> gen_step g i = (g, o)) -> Forall stalled pre ->
  map fst (trun rt_step (g, det_hold d f) pre) = repeat (det_quiet d) (length pre) /\
  tstate rt_step (g, det_hold d f) pre = (g, det_hold d f).
Proof.
  intros g d f o pre Hg Hp.
  destruct (trun_hold rt_step (g, det_hold d f) (det_quiet d, o) pre) as [E1 E2].
  - eapply Forall_impl; [|exact Hp]. intros i Hi. unfold rt_step. cbn [fst snd]. rewrite (Hg i Hi).
    rewrite det_step_invalid by (unfold link_word; cbn [d_valid]; rewrite Hi; apply andb_false_r).
    reflexivity.
  - rewrite E1, E2, map_repeat. split; reflexivity.
Qed.

(* C35: exactly one report, of exactly the requested command, in the cycle x3 after the command word was transferred;
   the detector's registers may hold an earlier report *)
Theorem roundtrip : forall g d i0 pre1 x1 pre2 x2 x3,
  gfsm g = G_IDLE -> dfsm d = D_WAIT -> g_generate i0 = true -> g_cmd i0 < 16 -> g_sub i0 < 16 ->
  Forall stalled pre1 -> g_ready x1 = true -> Forall stalled pre2 -> g_ready x2 = true ->
  map fst (trun rt_step (g, d) (i0 :: pre1 ++ x1 :: pre2 ++ [x2; x3]))
  = det_regs d :: repeat (det_quiet d) (length pre1) ++ det_quiet d
    :: repeat (det_quiet d) (length pre2) ++ [det_quiet d; {| r_cmd := g_cmd i0; r_sub := g_sub i0; r_new := true |}].
Proof.
  intros g d i0 pre1 x1 pre2 x2 x3 Hg Hd Hgen Hc Hs H1 Hx1 H2 Hx2.
  set (c := g_cmd i0) in *. set (s := g_sub i0) in *.
  set (g1 := {| gfsm := G_HEADER; lcmd := c; lsub := s |}).
  set (g2 := {| gfsm := G_COMMAND; lcmd := c; lsub := s |}).
  set (g3 := {| gfsm := G_IDLE; lcmd := c; lsub := s |}).
  set (d3 := {| dfsm := D_WAIT; dcmd := c; dsub := s; dnew := true |}).
  destruct (lc_roundtrip c s Hc Hs) as (A1 & A2 & A3).
  assert (S0 : rt_step (g, d) i0 = ((g1, det_hold d D_WAIT), (det_regs d, gen_quiet))).
  { unfold rt_step. cbn [fst snd]. unfold gen_step. rewrite Hg, Hgen.
    rewrite det_step_invalid, Hd; reflexivity. }
  assert (S1 : rt_step (g1, det_hold d D_WAIT) x1 = ((g2, det_hold d D_PARSE), (det_quiet d, gen_hdr))).
  { unfold rt_step. cbn [fst snd]. unfold gen_step. cbn [gfsm g1]. rewrite Hx1. reflexivity. }
  assert (S2 : rt_step (g2, det_hold d D_PARSE) x2 = ((g3, d3), (det_quiet d, gen_cmdw c s true))).
  { unfold rt_step. cbn [fst snd]. unfold gen_step. cbn [gfsm g2 lcmd lsub]. rewrite Hx2.
    unfold det_step, link_word. cbn [dfsm det_hold gen_cmdw g_valid g_data g_ctrl d_valid d_data d_ctrl andb].
    rewrite A1, A2, A3. reflexivity. }
  destruct (rt_stall g1 d D_WAIT _ pre1 (gen_hdr_step g1 eq_refl) H1) as [E1 E2].
  destruct (rt_stall g2 d D_PARSE _ pre2 (gen_cmd_step g2 eq_refl) H2) as [E3 E4].
  cbn [trun map]. rewrite S0. cbn [fst snd map]. f_equal.
  rewrite trun_app, map_app, E1, E2. f_equal.
  cbn [trun map]. rewrite S1. cbn [fst snd map]. f_equal.
  rewrite trun_app, map_app, E3, E4. f_equal.
  cbn [trun map]. rewrite S2. cbn [fst snd map].
  (* the cycle after: g3 is idle and d3 waits, so the step computes, and the detector shows d3 *)
  reflexivity.
Qed.

(* packed machines, for the lock-step tie to the netlist (props/C35.py) *)
Lemma gen_mrun : forall tr st, run gen_mstep st tr = map gen_eout (trun gen_step st (map gen_din tr)).
Proof. intros. unfold gen_mstep. apply (run_packed gen_step gen_din gen_eout). Qed.
Lemma det_mrun : forall tr st, run det_mstep st tr = map det_eout (trun det_step st (map det_din tr)).
Proof. intros. unfold det_mstep. apply (run_packed det_step det_din det_eout). Qed.
Lemma rt_mrun : forall tr st, run rt_mstep st tr = map rt_eout (trun rt_step st (map gen_din tr)).
Proof. intros. unfold rt_mstep. apply (run_packed rt_step gen_din rt_eout). Qed.

Definition gen_wf (st : gen_state) : Prop := lcmd st < 16 /\ lsub st < 16.
Definition det_wf (st : det_state) : Prop := dcmd st < 16 /\ dsub st < 16.
Definition rt_wf (st : gen_state * det_state) : Prop := gen_wf (fst st) /\ det_wf (snd st).

Lemma gen_dec_enc : forall st, gen_wf st -> gen_dec (gen_enc st) = st.
Proof.
  intros [f c s] [Hc Hs]. cbn [lcmd lsub] in *. unfold gen_dec, gen_enc. cbn [gfsm lcmd lsub].
  set (k := match f with G_IDLE => 0 | G_HEADER => 1 | G_COMMAND => 2 end).
  assert (Hk : k < 4) by (destruct f; reflexivity).
  replace (k + 4 * c + 64 * s) with (k + 4 * (c + 16 * s)) by lia.
  change 64 with (4 * 16). rewrite <- N.div_div by discriminate.
  rewrite digit_mod, digit_div by exact Hk. rewrite digit_mod, digit_div by exact Hc.
  destruct f; reflexivity.
Qed.

Lemma gen_wf_next : forall st i, gen_wf st -> g_cmd i < 16 -> g_sub i < 16 -> gen_wf (fst (gen_step st i)).
Proof.
  intros st i H Hic His. unfold gen_step. destruct (gfsm st); cbn [fst];
    [destruct (g_generate i) | destruct (g_ready i) | destruct (g_ready i)]; (exact H || split; assumption).
Qed.

Lemma gen_din_ok : forall i, g_cmd (gen_din i) < 16 /\ g_sub (gen_din i) < 16.
Proof. intros. split; apply (bits_lt _ _ 4). Qed.

Lemma gen_wf_step : forall st i, gen_wf st -> gen_wf (fst (gen_mstep st i)).
Proof.
  intros st i H. unfold gen_mstep. rewrite fst_let_pair. destruct (gen_din_ok i).
  apply gen_wf_next; assumption.
Qed.

Lemma gen_wf_init : gen_wf gen_init. Proof. split; reflexivity. Qed.

Lemma det_dec_enc : forall st, det_wf st -> det_dec (det_enc st) = st.
Proof.
  intros [f c s n] [Hc Hs]. cbn [dcmd dsub] in *. unfold det_dec, det_enc. cbn [dfsm dcmd dsub dnew].
  set (k := match f with D_WAIT => 0 | D_PARSE => 1 end).
  assert (Hk : k < 2) by (destruct f; reflexivity).
  replace (k + 2 * b2n n + 4 * c + 64 * s) with (k + 2 * (b2n n + 2 * (c + 16 * s))) by lia.
  change 64 with (2 * 2 * 16). change 4 with (2 * 2). rewrite <- !N.div_div by discriminate.
  rewrite digit_mod, digit_div by exact Hk. rewrite digit_mod, digit_div by apply b2n_lt2.
  rewrite digit_mod, digit_div by exact Hc. rewrite b2n_eqb1.
  destruct f; reflexivity.
Qed.

Lemma det_wf_next : forall st i, det_wf st -> det_wf (fst (det_step st i)).
Proof.
  intros st i H. unfold det_step. destruct (dfsm st); cbn [fst]; [exact H|].
  destruct (d_valid i); [destruct (lc_accepts _ _)|]; cbn [fst]; try exact H.
  split; apply (bits_lt _ _ 4).
Qed.

Lemma det_wf_step : forall st i, det_wf st -> det_wf (fst (det_mstep st i)).
Proof. intros st i H. unfold det_mstep. rewrite fst_let_pair. apply det_wf_next. exact H. Qed.

Lemma det_wf_init : det_wf det_init. Proof. split; reflexivity. Qed.

Lemma gen_enc_bound : forall st, gen_wf st -> gen_enc st < 1024.
Proof. intros [f c s] [Hc Hs]. cbn [lcmd lsub] in *. unfold gen_enc. cbn [gfsm lcmd lsub]. destruct f; lia. Qed.

Lemma rt_dec_enc : forall st, rt_wf st -> rt_dec (rt_enc st) = st.
Proof.
  intros [g d] [Hg Hd]. cbn [fst snd] in *. unfold rt_dec, rt_enc. cbn [fst snd].
  rewrite digit_mod, digit_div by (apply gen_enc_bound; exact Hg).
  rewrite gen_dec_enc, det_dec_enc by assumption. reflexivity.
Qed.

Lemma rt_step_fst : forall g d i,
  fst (rt_step (g, d) i) = (fst (gen_step g i), fst (det_step d (link_word (snd (gen_step g i)) (g_ready i)))).
Proof.
  intros. unfold rt_step. cbn [fst snd]. destruct (gen_step g i) as [g' go]. cbn [fst snd].
  destruct (det_step d (link_word go (g_ready i))). reflexivity.
Qed.

Lemma rt_wf_step : forall st i, rt_wf st -> rt_wf (fst (rt_mstep st i)).
Proof.
  intros [g d] i [Hg Hd]. unfold rt_mstep. rewrite fst_let_pair, rt_step_fst. destruct (gen_din_ok i).
  split; [apply gen_wf_next | apply det_wf_next]; assumption.
Qed.

Lemma rt_wf_init : rt_wf (gen_init, det_init). Proof. split; [apply gen_wf_init | apply det_wf_init]. Qed.
