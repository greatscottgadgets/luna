(* C09 -- what the refinement proofs of the GET_DESCRIPTOR handler models (DescBlock_proofs.v, DescDist_proofs.v,
   DescMux_proofs.v) share: the legal requests and the length both handlers compute for them (held_len), the cycles of
   the specification machine s_step (wait_now, wait_later, deliver_absent, deliver_zlp, deliver_data), and its progress
   through the bytes of an answer (serving). *)
From Coq Require Import NArith Arith List Bool Lia ZifyN.
Import ListNotations.
From LunaLib Require Import Netlist Machine ListFacts BitFacts.
From LunaModel Require Import DescSpec DescSpec_proofs DescRom DescRom_proofs.
Open Scope N_scope.

Definition lenq (mps : N) (q : dreq) : N := N.min mps (q_wlen q - q_sp q).
Definition q_bounded (q : dreq) : Prop := q_value q < 65536 /\ q_wlen q < 65536 /\ q_sp q < 2048.
Definition fd (c : dcoll) (q : dreq) : option desc := find_desc c (v_type (q_value q)) (v_index (q_value q)).

Lemma i_wlen_lt : forall i, i_wlen i < 65536.
Proof. intros i. exact (bits_lt i 16 16). Qed.
Lemma i_value_lt : forall i, i_value i < 65536.
Proof. intros i. exact (bits_lt i 0 16). Qed.
Lemma i_sp_lt : forall i, i_sp i < 2048.
Proof. intros i. exact (bits_lt i 33 11). Qed.

Lemma req_of_bounded : forall i, q_bounded (req_of i).
Proof. intros i. split; [apply i_value_lt | split; [apply i_wlen_lt | apply i_sp_lt]]. Qed.

Lemma held_fields : forall q i, held q i = true ->
  i_value i = q_value q /\ i_wlen i = q_wlen q /\ i_sp i = q_sp q /\ i_start i = false.
Proof.
  intros q i H. unfold held in H. repeat (apply andb_true_iff in H as [H ?]).
  repeat split; try (apply N.eqb_eq; assumption). destruct (i_start i); [discriminate | reflexivity].
Qed.

Lemma firstn_skipn_is_nil : forall (d : list N) n p,
  match firstn n (skipn p d) with [] => true | _ :: _ => false end = (n =? 0)%nat || (length d <=? p)%nat.
Proof.
  intros d n p. destruct n as [|n]; [reflexivity|]. cbn [Nat.eqb orb].
  destruct (Nat.leb_spec (length d) p) as [H|H].
  - rewrite skipn_all2 by exact H. reflexivity.
  - rewrite (skipn_cons_nth d p 0) by exact H. reflexivity.
Qed.

Lemma req_legal_sp_lt : forall c q, req_legal c q = true -> q_sp q < q_wlen q.
Proof. intros c q H. unfold req_legal in H. apply andb_true_iff in H as [H _]. lia. Qed.

Lemma req_legal_sp_le : forall c q d, req_legal c q = true -> fd c q = Some d -> q_sp q <= nlen d.
Proof.
  intros c q d H E. unfold req_legal in H. fold (fd c q) in H. rewrite E in H. apply andb_true_iff in H as [_ H]. lia.
Qed.

Definition legal (c : dcoll) (q : dreq) : Prop := q_bounded q /\ req_legal c q = true.

Lemma lenq_bounds : forall c mps q, 1 <= mps -> legal c q -> 1 <= lenq mps q /\ lenq mps q < 65536.
Proof. intros c mps q Hm ((_ & Hw & _) & Hl). apply req_legal_sp_lt in Hl. unfold lenq. lia. Qed.

(* Both handlers compute  length = (words_remaining <= max packet) ? words_remaining : max packet  with
   words_remaining = wLength - start_position as signed(17), cut to 16 bits (DescBlock.len_next, DescDist.ds_len). *)
Lemma held_len : forall c mps q i, legal c q -> i_wlen i = q_wlen q -> i_sp i = q_sp q ->
  (if i_wlen i <? i_sp i then trunc 16 (i_wlen i + 65536 - i_sp i)
   else if i_wlen i - i_sp i <=? mps then i_wlen i - i_sp i else trunc 16 mps) = lenq mps q.
Proof.
  intros c mps q i ((_ & Hw & _) & Hl) -> ->. apply req_legal_sp_lt in Hl. unfold lenq.
  destruct (N.ltb_spec (q_wlen q) (q_sp q)); [lia|].
  destruct (N.leb_spec (q_wlen q - q_sp q) mps); [lia|]. rewrite trunc_small by (change (2 ^ 16) with 65536; lia). lia.
Qed.

Definition chunk (d : desc) (p n : N) : list N := firstn (N.to_nat n) (skipn (N.to_nat p) d).

Lemma chunk_cons : forall d p n, p < nlen d -> 1 <= n ->
  chunk d p n = nth (N.to_nat p) d 0 :: chunk d (p + 1) (n - 1).
Proof.
  intros d p n Hp Hn. unfold chunk. rewrite (skipn_cons_nth d (N.to_nat p) 0) by (unfold nlen in Hp; lia).
  replace (N.to_nat n) with (S (N.to_nat (n - 1))) by lia. replace (N.to_nat (p + 1)) with (S (N.to_nat p)) by lia.
  reflexivity.
Qed.

Lemma chunk_past : forall d p n, nlen d <= p -> chunk d p n = [].
Proof. intros d p n H. unfold chunk. rewrite skipn_all2 by (unfold nlen in H; lia). apply firstn_nil. Qed.

Lemma chunk_is_nil : forall d p n,
  match chunk d p n with [] => true | _ :: _ => false end = (n =? 0) || (nlen d <=? p).
Proof. intros d p n. unfold chunk, nlen. rewrite firstn_skipn_is_nil. lia. Qed.

Lemma Forall_chunk : forall (P : N -> Prop) d p n, Forall P d -> Forall P (chunk d p n).
Proof. intros P d p n H. apply Forall_firstn, Forall_skipn, H. Qed.

Lemma send_chunk : forall d p n f q i, p < nlen d -> 1 <= n ->
  send (chunk d p n) f q i =
  let last := (nlen d =? p + 1) || (n <=? 1) in
  (if i_ready i then if last then SIdle else SSend (chunk d (p + 1) (n - 1)) false q else SSend (chunk d p n) f q,
   o_beat (nth (N.to_nat p) d 0) f last).
Proof.
  intros d p n f q i Hp Hn. rewrite (chunk_cons d p n Hp Hn). cbn [send]. rewrite chunk_is_nil.
  replace ((n - 1 =? 0) || (nlen d <=? p + 1)) with ((nlen d =? p + 1) || (n <=? 1)) by lia. reflexivity.
Qed.

Lemma wait_now : forall resp q i, wait resp 0 q i = deliver resp q i.
Proof. reflexivity. Qed.

Lemma wait_later : forall resp k q i, k <> 0 -> wait resp k q i = (SWait (k - 1) q, o_quiet).
Proof. intros resp k q i H. unfold wait. apply N.eqb_neq in H. rewrite H. reflexivity. Qed.

Section SpecMachine.
  Variable c : dcoll.
  Variable mps : N.
  Local Notation resp := (resp_of c mps).
  Local Notation lenq := (lenq mps).

  Lemma resp_absent : forall q, fd c q = None -> resp q = RStall.
  Proof. intros q H. unfold resp_of, respond. fold (fd c q). rewrite H. reflexivity. Qed.

  Lemma resp_present : forall q d, fd c q = Some d -> resp q = RData (chunk d (q_sp q) (lenq q)).
  Proof. intros q d H. exact (respond_present c mps _ _ d H _). Qed.

  Lemma deliver_absent : forall q i, fd c q = None -> deliver resp q i = (SIdle, o_stall).
  Proof. intros q i H. unfold deliver. rewrite (resp_absent q H). reflexivity. Qed.

  Lemma deliver_zlp : forall q d i, fd c q = Some d -> nlen d <= q_sp q -> deliver resp q i = (SIdle, o_zlp).
  Proof. intros q d i H Hz. unfold deliver. rewrite (resp_present q d H), chunk_past by exact Hz. reflexivity. Qed.

  Lemma deliver_data : forall q d i, fd c q = Some d -> q_sp q < nlen d -> 1 <= lenq q ->
    deliver resp q i = send (chunk d (q_sp q) (lenq q)) true q i.
  Proof.
    intros q d i H Hp Hn. unfold deliver. rewrite (resp_present q d H), (chunk_cons d _ _ Hp Hn). reflexivity.
  Qed.

  (* The specification machine is at byte `sent` of its answer to the legal request q, taken from descriptor d: it
     sends the rest, or (sent = 0) begins in this cycle. *)
  Definition serving (d : desc) (q : dreq) (sent : N) (s : sstate) : Prop :=
    legal c q /\ fd c q = Some d /\ q_sp q + sent < nlen d /\ sent < lenq q /\
    (s = SSend (chunk d (q_sp q + sent) (lenq q - sent)) (sent =? 0) q \/ (s = SWait 0 q /\ sent = 0)).

  Lemma serving_begin : forall d q, legal c q -> fd c q = Some d -> q_sp q < nlen d -> 1 <= mps ->
    serving d q 0 (SWait 0 q).
  Proof.
    intros d q Hl Hf Hp Hm. destruct (lenq_bounds c mps q Hm Hl) as [H1 _].
    split; [exact Hl | split; [exact Hf | split; [lia | split; [lia | right; split; reflexivity]]]].
  Qed.

  Lemma serving_env : forall ok d q sent s i, serving d q sent s -> s_env ok s i = held q i.
  Proof. intros ok d q sent s i (_ & _ & _ & _ & [-> | [-> _]]); reflexivity. Qed.

  (* declared only here: `lia` in the proofs above would otherwise make them take it as an argument *)
  Variable lat : dreq -> N.

  Lemma serving_step : forall d q sent s i, serving d q sent s ->
    let last := (nlen d =? q_sp q + sent + 1) || (lenq q <=? sent + 1) in
    let s' := fst (s_step resp lat s i) in
    snd (s_step resp lat s i) = o_beat (nth (N.to_nat (q_sp q + sent)) d 0) (sent =? 0) last /\
    (if i_ready i then if last then s' = SIdle else serving d q (sent + 1) s' else serving d q sent s').
  Proof.
    intros d q sent s i (Hl & Hf & Hp & Hn & Hs) last s'.
    assert (E : s_step resp lat s i = send (chunk d (q_sp q + sent) (lenq q - sent)) (sent =? 0) q i).
    { destruct Hs as [-> | [-> ->]]; [reflexivity|]. rewrite N.add_0_r, N.sub_0_r in *.
      apply (deliver_data q d i Hf Hp). lia. }
    subst s'. rewrite E, send_chunk by lia. cbv zeta.
    replace ((nlen d =? q_sp q + sent + 1) || (lenq q - sent <=? 1)) with last by (subst last; lia).
    cbn [fst snd]. split; [reflexivity|].
    destruct (i_ready i); [|exact (conj Hl (conj Hf (conj Hp (conj Hn (or_introl eq_refl)))))].
    destruct last eqn:El; [reflexivity|].
    (* accepted and not the last byte: the two bounds for sent + 1 are the negated end test *)
    split; [exact Hl | split; [exact Hf | split; [lia | split; [lia | left]]]]. f_equal; [|lia]. f_equal; lia.
  Qed.
End SpecMachine.

