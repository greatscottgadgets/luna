(* C17 -- proofs about Model/SignalIn.v: the byte serialisation (nth_to_bytes, from_le_bytes_le); the module refines its
   specification from related states on, in particular from reset (sigin_refines, through the relation si_rel); facts
   about the specification's phases; packing lemmas. *)
From Coq Require Import NArith List Bool Lia ZifyBool.
Import ListNotations.
From LunaLib Require Import Netlist Machine BitFacts ListFacts.
From LunaModel Require Import SignalIn.
Open Scope N_scope.

Lemma length_bytes_le : forall n v, length (bytes_le n v) = n.
Proof. induction n; intros; simpl; [reflexivity | rewrite IHn; reflexivity]. Qed.

Lemma length_to_bytes : forall big n v, length (to_bytes big n v) = n.
Proof. intros [] n v; unfold to_bytes; [rewrite rev_length|]; apply length_bytes_le. Qed.

Lemma to_bytes_big_rev : forall n v, to_bytes true n v = rev (to_bytes false n v).
Proof. reflexivity. Qed.

Lemma from_le_bytes_le : forall n v, v < 256 ^ N.of_nat n -> from_le (bytes_le n v) = v.
Proof.
  induction n as [|n IH]; intros v Hv.
  - simpl in *. lia.
  - rewrite Nat2N.inj_succ, N.pow_succ_r' in Hv. cbn [bytes_le from_le].
    rewrite IH by (apply N.div_lt_upper_bound; [discriminate | exact Hv]).
    rewrite N.add_comm. symmetry. apply N.div_mod'.
Qed.

Lemma nth_bytes_le : forall n v k, (k < n)%nat -> nth k (bytes_le n v) 0 = bits v (8 * N.of_nat k) 8.
Proof.
  induction n as [|n IH]; intros v k Hk; [lia|].
  destruct k as [|k]; cbn [bytes_le nth].
  - rewrite N.mul_0_r. symmetry. apply (bits_0 v 8).
  - rewrite IH by lia. unfold bits. f_equal.
    rewrite Nat2N.inj_succ. change 256 with (2 ^ 8). rewrite <- N.shiftr_div_pow2, N.shiftr_shiftr.
    f_equal. lia.
Qed.

Lemma nth_to_bytes : forall big n v k, (k < n)%nat ->
  nth k (to_bytes big n v) 0 = bits v (8 * N.of_nat (if big then n - 1 - k else k)) 8.
Proof.
  intros [] n v k Hk; unfold to_bytes.
  - rewrite rev_nth by (rewrite length_bytes_le; exact Hk). rewrite length_bytes_le.
    rewrite nth_bytes_le by lia. do 3 f_equal. lia.
  - apply nth_bytes_le. exact Hk.
Qed.

Section Proofs.
  Variable W : N.
  Variable big : bool.
  Variable ep : N.

  Notation nb := (nb W).
  Notation nbn := (nbn W).
  Notation bw := (bw W).

  Lemma nb_lt_pow : nb < 2 ^ bw.
  Proof. unfold SignalIn.bw. apply N.size_gt. Qed.
  Lemma nbn_nb : N.of_nat nbn = nb.
  Proof. unfold SignalIn.nbn. apply N2Nat.id. Qed.

  Definition si_rel (s : si_state) (sp : ssp_state) : Prop :=
    s_tog s = snd sp /\
    match fst sp with
    | P_IDLE => s_fsm s = S_IDLE /\ si_payload W big s = 0
    | P_SEND v rest => s_fsm s = S_TX /\ s_lat s = v /\ s_bt s < nb /\
                       rest = skipn (N.to_nat (s_bt s)) (to_bytes big nbn v)
    | P_WAIT v => s_fsm s = S_WAIT /\ s_lat s = v /\ s_bt s = nb
    | P_RETRY v => s_fsm s = S_RETX /\ s_lat s = v /\ s_bt s = nb
    end.

  Lemma si_rel_init : si_rel si_init ssp_init.
  Proof.
    split; [reflexivity|]. cbn [fst ssp_init]. split; [reflexivity|].
    unfold si_payload, si_init. cbn [s_bt s_lat]. destruct (0 <? nb); [apply bits_zero | reflexivity].
  Qed.

  Lemma payload_done : forall s, s_bt s = nb -> si_payload W big s = 0.
  Proof. intros s H. unfold si_payload. rewrite H, N.ltb_irrefl. reflexivity. Qed.

  Lemma payload_send : forall s, s_bt s < nb ->
    si_payload W big s = nth (N.to_nat (s_bt s)) (to_bytes big nbn (s_lat s)) 0.
  Proof.
    intros s Hb. unfold si_payload. destruct (s_bt s <? nb) eqn:E; [|lia].
    assert (Hk : (N.to_nat (s_bt s) < nbn)%nat) by (pose proof nbn_nb; lia).
    rewrite nth_to_bytes by exact Hk. do 2 f_equal.
    pose proof nbn_nb. destruct big; lia.
  Qed.

  Hypothesis HW : 1 <= W.

  Lemma nb_pos : 1 <= nb.
  Proof. apply N.div_le_lower_bound; [discriminate | lia]. Qed.

  Lemma si_rel_step : forall sp s i, si_rel s sp -> si_env W i = true ->
    si_rel (fst (si_step W big ep s i)) (fst (ssp_step W big ep sp i)) /\
    snd (ssp_step W big ep sp i) = snd (si_step W big ep s i).
  Proof.
    intros [ph tg] s i [Ht Hp] He. cbn [snd fst] in Ht, Hp. subst tg.
    unfold si_step, ssp_step, si_next, si_out, in_tx, si_rel. cbn [fst snd].
    pose proof nb_pos as Hnb. pose proof nb_lt_pow as Hpw. pose proof nbn_nb as Hnn.
    destruct ph as [|v rest|v|v].
    - destruct Hp as [Hf Hpay]. rewrite Hf, Hpay. cbn [andb].
      destruct (si_req W ep i); cbn [fst snd s_fsm s_bt s_lat s_tog]; repeat split; (assumption || lia).
    - destruct Hp as (Hf & <- & Hb & Hr). rewrite Hf. cbn [andb].
      set (k := N.to_nat (s_bt s)) in *.
      assert (Hlen : length rest = (nbn - k)%nat) by (rewrite Hr, skipn_length, length_to_bytes; reflexivity).
      replace (Nat.eqb (length rest) nbn) with (s_bt s =? 0) by (rewrite Hlen; unfold k; lia).
      replace (Nat.eqb (length rest) 1) with (s_bt s + 1 =? nb) by (rewrite Hlen; unfold k; lia).
      replace (hd 0 rest) with (si_payload W big s) by (rewrite Hr, hd_skipn; apply payload_send, Hb).
      split; [|reflexivity].
      destruct (si_ready W i); cbn [fst snd s_fsm s_bt s_lat s_tog]; [|repeat split; assumption].
      rewrite Hr, tl_skipn, N.mod_small by lia. fold k.
      destruct (N.eqb_spec (s_bt s + 1) nb) as [E|E].
      + rewrite skipn_all2 by (rewrite length_to_bytes; unfold k; lia). repeat split; (assumption || lia).
      + destruct (skipn (S k) (to_bytes big nbn (s_lat s))) as [|r0 r] eqn:Es.
        * apply (f_equal (@length N)) in Es. rewrite skipn_length, length_to_bytes in Es. cbn in Es. unfold k in Es. lia.
        * repeat split; try assumption; try lia. rewrite <- Es. f_equal. unfold k. lia.
    - destruct Hp as (Hf & Hl & Hb). rewrite Hf, (payload_done s Hb). cbn [andb]. unfold si_env in He.
      destruct (si_ack W i), (si_newtok W i); try discriminate He; cbn [fst snd s_fsm s_bt s_lat s_tog];
        repeat split; try assumption. apply payload_done. exact Hb.
    - destruct Hp as (Hf & Hl & Hb). rewrite Hf, (payload_done s Hb). cbn [andb].
      destruct (si_req W ep i); cbn [fst snd s_fsm s_bt s_lat s_tog]; repeat split; (assumption || lia).
  Qed.

  Fixpoint env_all (tr : list N) : bool :=
    match tr with [] => true | i :: t => si_env W i && env_all t end.
End Proofs.

Section Refine.
  Variable W : N.
  Variable big : bool.
  Variable ep : N.

  Lemma env_all_env_ok : forall tr s, env_all W tr = true ->
    env_ok si_state (si_step W big ep) (fun _ i => si_env W i) s tr = true.
  Proof.
    induction tr as [|i tr IH]; intros s H; [reflexivity|].
    cbn [env_all] in H. apply andb_true_iff in H as [H1 H2]. cbn [env_ok]. rewrite H1. apply IH. exact H2.
  Qed.

  Theorem sigin_refines : 1 <= W -> forall tr s sp, si_rel W big s sp -> env_all W tr = true ->
    run (si_step W big ep) s tr = run (ssp_step W big ep) sp tr.
  Proof.
    intros HW tr s sp H He. symmetry.
    exact (sim_run _ _ (fun sp s => si_rel W big s sp) _ (si_rel_step W big ep HW) tr sp s H (env_all_env_ok tr s He)).
  Qed.

  Corollary sigin_from_reset : 1 <= W -> forall tr, env_all W tr = true ->
    run (si_step W big ep) si_init tr = run (ssp_step W big ep) ssp_init tr.
  Proof. intros HW tr He. apply sigin_refines; [exact HW | apply si_rel_init | exact He]. Qed.
End Refine.

Section SpecFacts.
  Variable W : N.
  Variable big : bool.
  Variable ep : N.

  Lemma ssp_toggle : forall ph tog i,
    snd (fst (ssp_step W big ep (ph, tog) i))
    = xorb tog (match ph with P_WAIT _ => si_ack W i | _ => false end).
  Proof. intros [|v rest|v|v] tog i; cbn [ssp_step fst snd]; try reflexivity; destruct tog; reflexivity. Qed.

  Definition phase_value (ph : sp_phase) : option N :=
    match ph with P_IDLE => None | P_SEND v _ => Some v | P_WAIT v => Some v | P_RETRY v => Some v end.
  Lemma ssp_value_stable : forall ph tog i v,
    phase_value ph = Some v ->
    phase_value (fst (fst (ssp_step W big ep (ph, tog) i))) = Some v \/
    (fst (fst (ssp_step W big ep (ph, tog) i)) = P_IDLE /\ exists w, ph = P_WAIT w /\ si_ack W i = true).
  Proof.
    intros [|w rest|w|w] tog i v H; cbn [phase_value] in H; try discriminate; inversion H; subst w;
      cbn [ssp_step fst snd].
    - left. destruct (si_ready W i); [destruct (tl rest)|]; reflexivity.
    - destruct (si_ack W i); [right; split; [reflexivity | exists v; split; reflexivity]|].
      left. destruct (si_newtok W i); reflexivity.
    - left. destruct (si_req W ep i); reflexivity.
  Qed.

  Fixpoint count_ready (seg : list N) : nat :=
    match seg with [] => O | i :: t => ((if si_ready W i then 1 else 0) + count_ready t)%nat end.

  Lemma ssp_send_progress : forall seg v rest tog, (count_ready seg < length rest)%nat ->
    run_state (ssp_step W big ep) (P_SEND v rest, tog) seg = (P_SEND v (skipn (count_ready seg) rest), tog).
  Proof.
    induction seg as [|i seg IH]; intros v rest tog H; [reflexivity|].
    cbn [count_ready] in *. cbn [run_state ssp_step fst].
    destruct (si_ready W i).
    - destruct rest as [|a [|b r]]; cbn [length] in H; try lia.
      cbn [tl]. rewrite IH by (cbn [length]; lia). reflexivity.
    - apply IH. exact H.
  Qed.

  Lemma ssp_send_finish : forall v b tog i, si_ready W i = true ->
    fst (ssp_step W big ep (P_SEND v [b], tog) i) = (P_WAIT v, tog).
  Proof. intros v b tog i H. cbn [ssp_step fst tl]. rewrite H. reflexivity. Qed.
End SpecFacts.

Section Packing.
  Variable W : N.
  Variable big : bool.
  Variable ep : N.

  Definition si_wf (s : si_state) : Prop := s_bt s < 2 ^ bw W.

  Lemma si_dec_enc : forall s, si_wf s -> si_dec W (si_enc W s) = s.
  Proof.
    intros [f bt lat tog] H. unfold si_wf, si_dec, si_enc in *. cbn [s_fsm s_bt s_lat s_tog] in *.
    assert (Hf : si_fsm_code f < 4) by (destruct f; reflexivity).
    change 8 with (4 * 2). rewrite <- !N.div_div by discriminate.
    rewrite (digit_mod 4), !(digit_div 4) by exact Hf. rewrite odd_b2n_add_2, !(digit_div 2) by apply b2n_lt2.
    rewrite digit_mod, digit_div by exact H. destruct f; reflexivity.
  Qed.

  Lemma si_wf_step : forall s i, si_wf s -> si_wf (fst (si_step W big ep s i)).
  Proof.
    intros s i H. unfold si_wf, si_step, si_next in *. cbn [fst].
    destruct (s_fsm s); [destruct (si_req W ep i) | destruct (si_ready W i) | | destruct (si_req W ep i)]; cbn [s_bt];
      try exact H; try apply pow2_pos.
    apply N.mod_lt, pow2_nz.
  Qed.

  Lemma si_wf_init : si_wf si_init.
  Proof. apply pow2_pos. Qed.
End Packing.
