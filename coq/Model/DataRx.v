(* C40 -- hand model of luna/gateware/usb/usb3/link/data.py: DataPacketReceiver, and its specification.

   The module watches a stream of 32-bit words + 4 ctrl bits + valid (USBRawSuperSpeedStream) for
     HPSTART  dw0 dw1 dw2 dw3  DPPSTART  payload words ...  (word holding the end of the) CRC32
   and presents the payload on `source` (byte-valid mask, first, last), the header on `header`, and strobes
   packet_good / packet_bad.

   The model is PROPERTY-SATISFYING: it differs from the /repo code before db83248 in five places (all confirmed on the
   simulator, see findings/C40-*.json|.diff):
     (a) CHECK_CRC32 leaves to WAIT_FOR_HPSTART on a good CRC too (that code stayed and reported again),
     (b) CHECK_CRC32 and (e) the CRC-failure branch of CHECK_HEADER act only on valid words,
     (c) a ctrl symbol inside the last payload word ends the packet (that code reported bad and then checked the CRC too),
     (d) an empty payload compares the received CRC32 word (that code compared the constant 0 with crc32('') = 0).

   Parametric in: the two CRC units (`crc_units`: the real ones of Model/Crc.v, or small stand-ins for the
   netlist tie), the width `lw` of data_bytes_remaining (LUNA: 11 = Signal(range(1024 + 1))), and `hd`
   (whether the header registers are tracked; hd = false is the control core, used against a netlist sliced to
   the non-header outputs). *)
From Coq Require Import NArith List Bool.
Import ListNotations.
From LunaLib Require Import Netlist Bits Machine PackN.
From LunaModel Require Import Crc.
Open Scope N_scope.

(* ---- words and bytes ------------------------------------------------------------------------------- *)
Definition DRX_HPSTART  : N := 4160486395.   (* 0xF7FBFBFB = SHP SHP SHP EPF, ctrl 1111 *)
Definition DRX_DPPSTART : N := 4150025308.   (* 0xF75C5C5C = SDP SDP SDP EPF, ctrl 1111 *)
Definition DRX_TYPE_DATA : N := 8.            (* HeaderPacketType.DATA, dw0[0:5] *)

Definition drx_bytes4 (w : N) : list N := [bits w 0 8; bits w 8 8; bits w 16 8; bits w 24 8].
Fixpoint drx_le (bs : list N) : N := match bs with [] => 0 | b :: t => b + 256 * drx_le t end.
(* the bytes of `data` whose bit in the byte-valid mask is set *)
Definition drx_sel_bytes (mask data : N) : list N :=
  (if N.testbit mask 0 then [bits data 0 8] else []) ++ (if N.testbit mask 1 then [bits data 8 8] else []) ++
  (if N.testbit mask 2 then [bits data 16 8] else []) ++ (if N.testbit mask 3 then [bits data 24 8] else []).

(* ---- CRC units: running registers as N ------------------------------------------------------------- *)
Record crc_units := {
  u16_init : N; u16_adv : N -> N -> N;        (* register, 32-bit word -> register *)
  u16_out : N -> N;                            (* the 16-bit `crc` output *)
  u32_init : N; u32_adv : N -> N -> N -> N;   (* register, number of bytes 1..4, word -> register *)
  u32_out : N -> N }.

(* the real units: HeaderPacketCRC / DataPacketPayloadCRC as modelled in Model/Crc.v (crc16hmod_step, crc32mod_step) *)
Definition drx_real_units : crc_units := {|
  u16_init := 65535;
  u16_adv := fun r w => bits2N (crc_update poly16h (N2bits 16 r) (N2bits 32 w));
  u16_out := fun r => crc_out (N2bits 16 r);
  u32_init := 4294967295;
  u32_adv := fun r k w => bits2N (crc_update poly32 (N2bits 32 r) (N2bits (N.to_nat (8 * k)) w));
  u32_out := fun r => crc_out (N2bits 32 r) |}.

(* stand-ins (2-bit xor checksums) used only for the netlist tie of the control logic; see props/C40.py *)
Definition drx_x2 (k w : N) : N :=
  N.lxor (N.lxor (if 0 <? k then bits w 0 2 else 0) (if 1 <? k then bits w 8 2 else 0))
         (N.lxor (if 2 <? k then bits w 16 2 else 0) (if 3 <? k then bits w 24 2 else 0)).
Definition drx_stub_units : crc_units := {|
  u16_init := 3; u16_adv := fun r w => N.lxor r (drx_x2 4 w); u16_out := fun r => r;
  u32_init := 3; u32_adv := fun r k w => N.lxor r (drx_x2 k w); u32_out := fun r => r |}.

(* ---- the module model -------------------------------------------------------------------------------- *)
Inductive drx_fsm := DWAIT | DDW0 | DDW1 | DDW2 | DDW3 | DCHK | DPAY | DCRC.

Record drx_state := {
  fsm : drx_fsm;
  plen : N;            (* header.dw1[16:16+lw], the part of dw1 that data_bytes_remaining is loaded from *)
  f16 : N; f5 : N;     (* header.crc16, header.crc5 *)
  xcrc5 : N;           (* expected_crc5 *)
  rem : N;             (* data_bytes_remaining *)
  first : bool;        (* source.first (registered) *)
  pword : N; pvalid : N;      (* previous_word, previous_valid *)
  c16 : N; c32 : N;    (* running CRC registers *)
  hdw0 : N; hdw1 : N; hdw2 : N; hdw3 : N;     (* header in progress (only when hd) *)
  ohdr : N             (* self.header, 128 bits = dw0 | dw1<<32 | dw2<<64 | dw3<<96 (only when hd) *)
}.

Record drx_out := { o_data : N; o_valid : N; o_first : bool; o_last : bool; o_good : bool; o_bad : bool; o_hdr : N }.

Definition drx_init (U : crc_units) : drx_state :=
  {| fsm := DWAIT; plen := 0; f16 := 0; f5 := 0; xcrc5 := 0; rem := 0; first := false; pword := 0; pvalid := 0;
     c16 := u16_init U; c32 := u32_init U; hdw0 := 0; hdw1 := 0; hdw2 := 0; hdw3 := 0; ohdr := 0 |}.

Definition drx_quiet (s : drx_state) : drx_out :=
  {| o_data := 0; o_valid := 0; o_first := first s; o_last := false; o_good := false; o_bad := false; o_hdr := ohdr s |}.

(* source.valid in RECEIVE_PAYLOAD: byte k is valid iff remaining > k and the input word is valid *)
Definition drx_mask (rem : N) (v : bool) : N := if v then (if 3 <? rem then 15 else N.ones rem) else 0.
Definition drx_nbytes (rem : N) : N := N.min rem 4.

(* CHECK_CRC32: the 32 bits that hold the CRC, from the previous and the current word *)
Definition drx_to_check (pvalid pword data : N) : N :=
  match pvalid with
  | 0  => pword                                       (* (d): empty payload -- the previous word was the CRC *)
  | 15 => data
  | 7  => bits pword 24 8 + 256 * bits data 0 24
  | 3  => bits pword 16 16 + 65536 * bits data 0 16
  | 1  => bits pword 8 24 + 16777216 * bits data 0 8
  | _  => 0
  end.

Section Model.
  Variable U : crc_units.
  Variable lw : N.
  Variable hd : bool.

  Definition gate (new old : N) : N := if hd then new else old.

  Definition drx_next (s : drx_state) (v : bool) (data ctrl : N) : drx_state * drx_out :=
    let upd f p f16' f5' x r fi pw pv a b h0 h1 h2 h3 oh :=
      {| fsm := f; plen := p; f16 := f16'; f5 := f5'; xcrc5 := x; rem := r; first := fi; pword := pw; pvalid := pv;
         c16 := a; c32 := b; hdw0 := h0; hdw1 := h1; hdw2 := h2; hdw3 := h3; ohdr := oh |} in
    let keep f a b := upd f (plen s) (f16 s) (f5 s) (xcrc5 s) (rem s) (first s) (pword s) (pvalid s) a b
                          (hdw0 s) (hdw1 s) (hdw2 s) (hdw3 s) (ohdr s) in
    match fsm s with
    | DWAIT =>      (* both CRCs are held cleared *)
        (keep (if v && (data =? DRX_HPSTART) && (ctrl =? 15) then DDW0 else DWAIT) (u16_init U) (u32_init U),
         drx_quiet s)
    | DDW0 =>
        (if v then
           upd (if bits data 0 5 =? DRX_TYPE_DATA then DDW1 else DWAIT) (plen s) (f16 s) (f5 s) (xcrc5 s) (rem s)
               (first s) (pword s) (pvalid s) (u16_adv U (c16 s) data) (c32 s)
               (gate data (hdw0 s)) (hdw1 s) (hdw2 s) (hdw3 s) (ohdr s)
         else s, drx_quiet s)
    | DDW1 =>
        (if v then
           upd DDW2 (bits data 16 lw) (f16 s) (f5 s) (xcrc5 s) (rem s) (first s) (pword s) (pvalid s)
               (u16_adv U (c16 s) data) (c32 s) (hdw0 s) (gate data (hdw1 s)) (hdw2 s) (hdw3 s) (ohdr s)
         else s, drx_quiet s)
    | DDW2 =>
        (if v then
           upd DDW3 (plen s) (f16 s) (f5 s) (xcrc5 s) (rem s) (first s) (pword s) (pvalid s)
               (u16_adv U (c16 s) data) (c32 s) (hdw0 s) (hdw1 s) (gate data (hdw2 s)) (hdw3 s) (ohdr s)
         else s, drx_quiet s)
    | DDW3 =>
        (if v then
           upd DCHK (plen s) (bits data 0 16) (bits data 27 5) (crc5_usb (bits data 16 11)) (rem s) (first s)
               (pword s) (pvalid s) (c16 s) (c32 s) (hdw0 s) (hdw1 s) (hdw2 s) (gate data (hdw3 s)) (ohdr s)
         else s, drx_quiet s)
    | DCHK =>
        let fail := negb (xcrc5 s =? f5 s) || negb (u16_out U (c16 s) =? f16 s) in
        (if v then
           if fail then keep DWAIT (c16 s) (c32 s)
           else if (data =? DRX_DPPSTART) && (ctrl =? 15) then
             upd DPAY (plen s) (f16 s) (f5 s) (xcrc5 s) (plen s) true (pword s) (pvalid s) (c16 s) (c32 s)
                 (hdw0 s) (hdw1 s) (hdw2 s) (hdw3 s)
                 (gate (hdw0 s + 4294967296 * (hdw1 s + 4294967296 * (hdw2 s + 4294967296 * hdw3 s))) (ohdr s))
           else keep DWAIT (c16 s) (c32 s)
         else s, drx_quiet s)
    | DPAY =>
        let m := drx_mask (rem s) v in
        let err := negb (N.land ctrl m =? 0) in
        (if v then
           upd (if err then DWAIT else if 4 <? rem s then DPAY else DCRC)
               (plen s) (f16 s) (f5 s) (xcrc5 s) (if 4 <? rem s then rem s - 4 else rem s) false data m (c16 s)
               (if rem s =? 0 then c32 s else u32_adv U (c32 s) (drx_nbytes (rem s)) data)
               (hdw0 s) (hdw1 s) (hdw2 s) (hdw3 s) (ohdr s)
         else s,
         {| o_data := data; o_valid := m; o_first := first s; o_last := rem s <=? 4; o_good := false;
            o_bad := v && err; o_hdr := ohdr s |})
    | DCRC =>
        let ok := drx_to_check (pvalid s) (pword s) data =? u32_out U (c32 s) in
        (if v then keep DWAIT (c16 s) (c32 s) else s,
         {| o_data := 0; o_valid := 0; o_first := first s; o_last := false; o_good := v && ok; o_bad := v && negb ok;
            o_hdr := ohdr s |})
    end.

  (* packed interface: inputs data(32) ctrl(4) valid(1); outputs s_data(32) s_valid(4) s_first s_last good bad [header(128)] *)
  Definition drx_pack (o : drx_out) : N :=
    pk 4294967296 (o_data o) (pk 16 (o_valid o) (pk 2 (b2n (o_first o)) (pk 2 (b2n (o_last o))
      (pk 2 (b2n (o_good o)) (pk 2 (b2n (o_bad o)) (if hd then o_hdr o else 0)))))).

  Definition drx_stepR (s : drx_state) (i : N) : drx_state * drx_out :=
    drx_next s (N.odd (bits i 36 1)) (bits i 0 32) (bits i 32 4).
  Definition drx_step (s : drx_state) (i : N) : drx_state * N :=
    let (s', o) := drx_stepR s i in (s', drx_pack o).
End Model.

Definition drx_unpack (w : N) : drx_out :=
  {| o_data := w mod 4294967296; o_valid := (w / 4294967296) mod 16;
     o_first := N.odd (w / 68719476736); o_last := N.odd (w / 137438953472);
     o_good := N.odd (w / 274877906944); o_bad := N.odd (w / 549755813888); o_hdr := w / 1099511627776 |}.

(* ---- observable events --------------------------------------------------------------------------------- *)
(* what a consumer sees: payload beats (the valid bytes of a source word, with first/last and the header that is
   presented at that moment) and good/bad reports *)
Inductive drx_ev :=
| Beat (hdr : N) (bytes : list N) (first last : bool)
| Report (hdr : N) (good : bool).

Definition drx_beat_bytes (e : drx_ev) : list N := match e with Beat _ bs _ _ => bs | Report _ _ => [] end.
Definition drx_is_report (e : drx_ev) : bool := match e with Beat _ _ _ _ => false | Report _ _ => true end.

Definition drx_events (o : drx_out) : list drx_ev :=
  (if o_valid o =? 0 then [] else [Beat (o_hdr o) (drx_sel_bytes (o_valid o) (o_data o)) (o_first o) (o_last o)]) ++
  (if o_good o then [Report (o_hdr o) true] else []) ++ (if o_bad o then [Report (o_hdr o) false] else []).

Fixpoint drx_runR (U : crc_units) (lw : N) (hd : bool) (s : drx_state) (ins : list N) : list drx_out :=
  match ins with
  | [] => []
  | i :: t => let (s', o) := drx_stepR U lw hd s i in o :: drx_runR U lw hd s' t
  end.

(* the valid words (data, ctrl) of an input history: everything the specification looks at *)
Definition drx_vwords (ins : list N) : list (N * N) :=
  flat_map (fun i => if N.odd (bits i 36 1) then [(bits i 0 32, bits i 32 4)] else []) ins.

(* ---- specification: a parser over the VALID words only --------------------------------------------------
   It accumulates the words of the packet in progress and decides declaratively on the accumulated lists:
     header good  :=  h16 [dw0;dw1;dw2] = dw3[0:16]  /\  crc5 dw3[16:27] = dw3[27:32]
     payload      :=  the first L bytes of the words following DPPSTART,  L = dw1[16:16+lw]
     CRC field    :=  the 4 bytes that follow the payload in that byte stream
     good         :=  c32 payload = CRC field  (and no ctrl symbol sits on a payload byte: that is reported bad at once)
   h16 / c32 are the reference CRCs (crc16_hdr / crc32_usb for the real units). *)
Inductive drx_sp :=
| SIdle
| SHdr (ws : list N)                       (* 0..3 header words collected after HPSTART *)
| SChk (ws : list N)                       (* 4 header words collected; the next word decides *)
| SPay (ws : list N) (acc : list (N * N)). (* header accepted, payload words so far *)

Section Spec.
  Variable h16 : list N -> N.
  Variable c32 : list N -> N.
  Variable lw : N.

  Definition sp_hdr_ok (ws : list N) : bool :=
    let dw3 := nth 3 ws 0 in
    (h16 (firstn 3 ws) =? bits dw3 0 16) && (crc5_usb (bits dw3 16 11) =? bits dw3 27 5).
  Definition sp_len (ws : list N) : N := bits (nth 1 ws 0) 16 lw.
  Definition sp_hdr (ws : list N) : N :=
    nth 0 ws 0 + 4294967296 * (nth 1 ws 0 + 4294967296 * (nth 2 ws 0 + 4294967296 * nth 3 ws 0)).
  (* is word number k (from 0) after DPPSTART still a payload word?  Words 0 .. ceil(L/4)-1 are; an empty payload
     still takes one word (which holds its CRC) *)
  Definition sp_more (L k : N) : bool := (4 * k <? L) || ((L =? 0) && (k =? 0)).

  Definition sp_step (s : drx_sp) (w : N * N) : drx_sp * list drx_ev :=
    match s with
    | SIdle => (if (fst w =? DRX_HPSTART) && (snd w =? 15) then SHdr [] else SIdle, [])
    | SHdr ws =>
        match ws with
        | [] => (if bits (fst w) 0 5 =? DRX_TYPE_DATA then SHdr [fst w] else SIdle, [])
        | [_; _; _] => (SChk (ws ++ [fst w]), [])
        | _ => (SHdr (ws ++ [fst w]), [])
        end
    | SChk ws =>
        (if sp_hdr_ok ws && (fst w =? DRX_DPPSTART) && (snd w =? 15) then SPay ws [] else SIdle, [])
    | SPay ws acc =>
        let L := sp_len ws in
        let k := N.of_nat (length acc) in
        if sp_more L k then
          let nb := N.min (L - 4 * k) 4 in                        (* payload bytes in this word *)
          let beat := if nb =? 0 then []
                      else [Beat (sp_hdr ws) (firstn (N.to_nat nb) (drx_bytes4 (fst w))) (k =? 0) (L - 4 * k <=? 4)] in
          if N.land (snd w) (N.ones nb) =? 0 then
            (SPay ws (acc ++ [w]), beat)
          else (SIdle, beat ++ [Report (sp_hdr ws) false])
        else
          let bs := flat_map drx_bytes4 (map fst (acc ++ [w])) in      (* all bytes of the words after DPPSTART *)
          (SIdle, [Report (sp_hdr ws)
                     (c32 (firstn (N.to_nat L) bs) =? drx_le (firstn 4 (skipn (N.to_nat L) bs)))])
    end.

  (* vocabulary for the per-packet statements (used in theorems only, not by sp_step) *)
  Definition sp_nwords (L : N) : N := if L =? 0 then 1 else (L + 3) / 4.     (* words that hold payload bytes *)
  Definition sp_pbytes (body : list (N * N)) : list N := flat_map drx_bytes4 (map fst body).
  (* CRC32 verdict of a packet with header ws whose words after DPPSTART are `body` *)
  Definition sp_verdict (ws : list N) (body : list (N * N)) : bool :=
    let L := N.to_nat (sp_len ws) in
    c32 (firstn L (sp_pbytes body)) =? drx_le (firstn 4 (skipn L (sp_pbytes body))).
  (* the payload beats of payload words number k, k+1, ... *)
  Fixpoint sp_beats (ws : list N) (k : N) (pay : list (N * N)) : list drx_ev :=
    match pay with
    | [] => []
    | w :: t =>
        let r := sp_len ws - 4 * k in
        (if N.min r 4 =? 0 then []
         else [Beat (sp_hdr ws) (firstn (N.to_nat (N.min r 4)) (drx_bytes4 (fst w))) (k =? 0) (r <=? 4)])
        ++ sp_beats ws (k + 1) t
    end.
  (* no ctrl symbol on a payload byte of payload word number k, k+1, ... *)
  Fixpoint sp_clean (ws : list N) (k : N) (pay : list (N * N)) : bool :=
    match pay with
    | [] => true
    | w :: t => (N.land (snd w) (N.ones (N.min (sp_len ws - 4 * k) 4)) =? 0) && sp_clean ws (k + 1) t
    end.

  Fixpoint sp_run (s : drx_sp) (ws : list (N * N)) : list drx_ev :=
    match ws with
    | [] => []
    | w :: t => let (s', e) := sp_step s w in e ++ sp_run s' t
    end.
  Fixpoint sp_state_after (s : drx_sp) (ws : list (N * N)) : drx_sp :=
    match ws with
    | [] => s
    | w :: t => sp_state_after (fst (sp_step s w)) t
    end.
End Spec.

(* ---- state packing for lock-step obligations -------------------------------------------------------------- *)
Definition drx_fsm_code (f : drx_fsm) : N :=
  match f with DWAIT => 0 | DDW0 => 1 | DDW1 => 2 | DDW2 => 3 | DDW3 => 4 | DCHK => 5 | DPAY => 6 | DCRC => 7 end.
Definition drx_fsm_of (n : N) : drx_fsm :=
  match n with 0 => DWAIT | 1 => DDW0 | 2 => DDW1 | 3 => DDW2 | 4 => DDW3 | 5 => DCHK | 6 => DPAY | _ => DCRC end.

Definition W32 : N := 4294967296.
Definition drx_enc (s : drx_state) : N :=
  pk 8 (drx_fsm_code (fsm s)) (pk 65536 (plen s) (pk 65536 (f16 s) (pk 32 (f5 s) (pk 32 (xcrc5 s) (pk 65536 (rem s)
  (pk 2 (b2n (first s)) (pk W32 (pword s) (pk 16 (pvalid s) (pk W32 (c16 s) (pk W32 (c32 s)
  (pk W32 (hdw0 s) (pk W32 (hdw1 s) (pk W32 (hdw2 s) (pk W32 (hdw3 s) (ohdr s))))))))))))))).
(* (shifts and masks rather than / and mod: the decoder runs inside the reachability computations) *)
Definition drx_dec (n : N) : drx_state :=
  let n1 := N.shiftr n 3 in let n2 := N.shiftr n1 16 in let n3 := N.shiftr n2 16 in let n4 := N.shiftr n3 5 in
  let n5 := N.shiftr n4 5 in let n6 := N.shiftr n5 16 in let n7 := N.shiftr n6 1 in let n8 := N.shiftr n7 32 in
  let n9 := N.shiftr n8 4 in let n10 := N.shiftr n9 32 in let n11 := N.shiftr n10 32 in let n12 := N.shiftr n11 32 in
  let n13 := N.shiftr n12 32 in let n14 := N.shiftr n13 32 in let n15 := N.shiftr n14 32 in
  {| fsm := drx_fsm_of (N.land n 7); plen := N.land n1 65535; f16 := N.land n2 65535; f5 := N.land n3 31;
     xcrc5 := N.land n4 31; rem := N.land n5 65535; first := N.odd n6; pword := N.land n7 4294967295;
     pvalid := N.land n8 15; c16 := N.land n9 4294967295; c32 := N.land n10 4294967295;
     hdw0 := N.land n11 4294967295; hdw1 := N.land n12 4294967295; hdw2 := N.land n13 4294967295;
     hdw3 := N.land n14 4294967295; ohdr := n15 |}.

Definition drx_wf (s : drx_state) : Prop :=
  plen s < 65536 /\ f16 s < 65536 /\ f5 s < 32 /\ xcrc5 s < 32 /\ rem s < 65536 /\ pword s < W32 /\ pvalid s < 16 /\
  c16 s < W32 /\ c32 s < W32 /\ hdw0 s < W32 /\ hdw1 s < W32 /\ hdw2 s < W32 /\ hdw3 s < W32.

(* units whose registers stay below 2^32 (needed for the packing only) *)
Definition units_bounded (U : crc_units) : Prop :=
  u16_init U < W32 /\ u32_init U < W32 /\ (forall r w, r < W32 -> u16_adv U r w < W32) /\
  (forall r k w, r < W32 -> u32_adv U r k w < W32).

(* ---- the specification as a runtime oracle ----------------------------------------------------------------
   Monitor over (input word, output word) pairs of the implementation.  Its state is nothing but the history of valid
   input words (packed into one N, sentinel 1); in every cycle the events read off the output word must equal the
   events the specification parser emits for this cycle's word after that history (none for an invalid word). *)
Definition W37 : N := 137438953472.
Fixpoint drx_hist_dec (fuel : nat) (m : N) (acc : list (N * N)) : list (N * N) :=
  match fuel with
  | O => acc
  | S f => if m <=? 1 then acc
           else drx_hist_dec f (N.shiftr m 37) ((bits m 0 32, bits m 32 4) :: acc)
  end.
Definition drx_hist (m : N) : list (N * N) := drx_hist_dec (N.to_nat (N.size m)) m [].

Definition drx_ev_eqb (a b : drx_ev) : bool :=
  match a, b with
  | Beat h bs f l, Beat h' bs' f' l' => (h =? h') && list_eqb bs bs' && Bool.eqb f f' && Bool.eqb l l'
  | Report h g, Report h' g' => (h =? h') && Bool.eqb g g'
  | _, _ => false
  end.
Fixpoint drx_evs_eqb (a b : list drx_ev) : bool :=
  match a, b with
  | [], [] => true
  | x :: a', y :: b' => drx_ev_eqb x y && drx_evs_eqb a' b'
  | _, _ => false
  end.
Definition drx_ev_nohdr (e : drx_ev) : drx_ev :=
  match e with Beat _ b f l => Beat 0 b f l | Report _ g => Report 0 g end.

Definition drx_spec_mon (h16 c32 : list N -> N) (lw : N) (hd : bool) (m i o : N) : option (N * bool) :=
  let got := drx_events (drx_unpack o) in
  if N.odd (bits i 36 1) then
    let w := (bits i 0 32, bits i 32 4) in
    let e := snd (sp_step h16 c32 lw (sp_state_after h16 c32 lw SIdle (drx_hist m)) w) in
    let e' := if hd then e else map drx_ev_nohdr e in
    Some (N.shiftl m 37 + bits i 0 37, drx_evs_eqb got e')
  else Some (m, drx_evs_eqb got []).

(* state-dependent input alphabets for the lock-step obligations: one word list per FSM state of the model *)
Definition drx_alpha (aw a0 a1 a2 a3 ac ap ar : list N) (s : drx_state) : list N :=
  match fsm s with
  | DWAIT => aw | DDW0 => a0 | DDW1 => a1 | DDW2 => a2 | DDW3 => a3 | DCHK => ac | DPAY => ap | DCRC => ar
  end.
