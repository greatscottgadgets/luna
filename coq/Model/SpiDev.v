(* C50 -- hand model of luna/gateware/interface/spi.py: SPIDeviceInterface, parametric in word_size,
   clock_polarity, clock_phase, msb_first, cs_idles_high, and its specification.

   The model is the PROPERTY-SATISFYING behaviour: the bit counter restarts at 0 when a word completes.
   The code before 27f14f6 only cleared bit_count while chip select is inactive and otherwise let the
   Signal(range(word_size)) wrap at 2^width; the two agree iff word_size is a power of two.  `d_step` takes a
   flag `fixed` so that the as-found behaviour (fixed = false) can be exhibited and refuted (Properties/C50.v).

   Words are lists of booleans, index 0 = bit 0 (least significant).
   Packed ports (first = least significant):
     in : sck(1) sdi(1) cs(1) word_out(ws)       out: word_in(ws) word_complete(1) word_accepted(1) sdo(1)   *)
From Coq Require Import NArith List Bool.
Import ListNotations.
From LunaLib Require Import Netlist Bits Machine.
Open Scope N_scope.

(* ------------------------------------------------------------------------------------------ *)
(* What both the model and the specification read off the pins in one cycle                    *)
(* ------------------------------------------------------------------------------------------ *)
Record spi_cfg := { ws : nat; cpol : bool; cpha : bool; msb : bool; csh : bool }.

Definition in_sck (i : N) : bool := N.testbit i 0.
Definition in_sdi (i : N) : bool := N.testbit i 1.
Definition in_cs (i : N) : bool := N.testbit i 2.
Definition in_wout (c : spi_cfg) (i : N) : list bool := N2bits (ws c) (N.shiftr i 3).

(* serial clock after polarity correction; `prev` is its value in the previous cycle (0 after reset) *)
Definition sclk (c : spi_cfg) (i : N) : bool := xorb (in_sck i) (cpol c).
Definition leading (c : spi_cfg) (prev : bool) (i : N) : bool := negb prev && sclk c i.
Definition trailing (c : spi_cfg) (prev : bool) (i : N) : bool := prev && negb (sclk c i).
Definition sample_edge (c : spi_cfg) (prev : bool) (i : N) : bool :=
  if cpha c then trailing c prev i else leading c prev i.
Definition output_edge (c : spi_cfg) (prev : bool) (i : N) : bool :=
  if cpha c then leading c prev i else trailing c prev i.
Definition selected (c : spi_cfg) (i : N) : bool := xorb (in_cs i) (csh c).

Definition spi_pack (c : spi_cfg) (word_in : list bool) (complete accepted sdo : bool) : N :=
  bits2N word_in + 2 ^ N.of_nat (ws c) * (b2n complete + 2 * b2n accepted + 4 * b2n sdo).

(* ------------------------------------------------------------------------------------------ *)
(* Specification machine                                                                       *)
(* ------------------------------------------------------------------------------------------ *)
(* Receive: `s_acc` = the bits sampled so far for the current word, newest first; cleared whenever chip select
   is inactive.  The sample edge that brings it to word_size bits completes the word: the word is flagged on
   word_accepted in the next cycle and presented on word_in with word_complete one cycle after that, once; the
   collection restarts empty.
   Transmit: `s_load` = the word most recently latched from word_out (while chip select is inactive, and at
   every word completion), `s_sent` = number of output edges since.  The (j+1)-th output edge after a latch puts
   bit ws-1-j of the latched word on sdo (msb_first; its bit j otherwise); further output edges without a new
   latch repeat the last bit. *)
Record sp_state := { s_clk : bool; s_acc : list bool; s_pend : option (list bool);
                     s_win : list bool; s_wc : bool;
                     s_load : list bool; s_sent : nat; s_sdo : bool }.

(* the word (index 0 = bit 0) formed by ws sampled bits given newest first *)
Definition word_bits (c : spi_cfg) (newest_first : list bool) : list bool :=
  if msb c then newest_first else rev newest_first.

Definition tx_bit (c : spi_cfg) (w : list bool) (j : nat) : bool :=
  if msb c then nth (ws c - 1 - j) w false else nth (Nat.min j (ws c - 1)) w false.

Definition is_some {A} (o : option A) : bool := match o with Some _ => true | None => false end.

Definition sp_init (c : spi_cfg) : sp_state :=
  {| s_clk := false; s_acc := []; s_pend := None; s_win := repeat false (ws c); s_wc := false;
     s_load := repeat false (ws c); s_sent := O; s_sdo := false |}.

Definition sp_next (c : spi_cfg) (st : sp_state) (i : N) : sp_state :=
  let sel := selected c i in
  let smp := sel && sample_edge c (s_clk st) i in
  let out := sel && output_edge c (s_clk st) i in
  let completes := smp && Nat.eqb (S (length (s_acc st))) (ws c) in
  let latch := negb sel || completes in
  {| s_clk := sclk c i;
     s_acc := if negb sel || completes then [] else if smp then in_sdi i :: s_acc st else s_acc st;
     s_pend := if completes then Some (word_bits c (in_sdi i :: s_acc st)) else None;
     s_win := match s_pend st with Some w => w | None => s_win st end;
     s_wc := is_some (s_pend st);
     s_load := if latch then in_wout c i else s_load st;
     s_sent := if latch then O else if out then S (s_sent st) else s_sent st;
     s_sdo := if out then tx_bit c (s_load st) (s_sent st) else s_sdo st |}.

Definition sp_out (c : spi_cfg) (st : sp_state) : N :=
  spi_pack c (s_win st) (s_wc st) (is_some (s_pend st)) (s_sdo st).
Definition sp_step (c : spi_cfg) (st : sp_state) (i : N) : sp_state * N := (sp_next c st i, sp_out c st).

(* ------------------------------------------------------------------------------------------ *)
(* Code-shaped model                                                                           *)
(* ------------------------------------------------------------------------------------------ *)
Record d_state := { d_clk : bool; d_cnt : N; d_tx : list bool; d_rx : list bool;
                    d_win : list bool; d_wc : bool; d_wa : bool; d_sdo : bool }.

(* width of Signal(range(0, word_size)) *)
Definition cnt_width (c : spi_cfg) : N := N.size (N.of_nat (ws c) - 1).

(* current_rx.eq(Cat(sdi, current_rx[:-1]))  /  current_rx.eq(Cat(current_rx[1:], sdi)) *)
Definition shift_in (c : spi_cfg) (sdi : bool) (rx : list bool) : list bool :=
  if msb c then sdi :: removelast rx else tl rx ++ [sdi].
(* Cat(current_tx[1:], sdo).eq(current_tx)  /  Cat(sdo, current_tx[:-1]).eq(current_tx) *)
Definition shift_out (c : spi_cfg) (tx : list bool) : list bool :=
  if msb c then hd false tx :: removelast tx else tl tx ++ [last tx false].
Definition out_bit (c : spi_cfg) (tx : list bool) : bool :=
  if msb c then last tx false else hd false tx.

Definition d_init (c : spi_cfg) : d_state :=
  {| d_clk := false; d_cnt := 0; d_tx := repeat false (ws c); d_rx := repeat false (ws c);
     d_win := repeat false (ws c); d_wc := false; d_wa := false; d_sdo := false |}.

Definition d_next (fixed : bool) (c : spi_cfg) (st : d_state) (i : N) : d_state :=
  let sel := selected c i in
  let smp := sample_edge c (d_clk st) i in
  let out := output_edge c (d_clk st) i in
  let completing := d_cnt st + 1 =? N.of_nat (ws c) in
  let cnt1 := (d_cnt st + 1) mod 2 ^ cnt_width c in
  {| d_clk := sclk c i;
     d_win := if d_wa st then d_rx st else d_win st;
     d_wc := d_wa st;
     d_wa := sel && smp && completing;
     d_cnt := if sel then
                if smp then (if completing && fixed then 0 else cnt1) else d_cnt st
              else 0;
     d_rx := if sel && smp then shift_in c (in_sdi i) (d_rx st) else d_rx st;
     d_tx := if sel then
               if smp && completing then in_wout c i
               else if out then shift_out c (d_tx st) else d_tx st
             else in_wout c i;
     d_sdo := if sel && out then out_bit c (d_tx st) else d_sdo st |}.

Definition d_out (c : spi_cfg) (st : d_state) : N := spi_pack c (d_win st) (d_wc st) (d_wa st) (d_sdo st).
Definition d_step (fixed : bool) (c : spi_cfg) (st : d_state) (i : N) : d_state * N :=
  (d_next fixed c st i, d_out c st).

(* packing for lock-step obligations: clk wc wa sdo | tx(ws) | rx(ws) | win(ws) | cnt *)
Definition d_enc (c : spi_cfg) (st : d_state) : N :=
  let k := 2 ^ N.of_nat (ws c) in
  (b2n (d_clk st) + 2 * b2n (d_wc st) + 4 * b2n (d_wa st) + 8 * b2n (d_sdo st))
  + 16 * (bits2N (d_tx st) + k * (bits2N (d_rx st) + k * (bits2N (d_win st) + k * d_cnt st))).
Definition d_dec (c : spi_cfg) (m : N) : d_state :=
  let k := 2 ^ N.of_nat (ws c) in
  let r := m / 16 in
  {| d_clk := m mod 2 =? 1; d_wc := (m / 2) mod 2 =? 1; d_wa := (m / 4) mod 2 =? 1; d_sdo := (m / 8) mod 2 =? 1;
     d_tx := N2bits (ws c) (r mod k); d_rx := N2bits (ws c) ((r / k) mod k);
     d_win := N2bits (ws c) ((r / k / k) mod k); d_cnt := r / k / k / k |}.
Definition d_wf (c : spi_cfg) (st : d_state) : Prop :=
  length (d_tx st) = ws c /\ length (d_rx st) = ws c /\ length (d_win st) = ws c.
