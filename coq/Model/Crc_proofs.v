(* C30 -- facts about the CRC definitions of Model/Crc.v shared by the receivers and transmitters
   (the running register splits over message pieces, keeps its length, its output fits the width; crc16_reg, the
   CRC16 unit's register as a function of the bytes since the start), and the module-level theorem of the USB2 CRC16 unit. *)
From Coq Require Import NArith Arith List Lia.
Import ListNotations.
From LunaLib Require Import Netlist Bits Affine Machine BitFacts.
From LunaModel Require Import Crc.

Lemma crc_update_app : forall poly reg a b,
  crc_update poly reg (a ++ b) = crc_update poly (crc_update poly reg a) b.
Proof. intros. unfold crc_update, crc_shifts. apply fold_left_app. Qed.

Lemma bits_of_units_app : forall w a b, bits_of_units w (a ++ b) = bits_of_units w a ++ bits_of_units w b.
Proof. intros. unfold bits_of_units. apply flat_map_app. Qed.

Lemma bits_of_units_one : forall w u, bits_of_units w [u] = N2bits w u.
Proof. intros. apply app_nil_r. Qed.

(* the running register after one more unit: every receiver and transmitter keeps "register = the units so far" *)
Lemma crc_update_snoc : forall poly reg w us u,
  crc_update poly reg (bits_of_units w (us ++ [u])) = crc_update poly (crc_update poly reg (bits_of_units w us)) (N2bits w u).
Proof. intros. rewrite bits_of_units_app, crc_update_app, bits_of_units_one. reflexivity. Qed.

Lemma crc_update_length : forall poly msg reg, length reg = length poly ->
  length (crc_update poly reg msg) = length poly.
Proof.
  unfold crc_update, crc_shifts. induction msg as [|b msg IH]; intros reg H; [exact H|].
  apply IH, crc_shift_length, H.
Qed.

Lemma crc_out_lt : forall reg, (crc_out reg < 2 ^ N.of_nat (length reg))%N.
Proof.
  intro reg. unfold crc_out, crc_finish.
  rewrite <- (rev_length reg), <- (map_length negb). apply bits2N_bound.
Qed.

Lemma crc_bits_lt : forall poly msg, (bits2N (crc_bits poly msg) < 2 ^ N.of_nat (length poly))%N.
Proof.
  intros poly msg. rewrite <- (crc_update_length poly msg (repeat true (length poly))) by apply repeat_length.
  apply crc_out_lt.
Qed.

Lemma crc16_usb_lt : forall bytes, (crc16_usb bytes < 65536)%N.
Proof. intro bytes. exact (crc_bits_lt poly16 _). Qed.
Lemma crc5_usb_lt : forall v, (crc5_usb v < 32)%N.
Proof. intro v. exact (crc_bits_lt poly5 _). Qed.
Lemma crc16_hdr_lt : forall ws, (crc16_hdr ws < 65536)%N.
Proof. intro ws. exact (crc_bits_lt poly16h _). Qed.
Lemma crc32_usb_lt : forall bs, (crc32_usb bs < 4294967296)%N.
Proof. intro bs. exact (crc_bits_lt poly32 _). Qed.

(* the register of the USB2 CRC16 unit after a start and the bytes bs (Usb2DataRx_proofs.rx_R and
   SetupDec_proofs.crc_reg_of are this function under the names their relations use) *)
Definition crc16_reg (bs : list N) : list bool := crc_update poly16 (reg_init 16) (bits_of_units 8 bs).

Lemma crc16_reg_snoc : forall bs b, crc16_reg (bs ++ [b]) = crc_update poly16 (crc16_reg bs) (N2bits 8 b).
Proof. intros. apply crc_update_snoc. Qed.

Lemma crc16_usb_reg : forall bs, crc16_usb bs = crc_out (crc16_reg bs).
Proof. reflexivity. Qed.

(* USB2 CRC16 module: what one cycle presents to it *)
Inductive crc_ev := EvIdle | EvRx (b : N) | EvTx (b : N).

Definition crc16_in (e : crc_ev) : N :=
  match e with
  | EvIdle => 0
  | EvRx b => N.shiftl (trunc 8 b) 1 + N.shiftl 1 9
  | EvTx b => N.shiftl (trunc 8 b) 10 + N.shiftl 1 18
  end%N.
Definition crc16_start : N := 1%N.

Definition ev_bytes (evs : list crc_ev) : list N :=
  flat_map (fun e => match e with EvIdle => [] | EvRx b => [trunc 8 b] | EvTx b => [trunc 8 b] end) evs.

Lemma crc16mod_next : forall reg start rx_data rx_valid tx_data tx_valid,
  (rx_data < 256)%N -> (tx_data < 256)%N ->
  fst (crc16mod_step reg (fields_word [(1, b2n start); (8, rx_data); (1, b2n rx_valid);
                                       (8, tx_data); (1, b2n tx_valid)]%N)) =
  if start then reg_init 16
  else crc_reg_next poly16 reg [(rx_valid, N2bits 8 rx_data); (tx_valid, N2bits 8 tx_data)].
Proof.
  intros reg st rd rv td tv Hrd Htd.
  set (L := [(1, b2n st); (8, rd); (1, b2n rv); (8, td); (1, b2n tv)]%N).
  assert (HL : fields_ok L) by (repeat constructor; try apply b2n_lt2; assumption).
  unfold crc16mod_step. cbn [fst].
  rewrite (bits_fields_word L 0 HL : bits _ 0 1 = b2n st), (bits_fields_word L 1 HL : bits _ 1 8 = rd),
    (bits_fields_word L 2 HL : bits _ 9 1 = b2n rv), (bits_fields_word L 3 HL : bits _ 10 8 = td),
    (bits_fields_word L 4 HL : bits _ 18 1 = b2n tv).
  destruct st, rv, tv; reflexivity.
Qed.

Lemma crc16mod_event : forall reg e,
  fst (crc16mod_step reg (crc16_in e)) =
  crc_update poly16 reg (bits_of_units 8 (ev_bytes [e])).
Proof.
  intros reg [|b|b]; [reflexivity| |]; cbn [ev_bytes flat_map app]; rewrite bits_of_units_one.
  - replace (crc16_in (EvRx b))
      with (fields_word [(1, b2n false); (8, trunc 8 b); (1, b2n true); (8, 0); (1, b2n false)]%N)
      by (cbn [crc16_in fields_word b2n]; rewrite !N.shiftl_mul_pow2; lia).
    apply crc16mod_next; [apply trunc_lt | reflexivity].
  - replace (crc16_in (EvTx b))
      with (fields_word [(1, b2n false); (8, 0); (1, b2n false); (8, trunc 8 b); (1, b2n true)]%N)
      by (cbn [crc16_in fields_word b2n]; rewrite !N.shiftl_mul_pow2; lia).
    apply crc16mod_next; [reflexivity | apply trunc_lt].
Qed.

Lemma crc16mod_events : forall evs reg,
  run_state crc16mod_step reg (map crc16_in evs) =
  crc_update poly16 reg (bits_of_units 8 (ev_bytes evs)).
Proof.
  induction evs as [|e evs IH]; intros reg; [reflexivity|].
  cbn [map run_state]. rewrite IH, crc16mod_event, <- crc_update_app, <- bits_of_units_app.
  unfold ev_bytes. rewrite <- flat_map_app. reflexivity.
Qed.

(* C30: after a start strobe, any interleaving of idle cycles and rx / tx bytes leaves the standard CRC16 of those bytes *)
Theorem crc16mod_standard : forall evs reg0 more,
  nth (S (length evs)) (run crc16mod_step reg0 (crc16_start :: map crc16_in evs ++ [more])) 0%N
  = crc16_usb (ev_bytes evs).
Proof.
  intros evs reg0 more.
  cbn [run]. unfold crc16mod_step at 1. change (bits crc16_start 0 1) with 1%N. cbn [N.odd].
  cbn [nth]. rewrite run_app.
  rewrite app_nth2; rewrite run_length, map_length; [|lia]. rewrite Nat.sub_diag.
  rewrite crc16mod_events. reflexivity.
Qed.
