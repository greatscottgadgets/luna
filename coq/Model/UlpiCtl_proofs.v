(* C24 -- the control translator + register window (Model/UlpiCtl.v) against a PHY seen from the pins, for EVERY history
   of DIR / NXT / bus_idle / control inputs (no assumption on the PHY's timing, aborts at any point).  sys_inv keeps
   link and PHY in step, one clause per state of the window's FSM, with a ghost for the most recently accepted request.
   From it: every committed PHY write is that request (cw_writes_correct), no other PHY register is ever written
   (cw_only_ctrl_regs), and whenever the translator is quiescent the PHY's registers equal the requested settings
   (cw_converged).  cw_starts_write and cw_write_latency: a difference starts a write at once when the bus is available,
   and a PHY that acknowledges at once with DIR low has it committed in the 5th cycle.  cw_dec_enc is the packing lemma
   for the lock-step obligation. *)
From Coq Require Import NArith List Bool Lia.
Import ListNotations.
From LunaLib Require Import Netlist BitFacts.
From LunaModel Require Import UlpiCtl.
Open Scope N_scope.

Definition tracked (a : N) : Prop := a = FUNC_CTRL \/ a = OTG_CTRL.
Definition shadows_ok (s : cw_state) (p : phy) : Prop := c_cur4 s = q_r4 p /\ c_cur10 s = q_r10 p.

Definition inflight (s : cw_state) (gq : option (N * N)) : Prop :=
  tracked (w_caddr s) /\ gq = Some (w_caddr s, w_cwrite s).

Definition sys_inv (s : cw_state) (p : phy) (gq : option (N * N)) : Prop :=
  q_other p = false /\
  match w_fsm s with
  | W_IDLE =>
      q_ph p = QIdle /\ w_stop s = false /\ w_dout s = 0 /\
      (if w_done s then
         inflight s gq /\
         (w_caddr s = FUNC_CTRL -> q_r4 p = w_cwrite s /\ c_cur10 s = q_r10 p) /\
         (w_caddr s = OTG_CTRL -> q_r10 p = w_cwrite s /\ c_cur4 s = q_r4 p)
       else shadows_ok s p)
  | W_START =>
      q_ph p = QIdle /\ w_stop s = false /\ w_done s = false /\ inflight s gq /\ shadows_ok s p /\
      (* from IDLE the bus is empty; thrown back here by DIR the window keeps its byte on the bus, but the PHY saw
         DIR high, counts this cycle as a turn-around and takes no command in it *)
      (w_dout s = 0 \/ q_pdir p = true)
  | W_SEND =>
      q_ph p = QIdle /\ w_stop s = false /\ w_done s = false /\ inflight s gq /\ shadows_ok s p /\
      w_dout s = 128 + w_caddr s /\ q_pdir p = false
  | W_HOLD =>
      q_ph p = QW1 /\ w_stop s = false /\ w_done s = false /\ inflight s gq /\ shadows_ok s p /\
      q_addr p = w_caddr s /\ w_dout s = w_cwrite s
  | W_STOPPING =>
      q_ph p = QW2 /\ w_stop s = true /\ w_done s = false /\ inflight s gq /\ shadows_ok s p /\
      q_addr p = w_caddr s /\ q_data p = w_cwrite s /\ w_dout s = 0
  end.

Lemma sys_inv_init : sys_inv cw_init phy_init None.
Proof. split; [reflexivity|]. cbn. repeat split; reflexivity. Qed.

Lemma tracked_cmd : forall a, tracked a -> is_regw_b (128 + a) = true /\ (128 + a) mod 64 = a.
Proof. intros a [->| ->]; split; reflexivity. Qed.

Lemma select_cases : forall s f g av, cw_select s f g = Some av -> av = (FUNC_CTRL, f) \/ av = (OTG_CTRL, g).
Proof.
  intros s f g av. unfold cw_select.
  destruct (negb (c_cur4 s =? f)); [|destruct (negb (c_cur10 s =? g)); [|discriminate]];
    intro E; inversion E; auto.
Qed.

Lemma select_tracked : forall s f g a v, cw_select s f g = Some (a, v) -> tracked a.
Proof. intros s f g a v H. destruct (select_cases _ _ _ _ H) as [E | E]; inversion E; [left | right]; reflexivity. Qed.

(* computes the registers of literal records and the boolean connectives (`lazy` rather than `cbn`: the kernel
   re-checks its result at once, that of `cbn` slowly) *)
Ltac inv_simpl :=
  lazy beta iota zeta delta [w_fsm w_dout w_oreq w_stop w_done w_caddr w_cwrite c_cur4 c_cur10 c_busy
       q_ph q_pdir q_addr q_data q_r4 q_r10 q_other fst snd andb orb negb] in *.

Lemma ghost_busy : forall gq s i, w_fsm s <> W_IDLE -> ghost_next gq s i = gq.
Proof. intros gq s i H. unfold ghost_next, accepts_request. destruct (w_fsm s); [contradiction | reflexivity ..]. Qed.

Ltac step_compute := lazy delta [sys_inv inflight shadows_ok cw_next phy_step]; inv_simpl.

(* Link and PHY are taken apart into their registers, of which the invariant fixes most; then the
   step computes. *)
Lemma busy_step : forall s p gq idle dir nxt f g, w_fsm s <> W_IDLE -> sys_inv s p gq ->
  sys_inv (cw_next s idle dir nxt f g) (phy_step p dir nxt (w_dout s) (w_stop s)) gq.
Proof.
  intros [fsm dout oreq stop done caddr cwrite cur4 cur10 busy] [ph pdir pa pd r4 r10 other] gq idle dir nxt f g Hf [Ho H].
  unfold inflight, shadows_ok in H. inv_simpl. subst other.
  destruct fsm; [contradiction | ..]; destruct H as (-> & -> & -> & Hin & [<- <-] & H);
    (* DIR rises: the PHY drops what it had, the window starts over, by the second alternative of the START clause *)
    (destruct dir; [step_compute; auto 10 |]).
  - (* START *)
    destruct nxt, pdir; step_compute; destruct H as [-> | E]; auto 10; discriminate E.
  - (* SEND *)
    destruct H as [-> ->]. destruct (tracked_cmd caddr (proj1 Hin)) as [C1 C2].
    destruct nxt; step_compute; rewrite ?C1, ?C2; auto 10.
  - (* HOLD *)
    destruct H as [-> ->]. destruct nxt; step_compute; auto 10.
  - (* STOPPING: the PHY commits the write, the window reports done; the shadow is updated one cycle later *)
    destruct H as (-> & -> & ->). destruct Hin as [[-> | ->] Hg]; step_compute; unfold tracked; repeat split; auto; discriminate.
Qed.

Lemma phy_quiet : forall p dir nxt stp, q_ph p = QIdle ->
  let p' := phy_step p dir nxt 0 stp in
  q_ph p' = QIdle /\ q_r4 p' = q_r4 p /\ q_r10 p' = q_r10 p /\ q_other p' = q_other p.
Proof. intros [ph pdir pa pd r4 r10 other] [] [] stp E; cbn in E; subst ph; destruct pdir; repeat split. Qed.

(* IDLE: in the completion cycle (done) the shadow of the written register catches up and no request is
   accepted; otherwise a request, if any, is latched and recorded by the ghost *)
Lemma idle_step : forall s p gq i, w_fsm s = W_IDLE -> sys_inv s p gq ->
  sys_inv (fst (cw_step s i)) (phy_step p (ki_dir i) (ki_nxt i) (w_dout s) (w_stop s)) (ghost_next gq s i).
Proof.
  intros s p gq i Hf [Ho H]. rewrite Hf in H. destruct H as (Hp & _ & Hd & H). rewrite Hd.
  destruct (phy_quiet p (ki_dir i) (ki_nxt i) (w_stop s) Hp) as (Ep & E4 & E10 & Eo).
  set (p' := phy_step _ _ _ _ _) in *.
  unfold sys_inv, inflight, shadows_ok in *. rewrite Ep, E4, E10, Eo. split; [exact Ho|].
  unfold cw_step, cw_next, ghost_next, accepts_request. rewrite Hf. cbn [fst].
  destruct (w_done s).
  - destruct H as ((Ht & Hg) & H4 & H10).
    assert (S : (if w_caddr s =? FUNC_CTRL then w_cwrite s else c_cur4 s) = q_r4 p /\
                (if w_caddr s =? OTG_CTRL then w_cwrite s else c_cur10 s) = q_r10 p)
      by (destruct Ht as [E | E]; rewrite E; [destruct (H4 E) as [-> ->] | destruct (H10 E) as [-> ->]]; split; reflexivity).
    destruct (cw_select _ _ _) as [[a v]|]; inv_simpl; auto.
  - destruct (cw_select _ _ _) as [[a v]|] eqn:Sel; inv_simpl; [|auto].
    pose proof (select_tracked _ _ _ _ _ Sel) as Ht.
    destruct (ki_idle i); inv_simpl; auto 10.
Qed.

Lemma sys_inv_step : forall s p gq i, sys_inv s p gq ->
  sys_inv (fst (cw_step s i)) (phy_step p (ki_dir i) (ki_nxt i) (w_dout s) (w_stop s)) (ghost_next gq s i).
Proof.
  intros s p gq i H. destruct (w_fsm s) eqn:F; [exact (idle_step s p gq i F H) | ..];
    (rewrite ghost_busy by congruence; apply busy_step; [congruence | exact H]).
Qed.

Lemma sys_inv_commit : forall s p gq dir a d, sys_inv s p gq ->
  phy_commit p dir (w_stop s) = Some (a, d) -> tracked a /\ gq = Some (a, d).
Proof.
  intros s p gq dir a d [_ H]. unfold phy_commit.
  destruct (w_fsm s); destruct H as (-> & H); try discriminate.
  destruct H as (_ & _ & (Ht & Hg) & _ & -> & -> & _).
  destruct (negb dir && w_stop s); [|discriminate]. intro E. inversion E; subst. split; assumption.
Qed.

(* the system with the ghost "most recently accepted request".  cw_writes_correct speaks of the ghost, so of gsys_run;
   cw_only_ctrl_regs, cw_converged and cw_write_latency are about sys_run of UlpiCtl.v, which has none: gsys_sys drops the ghost from the first run, and
   sys_inv then holds along the second for some ghost (sys_run_inv) *)
Definition gsys_step (x : cw_state * phy * option (N * N)) (i : N) : cw_state * phy * option (N * N) :=
  let '(s, p, gq) := x in
  (fst (cw_step s i), phy_step p (ki_dir i) (ki_nxt i) (w_dout s) (w_stop s), ghost_next gq s i).
Definition gsys_run (tr : list N) : cw_state * phy * option (N * N) := fold_left gsys_step tr (cw_init, phy_init, None).

Definition ginv (x : cw_state * phy * option (N * N)) : Prop := let '(s, p, gq) := x in sys_inv s p gq.

Lemma gsys_inv : forall tr x, ginv x -> ginv (fold_left gsys_step tr x).
Proof.
  induction tr as [|i t IH]; intros [[s p] gq] H; [exact H|].
  apply IH. exact (sys_inv_step s p gq i H).
Qed.

Theorem gsys_run_inv : forall tr, let '(s, p, gq) := gsys_run tr in sys_inv s p gq.
Proof. intro tr. exact (gsys_inv tr (cw_init, phy_init, None) sys_inv_init). Qed.

Lemma gsys_sys : forall tr x, fst (fold_left gsys_step tr x) = sys_run (fst x) tr.
Proof.
  induction tr as [|i t IH]; intros [[s p] gq]; [reflexivity|].
  cbn [fold_left sys_run]. rewrite IH. reflexivity.
Qed.

Lemma sys_run_inv : forall tr s p gq, sys_inv s p gq ->
  exists gq', sys_inv (fst (sys_run (s, p) tr)) (snd (sys_run (s, p) tr)) gq'.
Proof.
  intros tr s p gq H. pose proof (gsys_inv tr (s, p, gq) H) as G. pose proof (gsys_sys tr (s, p, gq)) as E.
  destruct (fold_left gsys_step tr (s, p, gq)) as [[s' p'] gq']. cbn [fst] in E. rewrite <- E. exists gq'. exact G.
Qed.

Lemma accepts_value : forall s i a v, accepts_request s i = Some (a, v) -> requested_of a i = Some v.
Proof.
  intros s i a v. unfold accepts_request.
  destruct (w_fsm s); try discriminate. destruct (cw_select _ _ _) as [av|] eqn:S; [|discriminate].
  destruct (negb (w_done s) && ki_idle i); [|discriminate]. intro E. inversion E; subst av.
  destruct (select_cases _ _ _ _ S) as [C | C]; inversion C; reflexivity.
Qed.

(* C24: a write the PHY commits is the most recently accepted request: a tracked register, with the value then requested *)
Theorem cw_writes_correct : forall tr i a d,
  let '(s, p, gq) := gsys_run tr in
  phy_commit p (ki_dir i) (w_stop s) = Some (a, d) ->
  (a = FUNC_CTRL \/ a = OTG_CTRL) /\ gq = Some (a, d).
Proof.
  intros tr i a d. pose proof (gsys_run_inv tr) as H. destruct (gsys_run tr) as [[s p] gq].
  exact (sys_inv_commit s p gq (ki_dir i) a d H).
Qed.

Theorem cw_only_ctrl_regs : forall tr, q_other (snd (sys_run sys_init tr)) = false.
Proof. intro tr. destruct (sys_run_inv tr _ _ _ sys_inv_init) as [gq H]. exact (proj1 H). Qed.

(* C24: whenever the translator is quiescent w.r.t. the control inputs, the PHY's two registers hold the requested values *)
Theorem cw_converged : forall tr i,
  let (s, p) := sys_run sys_init tr in
  quiescent s i = true -> q_r4 p = ki_func i /\ q_r10 p = ki_otg i.
Proof.
  intros tr i. destruct (sys_run_inv tr _ _ _ sys_inv_init) as [gq [_ H]]. fold sys_init in H.
  destruct (sys_run sys_init tr) as [s p]. cbn [fst snd] in H.
  unfold quiescent, cw_select.
  destruct (w_fsm s); try discriminate.
  destruct H as (_ & _ & _ & H). destruct (w_done s); [discriminate|]. destruct H as [E4 E10].
  destruct (c_cur4 s =? ki_func i) eqn:A; [|discriminate].
  destruct (c_cur10 s =? ki_otg i) eqn:B; [|discriminate].
  apply N.eqb_eq in A, B. intros _. split; congruence.
Qed.

(* ... and if it is not quiescent only because the settings differ, a write starts in this very cycle *)
Theorem cw_starts_write : forall s i, w_fsm s = W_IDLE -> w_done s = false -> ki_idle i = true ->
  cw_select s (ki_func i) (ki_otg i) <> None -> w_fsm (fst (cw_step s i)) = W_START.
Proof.
  intros s i Hf Hd Hi Hs. unfold cw_step, cw_next. cbn [fst]. rewrite Hf, Hd, Hi.
  destruct (cw_select s (ki_func i) (ki_otg i)) as [[a v]|]; [reflexivity | contradiction].
Qed.

Lemma sys_run_fst : forall tr s p, fst (sys_run (s, p) tr) = fold_left (fun s i => fst (cw_step s i)) tr s.
Proof. induction tr as [|i t IH]; intros s p; [reflexivity | apply IH]. Qed.

(* C24: DIR low, the command seen for one cycle, then command and data acknowledged at once: committed in the 5th cycle.
   The link side of this is a computation; what the PHY holds at the end is read off the invariant. *)
Theorem cw_write_latency : forall s p gq i1 i2 i3 i4 i5, sys_inv s p gq -> w_fsm s = W_START ->
  ki_dir i1 = false -> ki_dir i2 = false -> ki_dir i3 = false -> ki_dir i4 = false -> ki_dir i5 = false ->
  ki_nxt i2 = false -> ki_nxt i3 = true -> ki_nxt i4 = true ->
  let (s', p') := sys_run (s, p) [i1; i2; i3; i4; i5] in
  w_fsm s' = W_IDLE /\ w_done s' = true /\
  (w_caddr s = FUNC_CTRL -> q_r4 p' = w_cwrite s) /\ (w_caddr s = OTG_CTRL -> q_r10 p' = w_cwrite s).
Proof.
  intros s p gq i1 i2 i3 i4 i5 H0 Hf D1 D2 D3 D4 D5 N2 N3 N4.
  destruct (sys_run_inv [i1; i2; i3; i4; i5] s p gq H0) as [gq' [_ H]].
  pose proof (sys_run_fst [i1; i2; i3; i4; i5] s p) as E.
  destruct (sys_run (s, p) [i1; i2; i3; i4; i5]) as [s' p']. cbn [fst snd] in H, E.
  assert (L : w_fsm s' = W_IDLE /\ w_done s' = true /\ w_caddr s' = w_caddr s /\ w_cwrite s' = w_cwrite s).
  { rewrite E. cbn [fold_left]. unfold cw_step. cbn [fst]. rewrite D1, D2, D3, D4, D5, N2, N3, N4.
    destruct s as [fsm dout oreq stop done caddr cwrite cur4 cur10 busy]. cbn [w_fsm] in Hf. subst fsm.
    repeat split. }
  destruct L as (F & Dn & EA & EW). rewrite F, Dn, EA, EW in H. destruct H as (_ & _ & _ & _ & R4 & R10).
  repeat split; [exact F | exact Dn | intro C; exact (proj1 (R4 C)) | intro C; exact (proj1 (R10 C))].
Qed.

Lemma ki_func_lt : forall i, ki_func i < 256.
Proof.
  intro i. unfold ki_func.
  pose proof (bits_lt i 3 2). pose proof (bits_lt i 5 1). pose proof (bits_lt i 6 2). lia.
Qed.
Lemma ki_otg_lt : forall i, ki_otg i < 256.
Proof.
  intro i. unfold ki_otg.
  pose proof (bits_lt i 9 1). pose proof (bits_lt i 10 1). pose proof (bits_lt i 11 1).
  pose proof (bits_lt i 12 1). pose proof (bits_lt i 13 1). pose proof (bits_lt i 14 1). lia.
Qed.

Lemma cw_wf_init : cw_wf cw_init.
Proof. repeat split. Qed.

Lemma cw_select_lt : forall s f g, f < 256 -> g < 256 -> forall a v, cw_select s f g = Some (a, v) -> a < 64 /\ v < 256.
Proof.
  intros s f g Hf Hg a v H.
  destruct (select_cases _ _ _ _ H) as [E | E]; inversion E; subst; (split; [reflexivity | assumption]).
Qed.

Lemma cw_wf_step : forall s i, cw_wf s -> cw_wf (fst (cw_step s i)).
Proof.
  intros s i (Hd & Ha & Hw & H4).
  pose proof (cw_select_lt s _ _ (ki_func_lt i) (ki_otg_lt i)) as Hs.
  unfold cw_step, cw_next, cw_wf. cbn [fst].
  destruct s as [fsm dout oreq stop done caddr cwrite cur4 cur10 busy]. inv_simpl.
  assert (H4' : (if done && (caddr =? FUNC_CTRL) then cwrite else cur4) < 256)
    by (destruct (done && (caddr =? FUNC_CTRL)); assumption).
  destruct fsm; inv_simpl;
    [destruct (cw_select _ _ _) as [[a v]|]; [destruct (Hs a v eq_refl)|] | destruct (ki_dir i), (ki_nxt i); inv_simpl ..];
    repeat split; assumption || reflexivity || lia.
Qed.

Lemma testbit_low : forall lo n hi k, lo < 2 ^ n -> k < n -> N.testbit (lo + 2 ^ n * hi) k = N.testbit lo k.
Proof.
  intros lo n hi k Hlo Hk. rewrite <- (N.mod_pow2_bits_low (lo + 2 ^ n * hi) n k Hk), digit_mod by exact Hlo.
  reflexivity.
Qed.

(* cw_enc = FSM code and flags (a 7-bit field layout) + 128 * (the bytes, lowest first, cur10 unbounded on top);
   cw_dec reads the flags by position and peels the bytes off one digit at a time *)
Lemma cw_dec_enc : forall s, cw_wf s -> cw_dec (cw_enc s) = s.
Proof.
  intros [fsm dout oreq stop done caddr cwrite cur4 cur10 busy] (Hd & Ha & Hw & H4). inv_simpl.
  assert (Ha' : caddr < 256) by lia.
  unfold cw_dec, cw_enc. inv_simpl.
  set (R0 := dout + 256 * _).
  set (L := [(3, wfsm_code fsm); (1, b2n oreq); (1, b2n stop); (1, b2n done); (1, b2n busy)]).
  assert (HL : fields_ok L) by (repeat constructor; cbn [fst snd]; try apply b2n_lt2; destruct fsm; reflexivity).
  pose proof (fields_word_lt L HL) as Hlow. change (field_off L (length L)) with 7 in Hlow.
  set (m := _ + 128 * R0).
  assert (E : m = fields_word L + 2 ^ 7 * R0) by (subst m L; cbn [fields_word]; lia).
  assert (Ef : m mod 8 = wfsm_code fsm).
  { replace m with (wfsm_code fsm + 8 * (fields_word (tl L) + 2 ^ 4 * R0)) by (subst m L; cbn [fields_word tl]; lia).
    apply digit_mod. destruct fsm; reflexivity. }
  rewrite Ef. change 128 with (2 ^ 7). rewrite E, !testbit_low by (exact Hlow || reflexivity).
  rewrite (testbit_fields_word L 1 oreq HL eq_refl : N.testbit _ 3 = _),
    (testbit_fields_word L 2 stop HL eq_refl : N.testbit _ 4 = _),
    (testbit_fields_word L 3 done HL eq_refl : N.testbit _ 5 = _),
    (testbit_fields_word L 4 busy HL eq_refl : N.testbit _ 6 = _).
  rewrite digit_div by exact Hlow. subst R0.
  rewrite !digit_div, !digit_mod by assumption.
  destruct fsm; reflexivity.
Qed.
