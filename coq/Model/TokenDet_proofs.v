(* C01 -- proofs about Model/TokenDet.v: the FSM model of USBTokenDetector refines the packet-level
   specification tsp_step (td_refines, td_from_reset).  The simulation relation td_rel ties each FSM state to the
   bytes of the packet in progress; in IRRELEVANT the packet is `doomed`: no extension of it classifies as a token.
   From it, what the output word shows cycle by cycle (td_output_at, td_next_fields, td_new_token_iff,
   td_frame_next); classify_spec reads the specification's classification (the three classify_*_iff are its
   cases); sweep_sound carries an exhaustive netlist sweep over to the specification.  The packing lemmas serve
   the lock-step obligations. *)
From Coq Require Import NArith PeanoNat List Bool Lia.
Import ListNotations.
From LunaLib Require Import Netlist Machine PackN.
From LunaModel Require Import Crc Handshake Handshake_proofs TokenDet.
Open Scope N_scope.

Definition find_tok (p : N) : option N := find (fun q => p =? pid_byte q) token_pids.

Lemma find_tok_inv : forall p q, find_tok p = Some q -> In q token_pids /\ p = pid_byte q.
Proof. intros p q H. apply find_some in H as [Hin E]. apply N.eqb_eq in E. auto. Qed.

(* By evaluation over the 256 byte values.  The FSM keeps the low nibble of an
   accepted byte (current_pid); the specification looks the whole byte up. *)
Definition pid_fact (p : N) : bool :=
  implb (accept_pid p)
    (if p =? pid_byte PID_SOF then bits p 0 4 =? 5
     else negb (bits p 0 4 =? 5) && match find_tok p with Some q => q =? bits p 0 4 | None => false end).
Lemma pid_fact_all : forall_bits 8 pid_fact = true.
Proof. vm_compute. reflexivity. Qed.

Lemma pid_accepted : forall p, p < 256 -> accept_pid p = true ->
  ((p =? pid_byte PID_SOF) = true /\ (bits p 0 4 =? 5) = true) \/
  ((p =? pid_byte PID_SOF) = false /\ (bits p 0 4 =? 5) = false /\ find_tok p = Some (bits p 0 4)).
Proof.
  intros p Hp A. pose proof (forall_bits_sound 8 pid_fact pid_fact_all p Hp) as H.
  unfold pid_fact in H. rewrite A in H. cbn [implb] in H. destruct (p =? pid_byte PID_SOF).
  - left. auto.
  - right. apply andb_true_iff in H as [H1 H2]. apply negb_true_iff in H1.
    destruct (find_tok p) as [q|]; [|discriminate]. apply N.eqb_eq in H2. subst q. auto.
Qed.

Lemma tok_payload_bits : forall b0 b1, b0 < 256 -> bits b0 0 8 + 256 * bits b1 0 3 = tok_payload b0 b1.
Proof. intros b0 b1 H. rewrite (bits_small b0 8 H), bits_0. reflexivity. Qed.

Lemma tok_crc_bits : forall b1, b1 < 256 -> bits b1 3 5 = tok_crc b1.
Proof. intros b1 H. exact (bits_top b1 3 5 H). Qed.

Lemma tok_payload_lt : forall b0 b1, b0 < 256 -> tok_payload b0 b1 < 2048.
Proof.
  intros b0 b1 H. unfold tok_payload.
  assert (M : b1 mod 8 < 8) by (apply N.mod_lt; discriminate).
  revert M. generalize (b1 mod 8). lia.
Qed.

(* packets that can no longer become a token *)
Definition doomed (filt : bool) (l : list N) : Prop := forall ext a, classify filt a (l ++ ext) = EvNone.

Lemma doomed_snoc : forall filt l b, doomed filt l -> doomed filt (l ++ [b]).
Proof. intros filt l b H ext a. rewrite <- app_assoc. apply H. Qed.

Lemma classify_other_pid : forall filt a p body,
  (p =? pid_byte PID_SOF) = false -> find_tok p = None -> classify filt a (p :: body) = EvNone.
Proof.
  intros filt a p body E1 E2. destruct body as [|b0 [|b1 [|b2 body]]]; try reflexivity.
  cbn [classify]. fold (find_tok p). rewrite E1, E2.
  destruct (negb (crc5_usb (tok_payload b0 b1) =? tok_crc b1)); reflexivity.
Qed.

(* no packet that starts with p classifies, once some predicate P separates p from the five PID bytes classify knows
   (P is b on SOF and on the four token PIDs, negb b on p); P = accept_pid below, data_pid in SetupDec_proofs *)
Lemma not_a_token_byte : forall (P : N -> bool) b p,
  P (pid_byte PID_SOF) = b -> Forall (fun q => P (pid_byte q) = b) token_pids -> P p = negb b ->
  forall filt a body, classify filt a (p :: body) = EvNone.
Proof.
  intros P b p HS HT Hp filt a body. apply classify_other_pid.
  - apply N.eqb_neq. intros ->. rewrite HS in Hp. destruct b; discriminate.
  - destruct (find_tok p) as [q|] eqn:F; [|reflexivity]. apply find_tok_inv in F as [Hq ->].
    rewrite Forall_forall in HT. rewrite (HT q Hq) in Hp. destruct b; discriminate.
Qed.

Lemma doomed_bad_pid : forall filt p, accept_pid p = false -> doomed filt [p].
Proof.
  intros filt p A ext a. apply (not_a_token_byte accept_pid true); [reflexivity | repeat constructor | exact A].
Qed.

Lemma doomed_bad_crc : forall filt p b0 b1, (crc5_usb (tok_payload b0 b1) =? tok_crc b1) = false ->
  doomed filt [p; b0; b1].
Proof.
  intros filt p b0 b1 E ext a. destruct ext as [|b2 ext]; [|reflexivity].
  cbn [app classify]. rewrite E. reflexivity.
Qed.

Lemma doomed_long : forall filt p b0 b1 b2, doomed filt [p; b0; b1; b2].
Proof. intros filt p b0 b1 b2 ext a. reflexivity. Qed.

Definition td_rel (filt : bool) (s : td_state) (sp : tsp_state) : Prop :=
  td_regs s = snd sp /\
  match td_f s with
  | T_IDLE => fst sp = None
  | T_READ_PID => fst sp = Some []
  | T_READ_TOKEN_0 => exists p, fst sp = Some [p] /\ p < 256 /\ accept_pid p = true /\ td_cpid s = bits p 0 4
  | T_READ_TOKEN_1 => exists p b0, fst sp = Some [p; b0] /\ p < 256 /\ accept_pid p = true /\
                                   td_cpid s = bits p 0 4 /\ b0 < 256 /\ td_data s = b0
  | T_TOKEN_COMPLETE => exists p b0 b1, fst sp = Some [p; b0; b1] /\ p < 256 /\ accept_pid p = true /\
                                   td_cpid s = bits p 0 4 /\ b0 < 256 /\
                                   (crc5_usb (tok_payload b0 b1) =? tok_crc b1) = true /\
                                   td_data s = tok_payload b0 b1
  | T_IRRELEVANT => exists l, fst sp = Some l /\ doomed filt l
  end.

Lemma td_rel_init : forall filt, td_rel filt td_init tsp_init.
Proof. intro. split; reflexivity. Qed.

Ltac td_simp := cbn [td_f td_cpid td_data td_regs fst snd negb app pk_next pk_done] in *.

Lemma td_rel_step : forall filt s sp i, td_rel filt s sp ->
  td_rel filt (fst (td_step filt s i)) (fst (tsp_step filt sp i)) /\
  snd (td_step filt s i) = snd (tsp_step filt sp i).
Proof.
  intros filt [f cp td r] [p r'] i [Hr Hf]. td_simp. subst r'.
  unfold td_step, tsp_step, td_rel, tok_event_of. td_simp.
  split; [|reflexivity].
  pose proof (d_dat_bound i) as Hd.
  destruct f.
  - (* IDLE *) subst p. td_simp.
    destruct (d_act i); split; reflexivity.
  - (* READ_PID *) subst p. td_simp.
    destruct (d_act i); td_simp; [|split; reflexivity].
    destruct (d_val i); [|split; reflexivity].
    destruct (accept_pid (d_dat i)) eqn:A; td_simp; (split; [reflexivity|]).
    + exists (d_dat i). auto.
    + exists [d_dat i]. split; [reflexivity|]. apply doomed_bad_pid. exact A.
  - (* READ_TOKEN_0 *) destruct Hf as (q & -> & Hq & A & Hc). td_simp.
    destruct (d_act i); td_simp; [|split; reflexivity].
    destruct (d_val i); (split; [reflexivity|]).
    + exists q, (d_dat i). auto 10.
    + exists q. auto.
  - (* IRRELEVANT *) destruct Hf as (l & -> & Hl). td_simp.
    destruct (d_act i); td_simp.
    + split; [reflexivity|]. destruct (d_val i).
      * exists (l ++ [d_dat i]). split; [reflexivity|]. apply doomed_snoc. exact Hl.
      * exists l. auto.
    + split; [|reflexivity]. specialize (Hl [] (t_address i)). rewrite app_nil_r in Hl. rewrite Hl. reflexivity.
  - (* READ_TOKEN_1: the CRC5 check *) destruct Hf as (q & b0 & -> & Hq & A & Hc & Hb0 & ->). td_simp.
    destruct (d_act i); td_simp; [|split; reflexivity].
    destruct (d_val i); [|split; [reflexivity|]; exists q, b0; auto 10].
    rewrite (tok_payload_bits _ _ Hb0), (tok_crc_bits _ Hd), N.eqb_sym.
    destruct (crc5_usb (tok_payload b0 (d_dat i)) =? tok_crc (d_dat i)) eqn:C; td_simp; (split; [reflexivity|]).
    + exists q, b0, (d_dat i). auto 10.
    + exists [q; b0; d_dat i]. split; [reflexivity|]. apply doomed_bad_crc. exact C.
  - (* TOKEN_COMPLETE: the event *) destruct Hf as (q & b0 & b1 & -> & Hq & A & -> & Hb0 & C & ->). td_simp.
    destruct (d_act i); td_simp.
    + destruct (d_val i); (split; [reflexivity|]).
      * exists [q; b0; b1; d_dat i]. split; [reflexivity|]. apply doomed_long.
      * exists q, b0, b1. auto 10.
    + cbn [classify]. rewrite C. cbn [negb]. fold (find_tok q).
      rewrite (bits_0 (tok_payload b0 b1)), (bits_top _ 7 4 (tok_payload_lt b0 b1 Hb0)). change (2 ^ 7) with 128.
      destruct (pid_accepted q Hq A) as [[E1 E2]|(E1 & E2 & E3)]; rewrite E1, E2; [split; reflexivity|].
      rewrite E3.
      destruct (negb filt || (tok_payload b0 b1 mod 128 =? t_address i)); split; reflexivity.
Qed.

Theorem td_refines : forall filt tr s sp, td_rel filt s sp ->
  run (td_step filt) s tr = run (tsp_step filt) sp tr.
Proof. intro filt. apply sim_run_all. intros s sp i. apply td_rel_step. Qed.

Corollary td_from_reset : forall filt tr, run (td_step filt) td_init tr = run (tsp_step filt) tsp_init tr.
Proof. intros. apply td_refines. apply td_rel_init. Qed.

Lemma tl_snoc : forall (A : Type) (c : list A) x, c <> [] -> tl (c ++ [x]) = tl c ++ [x].
Proof. intros A [|a c] x H; [congruence | reflexivity]. Qed.

Lemma cur_pkt_closed_form : forall h, cur_pkt h = pkt_in_progress h.
Proof.
  induction h as [|x h IH] using rev_ind; [reflexivity|].
  unfold cur_pkt in *. rewrite fold_left_app. cbn [fold_left]. rewrite IH.
  unfold pkt_in_progress, run_cycles. rewrite rev_app_distr. cbn [rev app active_prefix].
  unfold pk_next. destruct (d_act x); cbn [rev].
  - destruct (rev (active_prefix (rev h))) as [|c0 c] eqn:E; [reflexivity|].
    change ((c0 :: c) ++ [x]) with (c0 :: (c ++ [x])).
    f_equal. unfold run_bytes. cbn [tl]. rewrite filter_app, map_app. cbn [filter].
    destruct (d_val x); cbn [map]; [reflexivity | rewrite app_nil_r; reflexivity].
  - destruct (rev (active_prefix (rev h))); reflexivity.
Qed.

Lemma cur_pkt_bytes : forall h l, cur_pkt h = Some l -> Forall (fun b => b < 256) l.
Proof.
  intros h l E. assert (K : pk_ok (cur_pkt h)); [|rewrite E in K; exact K].
  clear E. unfold cur_pkt. induction h as [|x h IH] using rev_ind; [exact I|].
  rewrite fold_left_app. apply pk_ok_next, IH.
Qed.

Lemma active_prefix_all : forall l, Forall (fun i => d_act i = true) l -> active_prefix l = l.
Proof.
  induction l as [|i l IH]; intro H; [reflexivity|]. inversion H; subst. cbn [active_prefix]. rewrite H2, IH by assumption. reflexivity.
Qed.

Lemma fold_pk_run : forall runc, runc <> [] -> Forall (fun i => d_act i = true) runc ->
  fold_left pk_next runc None = Some (run_bytes runc).
Proof.
  intros runc Hne Hall. change (fold_left pk_next runc None) with (cur_pkt runc).
  rewrite cur_pkt_closed_form. unfold pkt_in_progress, run_cycles.
  rewrite active_prefix_all by (apply Forall_rev; exact Hall). rewrite rev_involutive.
  destruct runc; [congruence | reflexivity].
Qed.

Lemma tsp_state_after : forall filt h,
  run_state (tsp_step filt) tsp_init h = (cur_pkt h, regs_after filt h).
Proof.
  intros filt h. unfold regs_after. induction h as [|x h IH] using rev_ind; [reflexivity|].
  rewrite run_state_app. cbn [run_state]. rewrite IH. cbn [tsp_step fst snd].
  unfold cur_pkt. rewrite fold_left_app. reflexivity.
Qed.

Lemma regs_after_snoc : forall filt h x,
  regs_after filt (h ++ [x]) = apply_event (tok_event_of filt (pkt_in_progress h) x) (regs_after filt h).
Proof.
  intros filt h x. unfold regs_after at 1. rewrite run_state_app. cbn [run_state].
  rewrite tsp_state_after. cbn [tsp_step fst snd]. rewrite cur_pkt_closed_form. reflexivity.
Qed.

Lemma tsp_new_token_idle : forall filt h,
  t_new_token (regs_after filt h) = true -> cur_pkt h = None.
Proof.
  intros filt h. destruct h as [|x h] using rev_ind; [reflexivity|]. clear IHh.
  rewrite regs_after_snoc, <- cur_pkt_closed_form. unfold cur_pkt. rewrite fold_left_app. cbn [fold_left].
  destruct (fold_left pk_next h None) as [l|]; unfold tok_event_of, pk_done, pk_next.
  - destruct (d_act x); [discriminate | reflexivity].
  - discriminate.
Qed.

(* the model's output word in cycle |h| shows the specification's registers after h *)
Theorem td_output_at : forall filt h x rest,
  nth (length h) (run (td_step filt) td_init (h ++ x :: rest)) 0 = regs_out (regs_after filt h).
Proof.
  intros. rewrite td_from_reset, <- (Nat.add_0_r (length h)), run_nth_app, run_cons, tsp_state_after. reflexivity.
Qed.

Theorem td_output_next : forall filt h x y rest,
  nth (S (length h)) (run (td_step filt) td_init (h ++ x :: y :: rest)) 0
  = regs_out (apply_event (tok_event_of filt (pkt_in_progress h) x) (regs_after filt h)).
Proof.
  intros. replace (h ++ x :: y :: rest) with ((h ++ [x]) ++ y :: rest) by (rewrite <- app_assoc; reflexivity).
  replace (S (length h)) with (length (h ++ [x])) by (rewrite app_length; cbn [length]; lia).
  rewrite td_output_at, regs_after_snoc. reflexivity.
Qed.

Lemma tok_event_of_done : forall filt pkt x, d_act x = false ->
  tok_event_of filt (Some pkt) x = classify filt (t_address x) pkt.
Proof. intros filt pkt x A. unfold tok_event_of, pk_done. rewrite A. reflexivity. Qed.

Lemma tok_event_of_inv : forall filt p x ev, tok_event_of filt p x = ev -> ev <> EvNone ->
  exists pkt, p = Some pkt /\ d_act x = false /\ classify filt (t_address x) pkt = ev.
Proof.
  intros filt p x ev <-. unfold tok_event_of, pk_done. destruct p as [l|]; [|congruence].
  destruct (d_act x); [congruence|]. intros _. exists l. auto.
Qed.

Lemma token_pid_lookup : forall q, In q token_pids ->
  (pid_byte q =? pid_byte PID_SOF) = false /\ find_tok (pid_byte q) = Some q.
Proof. intros q [<-|[<-|[<-|[<-|[]]]]]; split; reflexivity. Qed.

(* the packets with an effect: each event other than EvNone comes from one form of packet *)
Inductive classified (filt : bool) (addr : N) : list N -> tok_event -> Prop :=
| Cl_sof : forall b0 b1, crc5_usb (tok_payload b0 b1) = tok_crc b1 ->
    classified filt addr [pid_byte PID_SOF; b0; b1] (EvSof (tok_payload b0 b1))
| Cl_token : forall q b0 b1, In q token_pids -> crc5_usb (tok_payload b0 b1) = tok_crc b1 ->
    (filt = true -> tok_payload b0 b1 mod 128 = addr) ->
    classified filt addr [pid_byte q; b0; b1] (EvToken q (tok_payload b0 b1 mod 128) (tok_payload b0 b1 / 128))
| Cl_foreign : forall q b0 b1, In q token_pids -> crc5_usb (tok_payload b0 b1) = tok_crc b1 ->
    filt = true -> tok_payload b0 b1 mod 128 <> addr ->
    classified filt addr [pid_byte q; b0; b1] EvForeign.

Theorem classify_spec : forall filt addr pkt ev, ev <> EvNone ->
  (classify filt addr pkt = ev <-> classified filt addr pkt ev).
Proof.
  intros filt addr pkt ev Hev. split.
  - intros <-. destruct pkt as [|p [|b0 [|b1 [|b2 pkt]]]]; try (exfalso; apply Hev; reflexivity).
    revert Hev. cbn [classify]. fold (find_tok p).
    destruct (N.eqb_spec (crc5_usb (tok_payload b0 b1)) (tok_crc b1)) as [C|]; cbn [negb]; [|congruence].
    destruct (N.eqb_spec p (pid_byte PID_SOF)) as [->|_]; [constructor; exact C|].
    destruct (find_tok p) as [q|] eqn:F; [|congruence]. apply find_tok_inv in F as [Hin ->].
    destruct filt; cbn [negb orb]; [|constructor; auto; discriminate].
    destruct (N.eqb_spec (tok_payload b0 b1 mod 128) addr); constructor; auto.
  - intros [b0 b1 C | q b0 b1 Hin C Hf | q b0 b1 Hin C -> M]; cbn [classify]; apply N.eqb_eq in C; rewrite C; cbn [negb];
      [reflexivity | |]; fold (find_tok (pid_byte q)); destruct (token_pid_lookup q Hin) as [-> ->].
    + destruct filt; cbn [negb orb]; [|reflexivity]. rewrite (Hf eq_refl), N.eqb_refl. reflexivity.
    + apply N.eqb_neq in M. rewrite M. reflexivity.
Qed.

Theorem classify_token_iff : forall filt addr pkt q a e,
  classify filt addr pkt = EvToken q a e <->
  exists b0 b1, pkt = [pid_byte q; b0; b1] /\ In q token_pids /\
                crc5_usb (tok_payload b0 b1) = tok_crc b1 /\
                a = tok_payload b0 b1 mod 128 /\ e = tok_payload b0 b1 / 128 /\
                (filt = true -> a = addr).
Proof.
  intros. rewrite classify_spec by discriminate. split.
  - intro H. inversion H; subst. eauto 10.
  - intros (b0 & b1 & -> & Hin & C & -> & -> & Hf). constructor; assumption.
Qed.

Theorem classify_sof_iff : forall filt addr pkt f,
  classify filt addr pkt = EvSof f <->
  exists b0 b1, pkt = [pid_byte PID_SOF; b0; b1] /\ crc5_usb (tok_payload b0 b1) = tok_crc b1 /\ f = tok_payload b0 b1.
Proof.
  intros. rewrite classify_spec by discriminate. split.
  - intro H. inversion H; subst. eauto.
  - intros (b0 & b1 & -> & C & ->). constructor; assumption.
Qed.

Theorem classify_foreign_iff : forall filt addr pkt,
  classify filt addr pkt = EvForeign <->
  exists q b0 b1, pkt = [pid_byte q; b0; b1] /\ In q token_pids /\
                  crc5_usb (tok_payload b0 b1) = tok_crc b1 /\ filt = true /\ tok_payload b0 b1 mod 128 <> addr.
Proof.
  intros. rewrite classify_spec by discriminate. split.
  - intro H. inversion H; subst. eauto 10.
  - intros (q & b0 & b1 & -> & Hin & C & F & M). constructor; assumption.
Qed.

Definition o_new_token (o : N) : bool := N.odd o.
Definition o_pid (o : N) : N := bits o 1 4.
Definition o_addr (o : N) : N := bits o 5 7.
Definition o_ep (o : N) : N := bits o 12 4.
Definition o_new_frame (o : N) : bool := N.odd (o / 65536).
Definition o_frame (o : N) : N := bits o 17 11.

Lemma odd_div_pow2 : forall x k, N.odd (x / 2 ^ k) = N.testbit x k.
Proof. intros. rewrite <- N.shiftr_div_pow2, <- N.bit0_odd, N.shiftr_spec', N.add_0_l. reflexivity. Qed.

Lemma regs_out_fields : forall r, regs_ok r ->
  o_new_token (regs_out r) = t_new_token r /\ o_pid (regs_out r) = t_pid r /\ o_addr (regs_out r) = t_addr r /\
  o_ep (regs_out r) = t_ep r /\ o_new_frame (regs_out r) = t_new_frame r /\ o_frame (regs_out r) = t_frame r.
Proof.
  intros [nt p a e nf fr] (Hp & Ha & He & Hf). cbn [t_pid t_addr t_ep t_frame] in *.
  set (L := [(1, b2n nt); (4, p); (7, a); (4, e); (1, b2n nf); (11, fr)]).
  assert (HL : fields_ok L) by (repeat constructor; cbn [fst snd]; try apply b2n_lt2; assumption).
  assert (E : regs_out {| t_new_token := nt; t_pid := p; t_addr := a; t_ep := e; t_new_frame := nf; t_frame := fr |}
              = fields_word L).
  { unfold regs_out. subst L. cbn [fields_word t_new_token t_pid t_addr t_ep t_new_frame t_frame]. lia. }
  rewrite E. unfold o_new_token, o_new_frame. change 65536 with (2 ^ 16).
  rewrite <- N.bit0_odd, odd_div_pow2.
  split; [exact (testbit_fields_word L 0 nt HL eq_refl)|].
  split; [exact (bits_fields_word L 1 HL)|]. split; [exact (bits_fields_word L 2 HL)|].
  split; [exact (bits_fields_word L 3 HL)|].
  split; [exact (testbit_fields_word L 4 nf HL eq_refl) | exact (bits_fields_word L 5 HL)].
Qed.

Definition event_ok (ev : tok_event) : Prop :=
  match ev with EvSof f => f < 2048 | EvToken p a e => p < 16 /\ a < 128 /\ e < 16 | _ => True end.

Lemma apply_event_regs_ok : forall ev r, event_ok ev -> regs_ok r -> regs_ok (apply_event ev r).
Proof.
  intros ev r Hev (Hp & Ha & He & Hf). unfold regs_ok.
  destruct ev; cbn [apply_event event_ok t_pid t_addr t_ep t_frame] in *; repeat split;
    assumption || reflexivity || apply Hev.
Qed.

Lemma td_wf_init : td_wf td_init.
Proof. unfold td_wf, regs_ok, td_init. cbn. lia. Qed.

Lemma td_wf_step : forall filt s i, td_wf s -> td_wf (fst (td_step filt s i)).
Proof.
  intros filt [f cp td r] i (H1 & H2 & H3). cbn [td_cpid td_data td_regs] in *.
  pose proof (d_dat_bound i) as Hd.
  assert (B1 : bits (d_dat i) 0 4 < 16) by apply bits_lt.
  assert (B4 : bits td 0 8 + 256 * bits (d_dat i) 0 3 < 2048).
  { pose proof (bits_lt td 0 8). pose proof (bits_lt (d_dat i) 0 3).
    change (2 ^ 8) with 256 in *. change (2 ^ 3) with 8 in *. lia. }
  assert (R0 : regs_ok (apply_event EvNone r)) by (apply apply_event_regs_ok; [exact I | exact H3]).
  assert (R1 : regs_ok (apply_event (EvSof td) r)) by (apply apply_event_regs_ok; [exact H2 | exact H3]).
  assert (R2 : regs_ok (apply_event (EvToken cp (bits td 0 7) (bits td 7 4)) r)).
  { apply apply_event_regs_ok; [|exact H3]. repeat split; [exact H1 | apply bits_lt | apply bits_lt]. }
  assert (R3 : regs_ok (apply_event EvForeign r)) by (apply apply_event_regs_ok; [exact I | exact H3]).
  unfold td_step, td_wf. cbn [td_f td_cpid td_data td_regs fst].
  destruct f; repeat match goal with |- context [if ?c then _ else _] => destruct c end;
    cbn [td_cpid td_data td_regs]; (split; [|split]); assumption || lia.
Qed.

(* the specification's registers are the model's (td_rel), which stay within their widths (td_wf) *)
Lemma regs_after_ok : forall filt h, regs_ok (regs_after filt h).
Proof.
  intros filt h. unfold regs_after. generalize (td_rel_init filt) td_wf_init. generalize td_init tsp_init.
  induction h as [|x h IH]; intros s sp R W; cbn [run_state].
  - destruct R as [<- _]. apply W.
  - apply (IH (fst (td_step filt s x))); [apply td_rel_step, R | apply td_wf_step, W].
Qed.

(* h = the history up to (excluding) cycle t, x = the inputs of cycle t; the registered outputs are
   observed in cycle t+1: its six fields are the specification's registers after the event of cycle t. *)
Lemma td_next_fields : forall filt h x y rest,
  let o := nth (S (length h)) (run (td_step filt) td_init (h ++ x :: y :: rest)) 0 in
  let r := apply_event (tok_event_of filt (pkt_in_progress h) x) (regs_after filt h) in
  o_new_token o = t_new_token r /\ o_pid o = t_pid r /\ o_addr o = t_addr r /\ o_ep o = t_ep r /\
  o_new_frame o = t_new_frame r /\ o_frame o = t_frame r.
Proof.
  intros. subst o r. rewrite td_output_next. apply regs_out_fields. rewrite <- regs_after_snoc. apply regs_after_ok.
Qed.

Theorem td_new_token_iff : forall filt h x y rest,
  let o := nth (S (length h)) (run (td_step filt) td_init (h ++ x :: y :: rest)) 0 in
  o_new_token o = true <->
  exists pkt q a e, pkt_in_progress h = Some pkt /\ d_act x = false /\
                    classify filt (t_address x) pkt = EvToken q a e.
Proof.
  intros filt h x y rest o. destruct (td_next_fields filt h x y rest) as (F & _). fold o in F. rewrite F. split.
  - intro T. destruct (tok_event_of filt (pkt_in_progress h) x) eqn:K; try discriminate T.
    destruct (tok_event_of_inv _ _ _ _ K) as (pkt & Hp & A & C); [discriminate|]. eauto 10.
  - intros (pkt & q & a & e & Hp & A & C). rewrite Hp, tok_event_of_done, C by exact A. reflexivity.
Qed.

Theorem td_token_fields : forall filt h x y rest pkt q a e,
  pkt_in_progress h = Some pkt -> d_act x = false -> classify filt (t_address x) pkt = EvToken q a e ->
  let o := nth (S (length h)) (run (td_step filt) td_init (h ++ x :: y :: rest)) 0 in
  o_pid o = q /\ o_addr o = a /\ o_ep o = e /\ o_new_frame o = false /\
  o_frame o = o_frame (nth (length h) (run (td_step filt) td_init (h ++ x :: y :: rest)) 0).
Proof.
  intros filt h x y rest pkt q a e Hp A C o.
  destruct (td_next_fields filt h x y rest) as (_ & F1 & F2 & F3 & F4 & F5). fold o in F1, F2, F3, F4, F5.
  destruct (regs_out_fields _ (regs_after_ok filt h)) as (_ & _ & _ & _ & _ & G5).
  rewrite F1, F2, F3, F4, F5, td_output_at, G5, Hp, tok_event_of_done, C by exact A. cbn [apply_event t_pid t_addr t_ep t_new_frame t_frame]. auto.
Qed.

Theorem td_new_frame_iff : forall filt h x y rest,
  let o := nth (S (length h)) (run (td_step filt) td_init (h ++ x :: y :: rest)) 0 in
  o_new_frame o = true <->
  exists pkt f, pkt_in_progress h = Some pkt /\ d_act x = false /\ classify filt (t_address x) pkt = EvSof f.
Proof.
  intros filt h x y rest o. destruct (td_next_fields filt h x y rest) as (_ & _ & _ & _ & F & _). fold o in F. rewrite F. split.
  - intro T. destruct (tok_event_of filt (pkt_in_progress h) x) eqn:K; try discriminate T.
    destruct (tok_event_of_inv _ _ _ _ K) as (pkt & Hp & A & C); [discriminate|]. eauto 10.
  - intros (pkt & f & Hp & A & C). rewrite Hp, tok_event_of_done, C by exact A. reflexivity.
Qed.

Theorem td_frame_next : forall filt h x y rest,
  let tr := h ++ x :: y :: rest in
  let o := nth (S (length h)) (run (td_step filt) td_init tr) 0 in
  (forall pkt f, pkt_in_progress h = Some pkt -> d_act x = false -> classify filt (t_address x) pkt = EvSof f ->
                 o_frame o = f) /\
  (o_new_frame o = false -> o_frame o = o_frame (nth (length h) (run (td_step filt) td_init tr) 0)).
Proof.
  intros filt h x y rest tr o.
  destruct (td_next_fields filt h x y rest) as (_ & _ & _ & _ & F4 & F5). fold tr o in F4, F5.
  destruct (regs_out_fields _ (regs_after_ok filt h)) as (_ & _ & _ & _ & _ & G5).
  subst tr. rewrite F4, F5, td_output_at, G5. split.
  - intros pkt f Hp A C. rewrite Hp, tok_event_of_done, C by exact A. reflexivity.
  - destruct (tok_event_of filt (pkt_in_progress h) x); cbn [apply_event t_new_frame t_frame]; congruence.
Qed.

Theorem sweep_sound : forall gstep ginit filt w mk, sweep_eq gstep ginit filt w mk = true ->
  forall x, x < 2 ^ N.of_nat w -> run gstep ginit (mk x) = run (tsp_step filt) tsp_init (mk x).
Proof.
  intros gstep ginit filt w mk H x Hx. unfold sweep_eq in H.
  pose proof (forall_bits_sound w _ H x Hx) as E. cbv beta in E. apply list_eqb_eq in E.
  rewrite E. apply td_from_reset.
Qed.

Lemma sweep_pairs_covers : forall pid off b0 b1, b0 < 256 -> b1 < 256 ->
  sweep_pairs pid off (b0 + 256 * b1) = tok_trace pid b0 b1 ((b0 + off) mod 128) /\ b0 + 256 * b1 < 2 ^ N.of_nat 16.
Proof.
  intros pid off b0 b1 H0 H1. unfold sweep_pairs.
  change 255 with (N.ones 8). change 127 with (N.ones 7). rewrite !N.land_ones, N.shiftr_div_pow2.
  change (2 ^ 8) with 256. change (2 ^ 7) with 128. change (2 ^ N.of_nat 16) with 65536.
  rewrite digit_mod, digit_div by exact H0.
  split; [reflexivity | lia].
Qed.

Lemma td_fsm_of_code : forall f, td_fsm_of (td_fsm_code f) = f.
Proof. destruct f; reflexivity. Qed.

Lemma unpack11_eq : forall k n, unpack11 k n = unpack 2048 k n.
Proof.
  induction k as [|k IH]; intro n; [reflexivity|]. cbn [unpack11 unpack].
  change 2047 with (N.ones 11). rewrite N.land_ones, N.shiftr_div_pow2, IH. reflexivity.
Qed.

Lemma td_dec_enc : forall s, td_wf s -> td_dec (td_enc s) = s.
Proof.
  intros [f cp td [nt p a e nf fr]] (H1 & H2 & H3 & H4 & H5 & H6). cbn [td_cpid td_data td_regs t_pid t_addr t_ep t_frame] in *.
  unfold td_dec, td_enc.
  change 9%nat with (length (td_fields {| td_f := f; td_cpid := cp; td_data := td;
     td_regs := {| t_new_token := nt; t_pid := p; t_addr := a; t_ep := e; t_new_frame := nf; t_frame := fr |} |})).
  rewrite unpack11_eq, unpack_pack.
  - cbn [td_fields td_of_fields td_f td_cpid td_data td_regs t_new_token t_pid t_addr t_ep t_new_frame t_frame].
    rewrite td_fsm_of_code, !odd_b2n. reflexivity.
  - unfold td_fields. cbn [td_f td_cpid td_data td_regs t_new_token t_pid t_addr t_ep t_new_frame t_frame].
    pose proof (b2n_lt2 nt). pose proof (b2n_lt2 nf).
    assert (td_fsm_code f < 6) by (destruct f; reflexivity).
    repeat constructor; lia.
Qed.

(* the specification machine's packing (used only to run it as a monitor over recorded traces) *)
Lemma bytes_enc_snoc : forall l b, bytes_enc (l ++ [b]) = b + 256 * bytes_enc l.
Proof. intros. unfold bytes_enc. rewrite fold_left_app. cbn [fold_left]. lia. Qed.

Lemma bytes_enc_pos : forall l, 1 <= bytes_enc l.
Proof. induction l as [|b l IH] using rev_ind; [cbn; lia | rewrite bytes_enc_snoc; lia]. Qed.

Lemma bytes_dec_aux_enc : forall l fuel acc, Forall (fun b => b < 256) l -> (length l <= fuel)%nat ->
  bytes_dec_aux fuel (bytes_enc l) acc = l ++ acc.
Proof.
  induction l as [|b l IH] using rev_ind; intros fuel acc Hb Hf.
  - destruct fuel; reflexivity.
  - apply Forall_app in Hb as [Hl Hb]. inversion Hb as [|? ? Hb' _]; subst.
    rewrite app_length in Hf. cbn [length] in Hf. destruct fuel as [|fuel]; [lia|].
    cbn [bytes_dec_aux]. change 255 with (N.ones 8). rewrite N.land_ones, N.shiftr_div_pow2. change (2 ^ 8) with 256.
    rewrite bytes_enc_snoc. pose proof (bytes_enc_pos l) as P.
    destruct (N.leb_spec (b + 256 * bytes_enc l) 1); [lia|].
    rewrite digit_div, digit_mod by exact Hb'.
    rewrite IH by (auto; lia). rewrite <- app_assoc. reflexivity.
Qed.

Lemma bytes_enc_ge : forall l, 2 ^ (8 * N.of_nat (length l)) <= bytes_enc l.
Proof.
  induction l as [|b l IH] using rev_ind; [cbn; lia|].
  rewrite bytes_enc_snoc, app_length. cbn [length].
  replace (8 * N.of_nat (length l + 1)) with (8 * N.of_nat (length l) + 8) by lia.
  rewrite N.pow_add_r. change (2 ^ 8) with 256. lia.
Qed.

Lemma bytes_dec_enc : forall l, Forall (fun b => b < 256) l -> bytes_dec (bytes_enc l) = l.
Proof.
  intros l Hb. unfold bytes_dec. rewrite bytes_dec_aux_enc; [apply app_nil_r | exact Hb |].
  pose proof (bytes_enc_ge l) as G. pose proof (bytes_enc_pos l) as P.
  assert (L : bytes_enc l < 2 ^ N.size (bytes_enc l)) by (apply N.size_gt).
  assert (8 * N.of_nat (length l) < N.size (bytes_enc l)).
  { apply (N.pow_lt_mono_r_iff 2); lia. }
  lia.
Qed.

Lemma regs_dec_enc : forall r, regs_ok r -> regs_dec (regs_enc r) = r /\ regs_enc r < 2 ^ 66.
Proof.
  intros [nt p a e nf fr] (Hp & Ha & He & Hf). cbn [t_pid t_addr t_ep t_frame] in *.
  unfold regs_dec, regs_enc. cbn [t_new_token t_pid t_addr t_ep t_new_frame t_frame].
  assert (F : Forall (fun x => x < 2048) [b2n nt; p; a; e; b2n nf; fr]).
  { pose proof (b2n_lt2 nt). pose proof (b2n_lt2 nf). repeat constructor; lia. }
  split.
  - change 6%nat with (length [b2n nt; p; a; e; b2n nf; fr]). rewrite unpack11_eq, unpack_pack by exact F.
    rewrite !odd_b2n. reflexivity.
  - exact (pack_lt 2048 _ F).
Qed.

Lemma tsp_dec_enc : forall p r, regs_ok r -> (forall l, p = Some l -> Forall (fun b => b < 256) l) ->
  tsp_dec (tsp_enc (p, r)) = (p, r).
Proof.
  intros p r Hr Hp. destruct (regs_dec_enc r Hr) as [E B]. unfold tsp_dec, tsp_enc. cbn [fst snd].
  rewrite N.shiftr_div_pow2, N.land_ones, digit_div, digit_mod, E by exact B.
  destruct p as [l|]; [|reflexivity].
  pose proof (bytes_enc_pos l) as P. destruct (bytes_enc l) eqn:EB; [lia|]. rewrite <- EB.
  rewrite bytes_dec_enc by (apply Hp; reflexivity). reflexivity.
Qed.
