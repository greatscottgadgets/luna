(* C36 -- the RawPacketTransmitter / RawHeaderPacketReceiver models (Model/RawTx.v).  rtx_frames: the transmitter
   presents, cycle by cycle and under any ready pattern, the words of the wire (the invariant rtx_inv pairs each FSM
   state with the words that remain to be presented); rtx_wire_explicit: the wire specification (a symbol stream cut
   into words) is the word list the FSM produces; and what is sent is read back, the header by RawHeaderPacketReceiver
   (rhr_roundtrip) and the data packet by the specification of DataPacketReceiver, C40 (rtx_data_roundtrip).  Last,
   the packing of the two models' states for the lock-step obligations. *)
From Coq Require Import NArith List Bool Lia.
Import ListNotations.
From LunaLib Require Import Netlist Machine PackN ListFacts.
From LunaModel Require Import Crc Crc_proofs DataRx DataRx_proofs RawTx.
Open Scope N_scope.

Lemma rtx_nbytes_cases : forall v, rtx_nbytes v <> 0 -> v = 1 \/ v = 3 \/ v = 7 \/ v = 15.
Proof.
  intros v H. unfold rtx_nbytes in H.
  destruct (N.eqb_spec v 15); [tauto|]. destruct (N.eqb_spec v 7); [tauto|].
  destruct (N.eqb_spec v 3); [tauto|]. destruct (N.eqb_spec v 1); [tauto | contradiction].
Qed.

Lemma rtx_nbytes_range : forall v, rtx_nbytes v <> 0 -> 1 <= rtx_nbytes v <= 4.
Proof. intros v H. destruct (rtx_nbytes_cases v H) as [->|[->|[->| ->]]]; split; discriminate. Qed.

Lemma beats_ok_last : forall b, beats_ok [b] = true -> rtx_nbytes (snd b) <> 0 /\ fst b < 4294967296.
Proof.
  intros b H. cbn [beats_ok] in H. apply andb_true_iff in H as [Hn Hw].
  split; [apply N.eqb_neq, negb_true_iff, Hn | apply N.ltb_lt, Hw].
Qed.

Lemma beats_ok_more : forall b b2 t, beats_ok (b :: b2 :: t) = true ->
  snd b = 15 /\ fst b < 4294967296 /\ beats_ok (b2 :: t) = true.
Proof.
  intros b b2 t H. change (beats_ok (b :: b2 :: t)) with ((snd b =? 15) && (fst b <? 4294967296) && beats_ok (b2 :: t)) in H.
  apply andb_true_iff in H as [H Hok]. apply andb_true_iff in H as [Hv Hw].
  repeat split; [apply N.eqb_eq, Hv | apply N.ltb_lt, Hw | exact Hok].
Qed.

Lemma rtx_head_nbytes : forall b t, beats_ok (b :: t) = true -> rtx_nbytes (snd b) <> 0.
Proof.
  intros b [|b2 t] H; [apply (beats_ok_last b H)|]. destruct (beats_ok_more b b2 t H) as [-> _]. discriminate.
Qed.

Lemma beats_ind : forall P : list (N * N) -> Prop,
  (forall w v, rtx_nbytes v <> 0 -> w < 4294967296 -> P [(w, v)]) ->
  (forall w b t, w < 4294967296 -> P (b :: t) -> P ((w, 15) :: b :: t)) ->
  forall bs, bs <> [] -> beats_ok bs = true -> P bs.
Proof.
  intros P Hl Hm. induction bs as [|[w v] t IH]; intros Hne Hok; [contradiction|]. destruct t as [|b t].
  - apply Hl; apply (beats_ok_last _ Hok).
  - destruct (beats_ok_more _ _ _ Hok) as (Hv & Hw & Hok'). cbn [fst snd] in Hv, Hw. subst v.
    apply Hm; [exact Hw | apply IH; [discriminate | exact Hok']].
Qed.

Lemma beat_bytes_full : forall w t, flat_map beat_bytes ((w, 15) :: t) = drx_bytes4 w ++ flat_map beat_bytes t.
Proof. reflexivity. Qed.

Definition rtx_tailw (pv pw crc : N) : list (N * N) :=
  [(rtx_last_word pv pw crc, 0); rtx_crc_word pv crc; rtx_fin_word pv].
Fixpoint rtx_pay_rest (bs : list (N * N)) (crc : N) : list (N * N) :=
  match bs with
  | [] => []
  | b :: t => match t with [] => rtx_tailw (snd b) (fst b) crc | _ => (fst b, 0) :: rtx_pay_rest t crc end
  end.

Section Framing.
  Variable U : crc_units.
  Variables h16 c32f r16 r32 : list N -> N.
  Hypothesis HT : crc_tracks U h16 c32f r16 r32.

  Variable p : rtx_pkt.
  Hypothesis Hb0 : p_dw0 p < 4294967296.
  Hypothesis Hb1 : p_dw1 p < 4294967296.
  Hypothesis Hb2 : p_dw2 p < 4294967296.
  Hypothesis Hbl : p_lf p < 4294967296.
  Hypothesis Hbeats : beats_ok (p_beats p) = true.

  Let crc := c32f (p_payload p).
  Definition rtx_dpp_x : list (N * N) :=
    if p_delayed p then [RTX_DPPABORT]
    else match p_beats p with
         | [] => [rtx_crc_word 15 crc; rtx_fin_word 15]
         | bs => rtx_pay_rest bs crc
         end.
  Definition rtx_rest_x : list (N * N) := if p_is_data p then RTX_DPPSTART :: rtx_dpp_x else [].
  Definition rtx_d3w : N * N := (rtx_dw3 (h16 [p_dw0 p; p_dw1 p; p_dw2 p]) (p_lf p), 0).
  Definition rtx_wire_x : list (N * N) :=
    RTX_HPSTART :: (p_dw0 p, 0) :: (p_dw1 p, 0) :: (p_dw2 p, 0) :: rtx_d3w :: rtx_rest_x.

  Definition rtx_latched (s : rtx_state) : Prop :=
    th0 s = p_dw0 p /\ th1 s = p_dw1 p /\ th2 s = p_dw2 p /\ thl s = p_lf p.
  Definition rtx_hdr_inv (s : rtx_state) (bs : list (N * N)) (k16 : list N) : Prop :=
    rtx_latched s /\ t16 s = r16 k16 /\ t32 s = r32 [] /\ bs = p_beats p.

  (* invariant: in state s, with the beats bs still at the producer, the words ws remain to be presented *)
  Definition rtx_inv (s : rtx_state) (bs ws : list (N * N)) : Prop :=
    match tf s with
    | TIDLE => ws = []
    | THP => rtx_hdr_inv s bs [] /\ ws = rtx_wire_x
    | TDW0 => rtx_hdr_inv s bs [] /\ ws = skipn 1 rtx_wire_x
    | TDW1 => rtx_hdr_inv s bs [p_dw0 p] /\ ws = skipn 2 rtx_wire_x
    | TDW2 => rtx_hdr_inv s bs [p_dw0 p; p_dw1 p] /\ ws = skipn 3 rtx_wire_x
    | TDW3 => rtx_hdr_inv s bs [p_dw0 p; p_dw1 p; p_dw2 p] /\ ws = skipn 4 rtx_wire_x
    | TSDP => rtx_latched s /\ t32 s = r32 [] /\ bs = p_beats p /\
              tzlp s = match p_beats p with [] => true | _ => false end /\ ws = RTX_DPPSTART :: rtx_dpp_x
    | TPAY => exists consumed, bs <> [] /\ beats_ok bs = true /\ t32 s = r32 consumed /\
              consumed ++ flat_map beat_bytes bs = p_payload p /\ ws = (tpw s, 0) :: rtx_pay_rest bs crc
    | TLAST => u32_out U (t32 s) = crc /\ ws = rtx_tailw (tpv s) (tpw s) crc
    | TCRC => u32_out U (t32 s) = crc /\ ws = [rtx_crc_word (tpv s) crc; rtx_fin_word (tpv s)]
    | TFIN => ws = [rtx_fin_word (tpv s)]
    | TABORT => ws = [RTX_DPPABORT]
    end.

  Definition wire_hd (ws : list (N * N)) (r : bool) : rtx_obs :=
    match ws with
    | [] => rtx_idle_obs
    | w :: ws' => (true, w, r && match ws' with [] => true | _ => false end)
    end.
  Definition wire_tl (ws : list (N * N)) (r : bool) : list (N * N) :=
    match ws with [] => [] | _ :: ws' => if r then ws' else ws end.

  Lemma wire_run_cons : forall ws r t, wire_run ws (r :: t) = wire_hd ws r :: wire_run (wire_tl ws r) t.
  Proof. intros [|w ws'] r t; reflexivity. Qed.

  (* the unit has just latched beat b (START_DPP and SEND_PAYLOAD do this alike): what it has left to send *)
  Lemma rtx_inv_taken : forall consumed b t s,
    beats_ok (b :: t) = true -> consumed ++ flat_map beat_bytes (b :: t) = p_payload p ->
    tf s = (if match t with [] => true | _ => false end then TLAST else TPAY) -> tpw s = fst b -> tpv s = snd b ->
    t32 s = (if negb (rtx_nbytes (snd b) =? 0) then u32_adv U (r32 consumed) (rtx_nbytes (snd b)) (fst b) else r32 consumed) ->
    rtx_inv s t (rtx_pay_rest (b :: t) crc).
  Proof.
    intros consumed b t s Hok Hpay Hf Hpw Hpv Ht. pose proof (rtx_head_nbytes b t Hok) as Hn.
    apply N.eqb_neq in Hn as Hn'. rewrite Hn' in Ht. cbn [negb] in Ht.
    rewrite (t32_adv HT) in Ht by (apply rtx_nbytes_range; exact Hn). fold (beat_bytes b) in Ht.
    unfold rtx_inv. rewrite Hf. destruct t as [|b1 t1].
    - rewrite Ht, (t32_out HT), Hpv, Hpw. cbn [flat_map] in Hpay. rewrite app_nil_r in Hpay. rewrite Hpay. split; reflexivity.
    - exists (consumed ++ beat_bytes b). rewrite <- app_assoc, Hpw.
      repeat split; [discriminate | apply (beats_ok_more b b1 t1 Hok) | exact Ht | exact Hpay].
  Qed.

  (* on an explicit state record: `rstep` computes the transmitter's step, `rsimp` opens the invariant *)
  Ltac rstep := cbn [rtx_next tf fst snd rtx_env_in i_gen i_ready i_ddata i_dvalid i_dlast th0 th1 th2 thl tpw tpv tzlp t16 t32
                     rtx_obs_of x_valid x_data x_ctrl x_done x_dready andb].
  Ltac rsimp := unfold rtx_inv, rtx_hdr_inv, rtx_latched; cbn [tf th0 th1 th2 thl tpw tpv tzlp t16 t32 fst snd].

  (* one cycle with source.ready = r: the observation is the head of ws, the invariant holds of what is left *)
  Definition rtx_step_ok (s : rtx_state) (bs ws : list (N * N)) (r : bool) : Prop :=
    let so := rtx_next U s (rtx_env_in p false bs r) in
    rtx_obs_of (snd so) = wire_hd ws r /\
    rtx_inv (fst so) (if x_dready (snd so) then tl bs else bs) (wire_tl ws r).

  Lemma rtx_step_dw3 : forall s bs r, tf s = TDW3 -> rtx_hdr_inv s bs [p_dw0 p; p_dw1 p; p_dw2 p] ->
    rtx_step_ok s bs (rtx_d3w :: rtx_rest_x) r.
  Proof.
    intros [f h0 h1 h2 hl pw pv z a b] bs r Hf [[L0 [L1 [L2 L3]]] [A [B E]]]. cbn [tf th0 th1 th2 thl t16 t32] in *. subst.
    unfold rtx_step_ok. rstep. rewrite (t16_out HT). fold (p_is_data p). unfold rtx_rest_x, rtx_d3w.
    destruct (p_is_data p) eqn:D; destruct r; cbn [wire_hd wire_tl andb negb]; (split; [reflexivity|]); rsimp;
      unfold rtx_wire_x, rtx_rest_x, rtx_d3w; rewrite ?D; repeat split; try reflexivity.
    (* left: packet_is_zlp, latched in this state as data_sink.valid = 0, must say "no beats": a first beat's mask is not 0 *)
    destruct (p_beats p) as [|b0 t0] eqn:EB; [reflexivity|].
    pose proof (rtx_head_nbytes b0 t0 Hbeats) as Hn. cbn [fst snd]. destruct (N.eqb_spec (snd b0) 0) as [E|]; [|reflexivity].
    rewrite E in Hn. contradiction.
  Qed.

  Lemma rtx_step_sdp : forall s r, tf s = TSDP -> rtx_latched s -> t32 s = r32 [] ->
    tzlp s = match p_beats p with [] => true | _ => false end ->
    rtx_step_ok s (p_beats p) (RTX_DPPSTART :: rtx_dpp_x) r.
  Proof.
    intros [f h0 h1 h2 hl pw pv z a b] r Hf [L0 [L1 [L2 L3]]] B Z. cbn [tf th0 th1 th2 thl tzlp t32] in *. subst.
    unfold rtx_step_ok. rstep. fold (p_delayed p). unfold rtx_dpp_x.
    destruct r; [|split; [reflexivity|]; cbn [wire_tl]; rsimp; repeat split; reflexivity].
    destruct (p_delayed p) eqn:DL; [split; reflexivity|].
    destruct (p_beats p) as [|b0 t0] eqn:EB.
    - split; [reflexivity|]. cbn [negb andb wire_tl]. rsimp. split; [|reflexivity].
      rewrite (t32_out HT). unfold crc, p_payload. rewrite EB. reflexivity.
    - cbn [negb andb wire_tl wire_hd tl]. split; [destruct t0; reflexivity|].
      apply (rtx_inv_taken [] b0 t0); try reflexivity; [exact Hbeats | unfold p_payload; rewrite EB; reflexivity].
  Qed.

  Lemma rtx_step_pay : forall s bs consumed r, tf s = TPAY -> bs <> [] -> beats_ok bs = true ->
    t32 s = r32 consumed -> consumed ++ flat_map beat_bytes bs = p_payload p ->
    rtx_step_ok s bs ((tpw s, 0) :: rtx_pay_rest bs crc) r.
  Proof.
    intros [f h0 h1 h2 hl pw pv z a b] bs consumed r Hf Hne Hok B Hpay. cbn [tf tpw t32] in *. subst.
    unfold rtx_step_ok. rstep.
    destruct r; [|split; [reflexivity|]; cbn [wire_tl]; rsimp; exists consumed; repeat split; assumption || reflexivity].
    destruct bs as [|b0 t0]; [contradiction|].
    cbn [wire_hd wire_tl tl fst snd]. split; [destruct t0; reflexivity|].
    apply (rtx_inv_taken consumed b0 t0); try reflexivity; assumption.
  Qed.

  Lemma rtx_step_inv : forall s bs ws r, rtx_inv s bs ws -> rtx_step_ok s bs ws r.
  Proof.
    intros s bs ws r I. unfold rtx_inv in I. destruct (tf s) eqn:Hf.
    6: { (* DW3 *) destruct I as [I ->]. exact (rtx_step_dw3 s bs r Hf I). }
    6: { (* START_DPP *) destruct I as [L [B [-> [Z ->]]]]. exact (rtx_step_sdp s r Hf L B Z). }
    6: { (* SEND_PAYLOAD *) destruct I as [consumed [Hne [Hok [B [Hpay ->]]]]]. exact (rtx_step_pay s bs consumed r Hf Hne Hok B Hpay). }
    all: destruct s as [f h0 h1 h2 hl pw pv z a b]; unfold rtx_hdr_inv, rtx_latched in I;
      cbn [tf th0 th1 th2 thl tpw tpv tzlp t16 t32] in *; subst f; unfold rtx_step_ok; rstep.
    2-5: (* HP, DW0, DW1, DW2 *)
      destruct I as [[[L0 [L1 [L2 L3]]] [A [B E]]] ->]; subst;
      destruct r; (split; [reflexivity|]); cbn [wire_tl rtx_wire_x skipn]; rsimp; rewrite ?(t16_adv HT); repeat split; reflexivity.
    - (* IDLE *) subst ws. split; reflexivity.
    - (* SEND_LAST_WORD *) destruct I as [C ->]. rewrite C.
      destruct r; (split; [reflexivity|]); cbn [wire_tl rtx_tailw]; rsimp; split; reflexivity || exact C.
    - (* SEND_CRC *) destruct I as [C ->]. rewrite C.
      destruct r; (split; [destruct (rtx_crc_word pv crc); reflexivity|]); cbn [wire_tl]; rsimp; [reflexivity | split; reflexivity || exact C].
    - (* FINISH_DPP *) subst ws.
      destruct r; (split; [destruct (rtx_fin_word pv); reflexivity|]); cbn [wire_tl]; rsimp; reflexivity.
    - (* ABORT_DPP *) subst ws. destruct r; (split; [reflexivity|]); cbn [wire_tl]; rsimp; reflexivity.
  Qed.

  Lemma rtx_loop_inv : forall rdys s bs ws, rtx_inv s bs ws ->
    map rtx_obs_of (rtx_loop U p s bs false rdys) = wire_run ws rdys.
  Proof.
    induction rdys as [|r t IH]; intros s bs ws I; [reflexivity|].
    cbn [rtx_loop]. rewrite wire_run_cons.
    pose proof (rtx_step_inv s bs ws r I) as [Ho In].
    destruct (rtx_next U s (rtx_env_in p false bs r)) as [s' o]. cbn [fst snd map] in *.
    rewrite Ho. f_equal. apply IH. exact In.
  Qed.

  Lemma rtx_hdr_word_fields :
    bits (rtx_hdr_word p) 0 32 = p_dw0 p /\ bits (rtx_hdr_word p) 32 32 = p_dw1 p /\
    bits (rtx_hdr_word p) 64 32 = p_dw2 p /\ bits (rtx_hdr_word p) 96 32 = p_lf p.
  Proof.
    clear Hbeats crc.   (* else `lia` takes them, and the closed lemma asks for c32f and Hbeats *)
    set (L := [(32, p_dw0 p); (32, p_dw1 p); (32, p_dw2 p); (32, p_lf p)]).
    assert (HL : fields_ok L) by (repeat constructor; assumption).
    assert (E : rtx_hdr_word p = fields_word L)
      by (unfold rtx_hdr_word, L; cbn [fields_word]; change (2 ^ 32) with 4294967296; lia).
    rewrite E. exact (conj (bits_fields_word L 0 HL) (conj (bits_fields_word L 1 HL)
                       (conj (bits_fields_word L 2 HL) (bits_fields_word L 3 HL)))).
  Qed.

  (* C36, transmit side: generate in the first cycle, then ANY ready pattern *)
  Theorem rtx_frames : forall r0 rdys,
    map rtx_obs_of (rtx_loop U p (rtx_init U) (p_beats p) true (r0 :: rdys)) = rtx_idle_obs :: wire_run rtx_wire_x rdys.
  Proof.
    intros r0 rdys. cbn [rtx_loop rtx_next rtx_init tf rtx_env_in i_gen map rtx_obs_of x_valid x_data x_ctrl x_done x_dready].
    f_equal. apply rtx_loop_inv. unfold rtx_inv, rtx_hdr_inv, rtx_latched. cbn [tf th0 th1 th2 thl t16 t32 i_hdr].
    change (i_hdr (rtx_env_in p true (p_beats p) r0)) with (rtx_hdr_word p).
    destruct rtx_hdr_word_fields as [F0 [F1 [F2 F3]]]. rewrite F0, F1, F2, F3, (t16_init HT), (t32_init HT). repeat split; reflexivity.
  Qed.
End Framing.

Definition rtx_nosym (b : N) : N * bool := (b, false).
Definition rtx_endseq : list (N * bool) := [(SYM_END, true); (SYM_END, true); (SYM_END, true); (SYM_EPF, true)].

Lemma rtx_last_word_bytes : forall v a b c d e f g h, rtx_nbytes v <> 0 -> drx_bytes [a; b; c; d] -> drx_bytes [e; f; g; h] ->
  let k := N.to_nat (rtx_nbytes v) in
  rtx_last_word v (drx_le [a; b; c; d]) (drx_le [e; f; g; h]) = drx_le (firstn k [a; b; c; d] ++ firstn (4 - k) [e; f; g; h]).
Proof.
  intros v a b c d e f g h Hn HP HD.
  destruct (rtx_nbytes_cases v Hn) as [->|[->|[->| ->]]].
  - exact (drx_le_merge _ _ 0 1 0 3 HP HD eq_refl).
  - exact (drx_le_merge _ _ 0 2 0 2 HP HD eq_refl).
  - exact (drx_le_merge _ _ 0 3 0 1 HP HD eq_refl).
  - reflexivity.
Qed.

Lemma rtx_crc_word_bytes : forall v e f g h, rtx_nbytes v <> 0 -> drx_bytes [e; f; g; h] ->
  let k := N.to_nat (rtx_nbytes v) in
  rtx_crc_word v (drx_le [e; f; g; h]) = sym_word (map rtx_nosym (skipn (4 - k) [e; f; g; h]) ++ firstn (4 - k) rtx_endseq).
Proof.
  intros v e f g h Hn HD.
  assert (HE : drx_bytes [SYM_END; SYM_END; SYM_END]) by (repeat split).
  destruct (rtx_nbytes_cases v Hn) as [->|[->|[->| ->]]].
  - exact (f_equal2 pair (drx_le_merge _ _ 3 1 0 3 HD HE eq_refl) eq_refl).
  - exact (f_equal2 pair (drx_le_merge _ _ 2 2 0 2 HD HE eq_refl) eq_refl).
  - exact (f_equal2 pair (drx_le_merge _ _ 1 3 0 1 HD HE eq_refl) eq_refl).
  - reflexivity.
Qed.

Lemma rtx_tail_words : forall w v crc, rtx_nbytes v <> 0 -> w < 4294967296 -> crc < 4294967296 ->
  words_of_syms (map rtx_nosym (beat_bytes (w, v) ++ drx_bytes4 crc) ++ rtx_endseq) = rtx_tailw v w crc.
Proof.
  intros w v crc Hn Hw Hc. unfold beat_bytes, rtx_tailw. cbn [fst snd].
  destruct (drx_word_bytes w Hw) as (a & b & c & d & HP & -> & ->).
  destruct (drx_word_bytes crc Hc) as (e & f & g & h & HD & -> & ->).
  rewrite rtx_last_word_bytes, rtx_crc_word_bytes by assumption.
  destruct (rtx_nbytes_cases v Hn) as [->|[->|[->| ->]]]; reflexivity.
Qed.

Lemma rtx_words_full : forall w S, w < 4294967296 ->
  words_of_syms (map rtx_nosym (drx_bytes4 w) ++ S) = (w, 0) :: words_of_syms S.
Proof.
  intros w S Hw. cbn [drx_bytes4 map app words_of_syms]. f_equal. unfold sym_word. cbn [map fst snd rtx_nosym].
  f_equal. apply (drx_le_word w Hw).
Qed.

Lemma rtx_pay_words : forall crc, crc < 4294967296 -> forall bs, bs <> [] -> beats_ok bs = true ->
  words_of_syms (map rtx_nosym (flat_map beat_bytes bs ++ drx_bytes4 crc) ++ rtx_endseq) = rtx_pay_rest bs crc.
Proof.
  intros crc Hc. apply beats_ind.
  - intros w v Hn Hw. cbn [flat_map]. rewrite app_nil_r. apply rtx_tail_words; assumption.
  - intros w b t Hw IH.
    rewrite beat_bytes_full, <- app_assoc, map_app, <- app_assoc, rtx_words_full, IH by exact Hw. reflexivity.
Qed.

Theorem rtx_wire_explicit : forall h16 c32f p, beats_ok (p_beats p) = true -> (forall bs, c32f bs < 4294967296) ->
  wire h16 c32f p = rtx_wire_x h16 c32f p.
Proof.
  intros h16 c32f p Hok Hc. unfold wire, rtx_wire_x, wire_header, rtx_rest_x, rtx_d3w. cbn [app]. repeat f_equal.
  destruct (p_is_data p); [|reflexivity]. unfold rtx_dpp_x. destruct (p_delayed p); [reflexivity|].
  unfold wire_dpp, p_payload. f_equal. destruct (p_beats p) as [|b t].
  - exact (rtx_words_full _ _ (Hc _)).
  - exact (rtx_pay_words _ (Hc _) (b :: t) ltac:(discriminate) Hok).
Qed.

Fixpoint rtx_count_true (l : list bool) : nat := match l with [] => O | b :: t => (if b then 1 else 0) + rtx_count_true t end.

Fixpoint obs_accepted (rdys : list bool) (obs : list rtx_obs) : list (N * N) :=
  match rdys, obs with
  | r :: t, (v, w, _) :: o => (if r && v then [w] else []) ++ obs_accepted t o
  | _, _ => []
  end.
Definition obs_dones (obs : list rtx_obs) : nat := length (filter (fun o : rtx_obs => snd o) obs).

Lemma wire_run_accepted : forall rdys ws, obs_accepted rdys (wire_run ws rdys) = firstn (rtx_count_true rdys) ws.
Proof.
  induction rdys as [|r t IH]; intros ws; [reflexivity|].
  destruct ws as [|w ws'], r; cbn [wire_run obs_accepted rtx_idle_obs rtx_count_true andb app Nat.add];
    rewrite IH, ?firstn_nil; reflexivity.
Qed.

Lemma wire_run_dones : forall rdys ws,
  obs_dones (wire_run ws rdys) = if (Nat.ltb 0 (length ws) && Nat.leb (length ws) (rtx_count_true rdys))%bool then 1%nat else 0%nat.
Proof.
  unfold obs_dones. induction rdys as [|r t IH]; intros ws; [destruct ws; reflexivity|].
  destruct ws as [|w [|w2 ws2]], r; cbn [wire_run rtx_idle_obs filter snd length rtx_count_true andb Nat.add];
    rewrite IH; reflexivity.
Qed.

Definition rtx_pkt_ok (p : rtx_pkt) : Prop :=
  p_dw0 p < 4294967296 /\ p_dw1 p < 4294967296 /\ p_dw2 p < 4294967296 /\ p_lf p < 4294967296 /\
  beats_ok (p_beats p) = true.

Theorem rtx_real_frames : forall p r0 rdys, rtx_pkt_ok p ->
  map rtx_obs_of (rtx_loop drx_real_units p (rtx_init drx_real_units) (p_beats p) true (r0 :: rdys))
  = rtx_idle_obs :: wire_run (wire crc16_hdr crc32_usb p) rdys.
Proof.
  intros p r0 rdys (H0 & H1 & H2 & H3 & Hb).
  rewrite (rtx_wire_explicit crc16_hdr crc32_usb p Hb crc32_usb_lt).
  exact (rtx_frames _ _ _ _ _ drx_real_tracks p H0 H1 H2 H3 Hb r0 rdys).
Qed.

Theorem rtx_stub_frames : forall p r0 rdys, rtx_pkt_ok p ->
  map rtx_obs_of (rtx_loop drx_stub_units p (rtx_init drx_stub_units) (p_beats p) true (r0 :: rdys))
  = rtx_idle_obs :: wire_run (wire drx_stub_h16 drx_stub_c32 p) rdys.
Proof.
  intros p r0 rdys (H0 & H1 & H2 & H3 & Hb).
  rewrite (rtx_wire_explicit drx_stub_h16 drx_stub_c32 p Hb drx_stub_c32_lt).
  exact (rtx_frames _ _ _ _ _ drx_stub_tracks p H0 H1 H2 H3 Hb r0 rdys).
Qed.

(* stated over variables: with the CRCs in place conversion would unfold them *)
Lemma rtx_dw3_layout : forall c l k, c < 65536 -> l < 2048 -> k < 32 ->
  let w := c + 65536 * l + 134217728 * k in
  bits w 0 16 = c /\ bits w 16 11 = l /\ bits w 27 5 = k.
Proof.
  intros c l k Hc Hl Hk w. set (L := [(16, c); (11, l); (5, k)]).
  assert (HL : fields_ok L) by (repeat constructor; assumption).
  assert (E : w = fields_word L) by (unfold w, L; cbn [fields_word]; change (2 ^ 16) with 65536; change (2 ^ 11) with 2048; lia).
  rewrite E. exact (conj (bits_fields_word L 0 HL) (conj (bits_fields_word L 1 HL) (bits_fields_word L 2 HL))).
Qed.

Lemma rtx_dw3_fields : forall c lf, c < 65536 ->
  bits (rtx_dw3 c lf) 0 16 = c /\ bits (rtx_dw3 c lf) 16 11 = bits lf 16 11 /\
  bits (rtx_dw3 c lf) 27 5 = crc5_usb (bits lf 16 11) /\ bits (rtx_dw3 c lf) 16 3 = bits lf 16 3.
Proof.
  intros c lf Hc.
  destruct (rtx_dw3_layout c _ _ Hc (bits_lt lf 16 11) (crc5_usb_lt (bits lf 16 11))) as (F0 & F11 & F5).
  assert (N3 : forall x, bits x 16 3 = bits x 16 11 mod 8).
  { intro x. rewrite (bits_split x 16 3 8 : bits x 16 11 = bits x 16 3 + 8 * bits x 19 8).
    symmetry. apply digit_mod, (bits_lt x 16 3). }
  rewrite (N3 (rtx_dw3 c lf)), (N3 lf). unfold rtx_dw3. rewrite F11. repeat split; assumption.
Qed.

(* Round trip, header: RawHeaderPacketReceiver recovers the header from the transmitted words, with any invalid words
   interleaved; its check (RCHK) takes the cycle after the fourth word whatever the input then: x in rhr_roundtrip. *)
Section HdrRoundTrip.
  Variable U : crc_units.
  Variables h16 c32f r16f r32 : list N -> N.
  Hypothesis HT : crc_tracks U h16 c32f r16f r32.
  Hypothesis H16b : forall ws, h16 ws < 65536.
  Variable p : rtx_pkt.
  Variable eseq : N.

  Let d3 := rtx_dw3 (h16 [p_dw0 p; p_dw1 p; p_dw2 p]) (p_lf p).

  (* progress through the header: k words of it have been taken *)
  Definition rhr_prog (k : nat) (s : rhr_state) : Prop :=
    match k with
    | 0%nat => rf s = RWAIT
    | 1%nat => rf s = RDW0 /\ r16 s = r16f []
    | 2%nat => rf s = RDW1 /\ r16 s = r16f [p_dw0 p] /\ rp0 s = p_dw0 p
    | 3%nat => rf s = RDW2 /\ r16 s = r16f [p_dw0 p; p_dw1 p] /\ rp0 s = p_dw0 p /\ rp1 s = p_dw1 p
    | 4%nat => rf s = RDW3 /\ r16 s = r16f [p_dw0 p; p_dw1 p; p_dw2 p] /\ rp0 s = p_dw0 p /\ rp1 s = p_dw1 p /\ rp2 s = p_dw2 p
    | _ => rf s = RCHK /\ r16 s = r16f [p_dw0 p; p_dw1 p; p_dw2 p] /\ rp0 s = p_dw0 p /\ rp1 s = p_dw1 p /\ rp2 s = p_dw2 p /\
           rp3 s = d3 /\ rx5 s = crc5_usb (bits d3 16 11)
    end.

  Definition rhr_invalid (w : bool * (N * N)) : Prop := fst w = false.

  Lemma rhr_prog_gap : forall g k s, (k <= 4)%nat -> Forall rhr_invalid g -> rhr_prog k s ->
    rhr_prog k (rhr_state_after U s eseq g).
  Proof.
    induction g as [|[v [d c]] g IH]; intros k s Hk Hg P; [exact P|].
    inversion Hg as [|? ? Hv Hg']; subst. unfold rhr_invalid in Hv. cbn [fst] in Hv. subst v.
    cbn [rhr_state_after]. apply IH; [exact Hk | exact Hg'|].
    destruct s as [f a0 a1 a2 a3 x k16 n o].
    destruct k as [|[|[|[|[|k]]]]]; try lia; cbn [rhr_prog rf r16 rp0 rp1 rp2] in *;
      [subst f; reflexivity | destruct P as [-> P]; exact (conj eq_refl P) ..].
  Qed.

  Lemma rhr_after_app : forall a b s,
    rhr_state_after U s eseq (a ++ b) = rhr_state_after U (rhr_state_after U s eseq a) eseq b.
  Proof. induction a as [|[v [d c]] a IH]; intros b s; [reflexivity|]. cbn [app rhr_state_after]. apply IH. Qed.

  Lemma rhr_prog_word : forall k s, (k <= 4)%nat -> rhr_prog k s ->
    rhr_prog (S k) (rhr_state_after U s eseq
      [(true, nth k (wire_header h16 p) (0, 0))]).
  Proof.
    intros k s Hk P. destruct s as [f a0 a1 a2 a3 x k16 n o].
    destruct k as [|[|[|[|[|k]]]]]; try lia; cbn [rhr_prog rf r16 rp0 rp1 rp2 nth wire_header rhr_state_after] in *;
      decompose [and] P; subst; cbn [rhr_next rf fst snd r16 rp0 rp1 rp2 rp3 rx5 RTX_HPSTART andb];
      rewrite ?N.eqb_refl, ?(t16_adv HT), <- ?(t16_init HT); repeat split; reflexivity.
  Qed.

  Lemma rhr_prog_step : forall k g s, (k <= 4)%nat -> Forall rhr_invalid g -> rhr_prog k s ->
    rhr_prog (S k) (rhr_state_after U (rhr_state_after U s eseq g) eseq
      [(true, nth k (wire_header h16 p) (0, 0))]).
  Proof. intros k g s Hk Hg P. apply rhr_prog_word; [exact Hk|]. apply rhr_prog_gap; assumption. Qed.

  Theorem rhr_roundtrip : forall s g0 g1 g2 g3 g4 x,
    rf s = RWAIT -> eseq = bits (p_lf p) 16 3 ->
    Forall rhr_invalid g0 -> Forall rhr_invalid g1 -> Forall rhr_invalid g2 -> Forall rhr_invalid g3 -> Forall rhr_invalid g4 ->
    let s' := rhr_state_after U s eseq
                (g0 ++ [(true, RTX_HPSTART)] ++ g1 ++ [(true, (p_dw0 p, 0))] ++ g2 ++ [(true, (p_dw1 p, 0))] ++
                 g3 ++ [(true, (p_dw2 p, 0))] ++ g4 ++ [(true, (d3, 0))] ++ [x]) in
    rf s' = RWAIT /\ rnew s' = true /\
    rout s' = p_dw0 p + 4294967296 * (p_dw1 p + 4294967296 * (p_dw2 p + 4294967296 * d3)).
  Proof.
    intros s g0 g1 g2 g3 g4 x Hs He G0 G1 G2 G3 G4.
    pose proof (rhr_prog_step 0 g0 s ltac:(lia) G0 Hs) as P1. pose proof (rhr_prog_step 1 g1 _ ltac:(lia) G1 P1) as P2.
    pose proof (rhr_prog_step 2 g2 _ ltac:(lia) G2 P2) as P3. pose proof (rhr_prog_step 3 g3 _ ltac:(lia) G3 P3) as P4.
    pose proof (rhr_prog_step 4 g4 _ ltac:(lia) G4 P4) as P5. change (nth 4 (wire_header h16 p) (0, 0)) with (d3, 0) in P5.
    cbv zeta. rewrite !rhr_after_app.
    set (s5 := rhr_state_after U _ eseq [(true, (d3, 0))]) in *.
    destruct P5 as [F [K [A0 [A1 [A2 [A3 X5]]]]]].
    destruct x as [v [d c]]. cbn [rhr_state_after]. destruct s5 as [f a0 a1 a2 a3 x5 k16 n o].
    cbn [rf r16 rp0 rp1 rp2 rp3 rx5] in *. subst f k16 a0 a1 a2 a3 x5.
    cbn [rhr_next rf fst rnew rout rx5 rp3 r16 rp0 rp1 rp2]. rewrite (t16_out HT).
    destruct (rtx_dw3_fields (h16 [p_dw0 p; p_dw1 p; p_dw2 p]) (p_lf p) (H16b _)) as [F0 [F11 [F5 F3]]].
    fold d3 in F0, F11, F5, F3. rewrite F0, F5, F11, F3, He, !N.eqb_refl. cbn [negb orb andb]. repeat split; reflexivity.
  Qed.
End HdrRoundTrip.

Lemma rtx_last_beat_bytes : forall w v crc, rtx_nbytes v <> 0 -> w < 4294967296 -> crc < 4294967296 ->
  exists tail, drx_bytes4 (rtx_last_word v w crc) ++ drx_bytes4 (fst (rtx_crc_word v crc))
               = beat_bytes (w, v) ++ drx_bytes4 crc ++ tail.
Proof.
  intros w v crc Hn Hw Hc. unfold beat_bytes. cbn [fst snd].
  destruct (drx_word_bytes w Hw) as (a & b & c & d & HP & -> & ->).
  destruct (drx_word_bytes crc Hc) as (e & f & g & h & HD & -> & ->).
  rewrite rtx_last_word_bytes, rtx_crc_word_bytes by assumption.
  destruct HP as (? & ? & ? & ? & _), HD as (? & ? & ? & ? & _).
  destruct (rtx_nbytes_cases v Hn) as [->|[->|[->| ->]]]; cbv zeta;
    cbv [rtx_nbytes N.eqb Pos.eqb N.to_nat Pos.to_nat Pos.iter_op Nat.add];
    cbn [Nat.sub firstn skipn app map rtx_nosym rtx_endseq sym_word fst snd];
    rewrite !drx_bytes4_le by (repeat split; assumption); eexists; reflexivity.
Qed.

Definition rtx_zero_ctrl (w : N * N) : Prop := snd w = 0.

(* the words after DPPSTART: those that hold payload bytes (one per beat), the word that completes the CRC, the
   rest; read as bytes, the first two parts are the payload, the CRC, and some framing *)
Lemma rtx_body_split : forall crc, crc < 4294967296 -> forall bs, bs <> [] -> beats_ok bs = true ->
  exists pay cw more tail,
    rtx_pay_rest bs crc = pay ++ cw :: more /\
    (4 * (length pay - 1) < length (flat_map beat_bytes bs) <= 4 * length pay)%nat /\ Forall rtx_zero_ctrl pay /\
    sp_pbytes (pay ++ [cw]) = flat_map beat_bytes bs ++ drx_bytes4 crc ++ tail.
Proof.
  intros crc Hc. apply beats_ind.
  - intros w v Hn Hw. destruct (rtx_last_beat_bytes w v crc Hn Hw Hc) as [tail E].
    exists [(rtx_last_word v w crc, 0)], (rtx_crc_word v crc), [rtx_fin_word v], tail.
    cbn [flat_map]. rewrite app_nil_r, <- E. pose proof (rtx_nbytes_range v Hn).
    unfold beat_bytes. rewrite firstn_length. cbn [drx_bytes4 length fst snd].
    repeat split; [lia | lia | constructor; [reflexivity | constructor]].
  - intros w b t Hw (pay & cw & more & tail & E & Hl & Hz & F).
    exists ((w, 0) :: pay), cw, more, tail.
    change (rtx_pay_rest ((w, 15) :: b :: t) crc) with ((w, 0) :: rtx_pay_rest (b :: t) crc). rewrite E.
    cbn [app]. rewrite sp_pbytes_cons, beat_bytes_full, F, <- app_assoc, app_length. cbn [length drx_bytes4].
    repeat split; [lia | lia | constructor; [reflexivity | exact Hz]].
Qed.

Lemma rtx_dpp_split : forall crc bs, beats_ok bs = true -> crc < 4294967296 ->
  exists pay cw more tail,
    match bs with [] => [rtx_crc_word 15 crc; rtx_fin_word 15] | b :: t => rtx_pay_rest (b :: t) crc end = pay ++ cw :: more /\
    N.of_nat (length pay) = sp_nwords (N.of_nat (length (flat_map beat_bytes bs))) /\ Forall rtx_zero_ctrl pay /\
    sp_pbytes (pay ++ [cw]) = flat_map beat_bytes bs ++ drx_bytes4 crc ++ tail.
Proof.
  intros crc [|b t] Hok Hc.
  - (* an empty payload still takes one payload word at the receiver (sp_more), the CRC word; END END END EPF is cw *)
    exists [rtx_crc_word 15 crc], (rtx_fin_word 15), [], (drx_bytes4 (fst (rtx_fin_word 15))).
    repeat split. constructor; [reflexivity | constructor].
  - destruct (rtx_body_split crc Hc (b :: t) ltac:(discriminate) Hok) as (pay & cw & more & tail & E & Hl & Hz & F).
    exists pay, cw, more, tail. repeat split; try assumption. apply sp_nwords_spec.
    destruct (N.of_nat (length (flat_map beat_bytes (b :: t))) =? 0) eqn:E0; lia.
Qed.

Lemma rtx_clean_zero : forall lw ws pay k, Forall rtx_zero_ctrl pay -> sp_clean lw ws k pay = true.
Proof.
  intros lw ws. induction pay as [|w t IH]; intros k H; [reflexivity|].
  inversion H as [|? ? Hw Ht]; subst. cbn [sp_clean]. unfold rtx_zero_ctrl in Hw. rewrite Hw, N.land_0_l, N.eqb_refl.
  cbn [andb]. apply IH. exact Ht.
Qed.

(* Round trip, data: the specification of DataPacketReceiver (C40) over the transmitted words yields payload and `good` *)
Theorem rtx_data_roundtrip : forall lw p rest, rtx_pkt_ok p ->
  bits (p_dw0 p) 0 5 = DRX_TYPE_DATA -> p_delayed p = false ->
  bits (p_dw1 p) 16 lw = N.of_nat (length (p_payload p)) ->
  let ws := [p_dw0 p; p_dw1 p; p_dw2 p; rtx_dw3 (crc16_hdr [p_dw0 p; p_dw1 p; p_dw2 p]) (p_lf p)] in
  exists pay more,
    sp_run crc16_hdr crc32_usb lw SIdle (wire crc16_hdr crc32_usb p ++ rest)
    = sp_beats lw ws 0 pay ++ Report (sp_hdr ws) true :: sp_run crc16_hdr crc32_usb lw SIdle (more ++ rest) /\
    flat_map drx_beat_bytes (sp_beats lw ws 0 pay) = p_payload p.
Proof.
  intros lw p rest (H0 & H1 & H2 & H3 & Hb) Ht Hd HL ws.
  rewrite (rtx_wire_explicit crc16_hdr crc32_usb p Hb crc32_usb_lt).
  unfold rtx_wire_x, rtx_rest_x, rtx_d3w, rtx_dpp_x.
  assert (Hdata : p_is_data p = true).
  { pose proof (bits_split (p_dw0 p) 0 4 1 : bits _ 0 5 = bits _ 0 4 + 16 * bits _ 4 1) as S.
    pose proof (bits_lt (p_dw0 p) 0 4 : _ < 16). unfold DRX_TYPE_DATA in Ht. apply N.eqb_eq. lia. }
  rewrite Hdata, Hd.
  destruct (rtx_dw3_fields (crc16_hdr [p_dw0 p; p_dw1 p; p_dw2 p]) (p_lf p) (crc16_hdr_lt _)) as [F0 [F11 [F5 _]]].
  assert (Hok : sp_hdr_ok crc16_hdr ws = true).
  { unfold sp_hdr_ok, ws. cbn [firstn nth]. rewrite F0, F11, F5, !N.eqb_refl. reflexivity. }
  assert (HLen : sp_len lw ws = N.of_nat (length (p_payload p))) by exact HL.
  destruct (rtx_dpp_split (crc32_usb (p_payload p)) (p_beats p) Hb (crc32_usb_lt _)) as (pay & cw & more & tail & E & Hn & Hz & F).
  fold (p_payload p) in Hn, F. rewrite <- HLen in Hn. exists pay, more. rewrite E. split.
  - cbn [app]. rewrite <- app_assoc. cbn [app].
    etransitivity; [apply (sp_good_packet crc16_hdr crc32_usb lw _ 0 _ 0 _ 0 _ 0 pay cw (more ++ rest) Ht Hok Hn), rtx_clean_zero, Hz|].
    fold ws. unfold sp_verdict. rewrite HLen, Nat2N.id, F, (firstn_app_l _ _ _ eq_refl), (skipn_app_l _ _ _ eq_refl).
    rewrite (drx_le_word _ (crc32_usb_lt _) : drx_le (firstn 4 (drx_bytes4 _ ++ tail)) = _), N.eqb_refl. reflexivity.
  - rewrite drx_beats_bytes, N.mul_0_r, N.sub_0_r.
    transitivity (firstn (N.to_nat (sp_len lw ws)) (sp_pbytes (pay ++ [cw]))).
    + rewrite sp_pbytes_app, firstn_app.
      replace (N.to_nat (sp_len lw ws) - length (sp_pbytes pay))%nat with 0%nat
        by (rewrite sp_pbytes_length; apply sp_nwords_spec in Hn; lia).
      rewrite firstn_O, app_nil_r. reflexivity.
    + rewrite HLen, Nat2N.id, F. apply firstn_app_l. reflexivity.
Qed.

Lemma rtx_fsm_code_lt : forall f, rtx_fsm_code f < 16.
Proof. destruct f; reflexivity. Qed.
Lemma rtx_fsm_of_code : forall f, rtx_fsm_of (rtx_fsm_code f) = f.
Proof. destruct f; reflexivity. Qed.

Lemma rtx_dec_enc : forall s, rtx_wf s -> rtx_dec (rtx_enc s) = s.
Proof.
  intros s (H1 & H2 & H3 & H4 & H5 & H6 & H7).
  unfold rtx_dec, rtx_enc. cbv zeta. change 15 with (N.ones 4); change 4294967295 with (N.ones 32).
  rewrite !pk_shiftr, !pk_land, pk2_odd, rtx_fsm_of_code
    by first [assumption | reflexivity | apply b2n_lt2 | apply rtx_fsm_code_lt].
  destruct s; reflexivity.
Qed.

Lemma rtx_wf_init : forall U, units_bounded U -> rtx_wf (rtx_init U).
Proof. intros U (A & B & _ & _). unfold rtx_wf, rtx_init, W32 in *. cbn. repeat split; try lia; assumption. Qed.

Lemma rtx_wf_next : forall U, units_bounded U -> forall s x,
  i_ddata x < W32 -> i_dvalid x < 16 -> rtx_wf s -> rtx_wf (fst (rtx_next U s x)).
Proof.
  intros U (Ai & Bi & Aa & Ba) s x Hd Hv (H1 & H2 & H3 & H4 & H5 & H6 & H7).
  assert (H16 : forall w, (if i_ready x then u16_adv U (t16 s) w else t16 s) < W32)
    by (intro w; destruct (i_ready x); [apply Aa; assumption | assumption]).
  (* every field of the new state is an old one, a 32-bit slice of the header input, the data_sink word or mask,
     the CRC-16, or the mask 15 *)
  unfold rtx_next.
  destruct (tf s); cbn [fst];
    repeat match goal with |- rtx_wf (if ?c then _ else _) => destruct c end;
    unfold rtx_wf; cbn [th0 th1 th2 thl tpw tpv t16]; repeat split;
    first [assumption | apply H16 | apply (bits_lt _ _ 32) | reflexivity].
Qed.

Lemma rtx_wf_step : forall U, units_bounded U -> forall s i, rtx_wf s -> rtx_wf (fst (rtx_step U s i)).
Proof.
  intros U HU s i Hs. unfold rtx_step. rewrite fst_let_pair.
  exact (rtx_wf_next U HU s (rtx_decode i) (bits_lt i 129 32) (bits_lt i 161 4) Hs).
Qed.

Lemma rhr_fsm_code_lt : forall f, rhr_fsm_code f < 8.
Proof. destruct f; reflexivity. Qed.
Lemma rhr_fsm_of_code : forall f, rhr_fsm_of (rhr_fsm_code f) = f.
Proof. destruct f; reflexivity. Qed.

Lemma rhr_dec_enc : forall s, rhr_wf s -> rhr_dec (rhr_enc s) = s.
Proof.
  intros s (H1 & H2 & H3 & H4 & H5 & H6).
  unfold rhr_dec, rhr_enc. cbv zeta. change 7 with (N.ones 3); change 31 with (N.ones 5); change 4294967295 with (N.ones 32).
  rewrite !pk_shiftr, !pk_land, pk2_odd, rhr_fsm_of_code
    by first [assumption | reflexivity | apply b2n_lt2 | apply rhr_fsm_code_lt].
  destruct s; reflexivity.
Qed.

Lemma rhr_wf_init : forall U, units_bounded U -> rhr_wf (rhr_init U).
Proof. intros U (A & B & _ & _). unfold rhr_wf, rhr_init, W32 in *. cbn. repeat split; try lia; assumption. Qed.

Lemma rhr_wf_next : forall U, units_bounded U -> forall s v data ctrl eseq, data < W32 -> rhr_wf s ->
  rhr_wf (fst (rhr_next U s v data ctrl eseq)).
Proof.
  intros U (Ai & Bi & Aa & Ba) s v data ctrl eseq Hd (H1 & H2 & H3 & H4 & H5 & H6).
  pose proof (crc5_usb_lt (bits data 16 11)) as H5'.
  assert (Ha : u16_adv U (r16 s) data < W32) by (apply Aa; assumption).
  unfold rhr_next.
  destruct (rf s); cbn [fst];
    repeat match goal with |- rhr_wf (if ?c then _ else _) => destruct c end;
    unfold rhr_wf; cbn [rp0 rp1 rp2 rp3 rx5 r16]; repeat split; assumption.
Qed.

Lemma rhr_wf_step : forall U, units_bounded U -> forall s i, rhr_wf s -> rhr_wf (fst (rhr_step U s i)).
Proof.
  intros U HU s i Hs. unfold rhr_step. rewrite fst_let_pair.
  exact (rhr_wf_next U HU s _ _ _ _ (bits_lt i 0 32) Hs).
Qed.
