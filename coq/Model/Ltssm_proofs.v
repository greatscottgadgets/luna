(* C41 -- proofs about the LTSSM model (Model/Ltssm.v): a state with a time-out is left in time (lt_dwell), every
   trace of the model is accepted by the ghost-history monitor (lt_meets_spec, by the simulation invariant J), and
   the packed state decodes back. *)
From Coq Require Import NArith List Bool Lia.
From LunaLib Require Import Netlist Machine BitFacts.
From LunaModel Require Import Ltssm.
Open Scope N_scope.

Lemma lt_decode_encode_out : forall o, lt_decode_out (lt_encode_out o) = o.
Proof.
  intros o. unfold lt_decode_out, lt_encode_out, pk. cbv zeta.
  rewrite !(digit_div 2), !(digit_mod 2) by apply b2n_lt2.
  rewrite (N.mod_small (b2n (o_compl o))), !b2n_eqb1 by apply b2n_lt2. destruct o; reflexivity.
Qed.

(* all that lt_wf_step, K_step and dwell_bound need to know of the next-state record x of a step from s: either the
   counter was cleared (a transition was taken), or the state is unchanged, the counter counted, and (in a timed
   state) the time-out had not been reached *)
Definition next_shape (c : lt_cfg) (s : lt_state) (i : lt_in) (x : lt_state) : Prop :=
  (target x = target s \/ target x = 16 \/ target x = (i_sent i + 4) mod 65536) /\
  ((cyc x = 0 /\ (st x <> st s \/ st_timeout c (st s) = None)) \/
   (st x = st s /\ cyc x = (cyc s + 1) mod 2 ^ cw c /\ st_timeout c (st s) <> Some (cyc s))).

(* the warm reset is the last statement of every state: it clears the counter whatever came before *)
Lemma next_shape_warm : forall c s i x, next_shape c s i x -> next_shape c s i (warm i x).
Proof.
  intros c s i x [T H]. unfold warm, on. destruct (i_reset i); [|exact (conj T H)].
  split; [exact T|]. left. split; [reflexivity|]. destruct (st s); (left; discriminate) || (right; reflexivity).
Qed.

(* the case analysis of lt_next, done once *)
Lemma lt_next_shape : forall c s i, next_shape c s i (lt_next c s i).
Proof.
  intros c s i. unfold lt_next. destruct (st s) eqn:F; apply next_shape_warm; unfold timeout, idle_exit, on.
  all: repeat match goal with |- context [if ?b then _ else _] => destruct b eqn:? end.
  all: unfold next_shape; rewrite F; split; [cbn; auto |];
    cbn [goto set_inv clr_hot set_lfps base st cyc st_timeout];
    first [ left; split; [reflexivity | first [left; congruence | right; reflexivity]]
          | right; repeat split; try assumption; try discriminate;
            intros [= HT]; rewrite HT, N.eqb_refl in *; discriminate ].
Qed.

Section Proofs.
  Variable c : lt_cfg.
  Hypothesis H12 : T12 c < 2 ^ cw c.
  Hypothesis H2 : T2 c < 2 ^ cw c.
  Hypothesis H360 : T360 c < 2 ^ cw c.

  Definition K (s : lt_state) : Prop := forall T, st_timeout c (st s) = Some T -> cyc s <= T.

  Lemma timeout_fits : forall f T, st_timeout c f = Some T -> T < 2 ^ cw c.
  Proof. intros f T H. destruct f; inversion H; subst; assumption. Qed.

  Lemma count_fits : forall s T, K s -> st_timeout c (st s) = Some T -> cyc s <> T ->
    (cyc s + 1) mod 2 ^ cw c = cyc s + 1.
  Proof.
    intros s T HK HT E. specialize (HK T HT). apply timeout_fits in HT. apply N.mod_small. lia.
  Qed.

  Lemma K_step : forall s i, K s -> K (lt_next c s i).
  Proof.
    intros s i HK T HT. destruct (proj2 (lt_next_shape c s i)) as [[E _] | (E1 & E2 & E3)].
    - rewrite E. apply N.le_0_l.
    - rewrite E1 in HT. assert (cyc s <> T) by congruence.
      rewrite E2, (count_fits s T) by assumption. specialize (HK T HT). lia.
  Qed.

  Lemma K_run : forall ins s, K s -> K (lt_run c s ins).
  Proof. induction ins as [|i t IH]; intros s H; cbn; [exact H | apply IH, K_step, H]. Qed.

  Lemma K_init : K lt_init.
  Proof. intros T H. discriminate. Qed.

  Lemma dwell_bound : forall mid s f T, K s -> st_timeout c f = Some T ->
    (forall j, (j <= length mid)%nat -> st (lt_run c s (firstn j mid)) = f) ->
    cyc s + N.of_nat (length mid) <= T.
  Proof.
    induction mid as [|i t IH]; intros s f T HK HT Hall;
      assert (Hs : st s = f) by (apply (Hall 0%nat), le_0_n); subst f.
    - rewrite N.add_0_r. apply HK, HT.
    - assert (Hs' : st (lt_next c s i) = st s) by (apply (Hall 1%nat); cbn; lia).
      destruct (proj2 (lt_next_shape c s i)) as [[E [Hne | Hno]] | (_ & E2 & E3)]; [congruence.. |].
      assert (cyc s <> T) by congruence.
      specialize (IH (lt_next c s i) (st s) T (K_step s i HK) HT (fun j Hj => Hall (S j) (le_n_S _ _ Hj))).
      rewrite E2, (count_fits s T) in IH by assumption. cbn [length]. lia.
  Qed.

  (* C41: in f after `pre` and after every prefix of `mid` is length mid + 1 consecutive cycles in f *)
  Theorem lt_dwell : forall pre mid f T, st_timeout c f = Some T ->
    (forall j, (j <= length mid)%nat -> st (lt_run c (lt_run c lt_init pre) (firstn j mid)) = f) ->
    N.of_nat (length mid) <= T.
  Proof.
    intros pre mid f T HT Hall. pose proof (dwell_bound mid _ f T (K_run pre _ K_init) HT Hall). lia.
  Qed.

  (* Training as the monitor records it is a ladder: detection, polling, TS1 exchange, TS2 exchange, each step
     counted only on top of the one before, all lost at a reset.  reached k g: the first k steps lie behind. *)
  Definition rung (k : nat) (g : gh) : bool :=
    match k with 0 => g_det g | 1 => g_pol g | 2 => g_t1x g | 3 => g_t2x g | _ => false end%nat.
  Fixpoint reached (k : nat) (g : gh) : bool :=
    match k with O => true | S k' => reached k' g && rung k' g end.

  Lemma reached_le : forall k k' g, (k' <= k)%nat -> reached k g = true -> reached k' g = true.
  Proof.
    intros k k' g L. induction L as [|k L IH]; [trivial|]. cbn [reached]. intro H. apply andb_prop in H. apply IH, H.
  Qed.

  (* the step that an FSM state presupposes *)
  Definition level (f : lt_fsm) : nat :=
    match f with
    | PollLFPS => 1
    | PollRxEQ | PollActive => 2
    | PollConfig => 3
    | PollConfigExit | PollIdle | U0 | HotResetActive | HotResetExit | RecActive | RecConfig | RecConfigExit | RecIdle => 4
    | _ => 0
    end.
  (* the monitor's scrambling requests are the model's (rn = req_noscr, ns = noscr_seen) *)
  Definition SC (rn ns : bool) (g : gh) : Prop := g_gl g = rn /\ g_gp g = ns.
  (* t2 = ts2_seen: the model may have cleared its flag earlier than the monitor *)
  Definition TS2I (t2 : bool) (g : gh) : Prop := t2 = true -> g_ts2s g = true.
  Definition Sess (t2 rn ns : bool) (g : gh) : Prop := TS2I t2 g /\ SC rn ns g.
  (* The monitor sees a training entry one cycle after the model has made the transition: in the first cycle
     of sending TS1 (of request_hot_reset) its session flags are stale, and the model's are freshly cleared. *)
  Definition JTS1 (t2 rn ns : bool) (g : gh) : Prop :=
    if g_pts1 g then Sess t2 rn ns g else t2 = false /\ ns = false /\ rn = g_pdis g.
  Definition JHOT (rh t2 : bool) (g : gh) : Prop :=
    if rh && negb (g_phot g) then t2 = false else TS2I t2 g.

  (* what each FSM state guarantees about the history.  req_hot is up in HotResetActive only: gh_next takes a rising
     o_reqhot for a training entry and forgets ts2s, c2x, idl; with req_hot = false in every other state, premise NH of the
     Ghost lemmas holds by computation (J_next) *)
  Definition J (s : lt_state) (g : gh) : Prop :=
    K s /\ (g_preset g = true -> st s = RxDetReset) /\ (req_hot s = true -> st s = HotResetActive) /\
    reached (level (st s)) g = true /\
    let sc := SC (req_noscr s) (noscr_seen s) g in
    match st s with
    | PollLFPS => (lfps_seen s = true -> reached 2 g = true) /\ g_np g = cyc s
    | PollActive | RecActive => JTS1 (ts2_seen s) (req_noscr s) (noscr_seen s) g /\ g_n1 g = cyc s
    | PollConfig | RecConfig => Sess (ts2_seen s) (req_noscr s) (noscr_seen s) g
    | PollConfigExit | RecConfigExit => g_c2x g = true /\ sc
    | PollIdle | HotResetExit | RecIdle => g_c2x g = true /\ sc /\ g_ni g = cyc s
    | U0 => g_c2x g = true /\ g_idl g = true /\ sc
    | HotResetActive => JHOT (req_hot s) (ts2_seen s) g /\ sc
    | RxDetQuiet | InactQuiet => g_nq g = cyc s
    | _ => True
    end.

  Lemma J_init : J lt_init gh_init.
  Proof. split; [apply K_init|]. cbn. repeat split; discriminate. Qed.

  Lemma J_ok : forall s g i, J s g -> gh_ok c g i (lt_outputs s i) = true.
  Proof.
    intros [f cy ps t2 hs ls ns bm lf tg ip rh rn] g i (HK & HR & _ & HL & HP). unfold K in HK. cbn in HK, HR, HL, HP.
    unfold gh_ok, lt_outputs, scr_on.
    destruct f; cbn -[N.leb N.add]; try specialize (HK _ eq_refl).
    10: (* U0 *) destruct HP as (C & I & GL & GP), (g_preset g); [discriminate (HR eq_refl) |]; cbn in HL;
      rewrite HL, C, I, GL, GP, eqb_reflx; cbn -[N.leb N.add].
    all: rewrite ?implb_true_r; repeat (apply andb_true_intro; split); try reflexivity; apply N.leb_le; lia.
  Qed.

  (* What the monitor's history records after a cycle without reset, by the outputs it reads. *)
  Section Ghost.
    Variables (g : gh) (i : lt_in) (o : lt_out).
    Hypothesis live : i_reset i = false.

    Lemma rung_stay : forall k, rung k g = true -> rung k (gh_next c g i o) = true.
    Proof.
      intros [|[|[|[|k]]]] H; [| | | | discriminate H]; cbn in H |- *; rewrite live, H; reflexivity.
    Qed.

    Lemma reached_stay : forall k, reached k g = true -> reached k (gh_next c g i o) = true.
    Proof.
      induction k as [|k IH]; [trivial|]. cbn [reached]. intro H. apply andb_prop in H as [A B].
      rewrite (IH A), (rung_stay k B). reflexivity.
    Qed.

    Lemma new_det : o_rxdet o = true -> i_partner i = true -> reached 1 (gh_next c g i o) = true.
    Proof. intros A B. cbn. rewrite live, A, B. apply orb_true_r. Qed.
    Lemma new_pol : reached 1 g = true -> o_poll o = true -> i_lfps i = true \/ loosen c = true /\ i_ts1 i = true ->
      reached 2 (gh_next c g i o) = true.
    Proof. cbn. intros A B [C | [C D]]; rewrite live, A, B, C, ?D; cbn; rewrite ?orb_true_r; reflexivity. Qed.
    Lemma new_t1x : reached 2 g = true -> o_ts1 o = true -> i_ts1 i || i_ts2 i = true \/ i_its1 i = true ->
      reached 3 (gh_next c g i o) = true.
    Proof.
      cbn. intros A B C. apply andb_prop in A as [A1 A2]. rewrite live, A1, A2, B. cbn.
      destruct C as [C | C]; rewrite C, ?orb_true_r; reflexivity.
    Qed.

    Lemma JTS1_enter : o_ts1 o = false -> JTS1 false (i_disscr i) false (gh_next c g i o).
    Proof. intros A. unfold JTS1. cbn. rewrite A. auto. Qed.

    (* cycles that the monitor does not take for the first of a training session *)
    Hypothesis N1 : o_ts1 o && negb (g_pts1 g) = false.

    Lemma SC_keep : forall rn ns, SC rn ns g -> SC rn (ns || i_noscr i) (gh_next c g i o).
    Proof. intros rn ns [A B]. unfold SC. cbn. rewrite N1, A, B. split; reflexivity. Qed.

    Hypothesis NH : o_reqhot o && negb (g_phot g) = false.

    Lemma TS2I_keep : forall t2, TS2I t2 g -> TS2I (t2 || i_ts2 i) (gh_next c g i o).
    Proof.
      unfold TS2I. intros t2 A C. cbn. rewrite live, N1, NH. cbn.
      destruct t2; [rewrite A by reflexivity; reflexivity | cbn in C; rewrite C; apply orb_true_r].
    Qed.
    Lemma Sess_keep : forall t2 rn ns, TS2I t2 g -> SC rn ns g ->
      Sess (t2 || i_ts2 i) rn (ns || i_noscr i) (gh_next c g i o).
    Proof. intros. split; [apply TS2I_keep | apply SC_keep]; assumption. Qed.
    Lemma keep_c2x : g_c2x g = true -> g_c2x (gh_next c g i o) = true.
    Proof. intro H. cbn. rewrite live, N1, NH, H. reflexivity. Qed.
    Lemma keep_idl : g_idl g = true -> g_idl (gh_next c g i o) = true.
    Proof. intro H. cbn. rewrite live, N1, NH, H. reflexivity. Qed.
    Lemma new_c2x : g_ts2s g = true -> o_ts2 o = true -> i_burst i = true -> g_c2x (gh_next c g i o) = true.
    Proof. intros A B C. cbn. rewrite live, N1, NH, A, B, C. apply orb_true_r. Qed.
    Lemma new_t2x : reached 3 g = true -> g_ts2s g = true -> o_ts2 o = true -> i_burst i = true ->
      reached 4 (gh_next c g i o) = true.
    Proof.
      cbn. intros T A B C. apply andb_prop in T as [T T3]. apply andb_prop in T as [T1 T2].
      rewrite live, N1, NH, T1, T2, T3, A, B, C. cbn. apply orb_true_r.
    Qed.
    Lemma new_idl : g_c2x g = true -> o_idlehs o = true -> i_idle i = true -> g_idl (gh_next c g i o) = true.
    Proof. intros A B C. cbn. rewrite live, N1, NH, A, B, C. apply orb_true_r. Qed.
  End Ghost.

  Lemma JTS1_sent : forall t2 rn ns g i o, i_reset i = false -> JTS1 t2 rn ns g ->
    o_ts1 o = true -> o_reqhot o = false -> Sess (t2 || i_ts2 i) rn (ns || i_noscr i) (gh_next c g i o).
  Proof.
    intros t2 rn ns g i o live H A B. unfold JTS1 in H. destruct (g_pts1 g) eqn:P.
    - destruct H. apply Sess_keep; auto; [rewrite P | rewrite B]; apply andb_false_r || reflexivity.
    - destruct H as (T & N & R). unfold Sess, TS2I, SC. cbn.
      rewrite live, A, P, T, N, R. cbn. rewrite orb_false_r. auto.
  Qed.
  Lemma JTS1_session : forall t2 rn ns g, g_pts1 g = true -> Sess t2 rn ns g -> JTS1 t2 rn ns g.
  Proof. unfold JTS1. intros t2 rn ns g ->. trivial. Qed.

  Lemma JHOT_seen : forall rh g, JHOT rh true g -> rh && negb (g_phot g) = false /\ g_ts2s g = true.
  Proof. unfold JHOT. intros rh g H. destruct (rh && negb (g_phot g)); [discriminate | auto]. Qed.
  Lemma JHOT_keep : forall rh' t2 g i o, i_reset i = false -> JHOT (o_reqhot o) t2 g -> o_ts1 o = false ->
    rh' && negb (o_reqhot o) = false -> JHOT rh' (t2 || i_ts2 i) (gh_next c g i o).
  Proof.
    intros rh' t2 g i o live H A B. unfold JHOT at 1. cbn [g_phot gh_next]. rewrite B.
    unfold JHOT in H. destruct (o_reqhot o && negb (g_phot g)) eqn:E.
    - unfold TS2I. cbn. rewrite live, A, E, H. cbn. auto.
    - apply TS2I_keep; auto. rewrite A; reflexivity.
  Qed.

  Lemma reset_next : forall s i, i_reset i = true ->
    st (lt_next c s i) = RxDetReset /\ req_hot (lt_next c s i) = false.
  Proof.
    intros s i H. unfold lt_next, warm, on. rewrite H. destruct (st s); cbn; split; reflexivity.
  Qed.

  Create HintDb ghost.
  Hint Resolve reached_stay new_det new_pol new_t1x SC_keep Sess_keep keep_c2x keep_idl
    new_c2x new_t2x new_idl JTS1_enter JTS1_sent JTS1_session JHOT_keep andb_negb_r : ghost.

  Lemma J_next : forall s g i, J s g -> J (lt_next c s i) (gh_next c g i (lt_outputs s i)).
  Proof.
    intros s g i (HK & HR & HH & HL & HP). split; [apply K_step, HK|].
    destruct (i_reset i) eqn:live.
    { destruct (reset_next s i live) as [E1 E2]. rewrite E1, E2. repeat split; discriminate. }
    split; [intro E; cbn in E; congruence|].
    (* A cycle without reset.  The state is taken apart, so that the outputs o of the cycle compute; in each case of
       lt_next the clause of the new state then follows from that of the old one by the lemmas above, whose
       premises about o hold by computation. *)
    pose proof (fun T => count_fits s T HK) as HC.
    remember (lt_next c s i) as s' eqn:E. revert E.
    destruct s as [f cy ps t2 hs ls ns bm lf tg ip rh rn]. cbv zeta in HP. unfold Sess in HP. cbn -[reached] in HH, HP, HC.
    cbn [st] in HL.
    set (o := lt_outputs _ i). unfold lt_next, warm, timeout, idle_exit, on. rewrite live.
    cbn [st cyc polling_seen ts2_seen hot_seen loop_seen noscr_seen burst_met lfps_seen target req_hot].
    destruct f. all: repeat match goal with |- context [if ?b then _ else _] => destruct b eqn:? end.
    all: try (destruct rh; [discriminate (HH eq_refl) |]); clear HH; intros ->.
    all: cbn [st cyc polling_seen ts2_seen hot_seen loop_seen noscr_seen burst_met lfps_seen target inv_pol
              req_hot req_noscr goto set_inv clr_hot set_lfps base level] in HL |- *.
    all: (split; [intro; first [discriminate | reflexivity] |]); decompose [and] HP.
    all: repeat match goal with H : _ && _ = true |- _ => apply andb_prop in H; destruct H end.
    (* where lfps_seen is set, or the guard says that TS2 was seen, the monitor has seen it too *)
    all: try match goal with H : true = true -> _ |- _ => specialize (H eq_refl) end.
    all: try match goal with H : TS2I ?t _, E : ?t = true |- _ => pose proof (H E) end.
    all: try match goal with H : JHOT _ ?t _, E : ?t = true |- _ => rewrite E in H; destruct (JHOT_seen _ _ H) end.
    all: repeat match goal with |- _ /\ _ => split end; try reflexivity; try (intro; discriminate).
    (* the new state presupposes no more of the ladder than lies behind already *)
    all: try match goal with H : reached _ _ = true |- reached _ _ = true =>
               apply (reached_stay _ _ _ live); eapply reached_le; [|exact H]; cbn; lia end.
    all: auto 5 with ghost.
    all: cbn; rewrite ?(HC _ eq_refl) by (apply N.eqb_neq; assumption); congruence.
  Qed.

  Theorem lt_meets_spec_gen : forall ins s g, J s g -> gh_accepts c g (lt_trace c s ins) = true.
  Proof.
    induction ins as [|i t IH]; intros s g H; cbn [lt_trace gh_accepts]; [reflexivity|].
    rewrite (J_ok s g i H). apply IH, J_next, H.
  Qed.

  Theorem lt_meets_spec : forall ins, gh_accepts c gh_init (lt_trace c lt_init ins) = true.
  Proof. intro ins. apply lt_meets_spec_gen, J_init. Qed.

  Theorem lt_meets_spec_w_gen : forall tr s g, J s g -> gh_accepts_w c g tr (run (lt_step c) s tr) = true.
  Proof.
    induction tr as [|w t IH]; intros s g H; [reflexivity|].
    cbn [run]. unfold lt_step at 1. cbn [gh_accepts_w]. rewrite lt_decode_encode_out.
    rewrite (J_ok s g _ H). apply IH, J_next, H.
  Qed.

  Theorem lt_meets_spec_w : forall tr, gh_accepts_w c gh_init tr (run (lt_step c) lt_init tr) = true.
  Proof. intro tr. apply lt_meets_spec_w_gen, J_init. Qed.

  (* a reset cycle is followed by a cycle in Rx.Detect.Reset (link_ready = 0; o_ready reads the state alone, so
     the i under lt_outputs stands for whatever input the next cycle has) *)
  Corollary lt_reset_honoured : forall s i, i_reset i = true ->
    o_ready (lt_outputs (lt_next c s i) i) = false /\ st (lt_next c s i) = RxDetReset.
  Proof.
    intros s i H. destruct (reset_next s i H) as [E _]. split; [|exact E].
    unfold lt_outputs. rewrite E. reflexivity.
  Qed.
End Proofs.

(* used by the tie to the netlist (props/C41.py): packed states decode back, well-formedness is kept *)
Lemma fsm_code_lt : forall f, fsm_code f < 32.
Proof. destruct f; reflexivity. Qed.
Lemma fsm_of_code_code : forall f, fsm_of_code (fsm_code f) = f.
Proof. destruct f; reflexivity. Qed.

Lemma lt_dec_enc : forall s, lt_wf s -> lt_dec (lt_enc s) = s.
Proof.
  intros s H. unfold lt_dec, lt_enc, pk. cbv zeta.
  rewrite !(digit_div 2), !(digit_mod 2), !b2n_eqb1 by apply b2n_lt2.
  rewrite (digit_div 32), (digit_mod 32) by apply fsm_code_lt.
  rewrite (digit_div 65536), (digit_mod 65536) by exact H.
  rewrite fsm_of_code_code. destruct s; reflexivity.
Qed.

Lemma lt_wf_init : lt_wf lt_init.
Proof. reflexivity. Qed.

Lemma lt_wf_step : forall c s w, lt_wf s -> lt_wf (fst (lt_step c s w)).
Proof.
  intros c s w H. unfold lt_wf in *. unfold lt_step. cbn [fst].
  destruct (proj1 (lt_next_shape c s (lt_decode_in w))) as [E | [E | E]]; rewrite E;
    [exact H | reflexivity | apply N.mod_lt; discriminate].
Qed.
