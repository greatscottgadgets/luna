(* C05 -- proofs about Model/IpTimer.v: the saturating counter equals the unbounded elapsed-time
   specification (the counter is the elapsed time clipped at cmax+1, and no delay of the table lies beyond
   cmax), the closed form of the specification state, and LUNA's tables against the USB figures. *)
From Coq Require Import NArith List Lia.
Import ListNotations.
From LunaLib Require Import Machine.
From LunaModel Require Import IpTimer.
Open Scope N_scope.

Lemma elapsed_snoc : forall nif h i, elapsed nif (h ++ [i]) = sp_next (elapsed nif h) (ip_starts nif i).
Proof.
  intros. unfold elapsed, sp_next. rewrite rev_app_distr. cbn [rev app quiet_suffix].
  destruct (ip_starts nif i); [reflexivity | apply N.add_comm].
Qed.

Lemma elapsed_quiet : forall nif h quiet, Forall (fun i => ip_starts nif i = false) quiet ->
  elapsed nif (h ++ quiet) = elapsed nif h + N.of_nat (length quiet).
Proof.
  intros nif h quiet. induction quiet as [|q quiet IH] using rev_ind; intro Hq.
  - rewrite app_nil_r. symmetry. apply N.add_0_r.
  - apply Forall_app in Hq as [Hq Hq1]. inversion Hq1 as [|? ? E _]; subst.
    rewrite app_assoc, elapsed_snoc, E, IH, app_length by exact Hq. unfold sp_next. cbn [length]. lia.
Qed.

Lemma clip_eqb : forall e m a, a < m -> (N.min e m =? a) = (e =? a).
Proof.
  intros e m a H. destruct (N.min_spec e m) as [[_ ->] | [Hle ->]]; [reflexivity|].
  rewrite !(proj2 (N.eqb_neq _ _)) by lia. reflexivity.
Qed.

Lemma ip_strobes_ext : forall t1 t2 c s, t1 s = t2 s -> ip_strobes t1 c s = ip_strobes t2 c s.
Proof. intros. unfold ip_strobes. rewrite H. reflexivity. Qed.

(* bit 0 of the strobe word is tx_allowed *)
Lemma ip_allowed : forall tbl speed c a b t, tbl speed = Some (a, b, t) ->
  N.odd (ip_strobes tbl c speed) = (c =? a).
Proof.
  intros tbl speed c a b t H. unfold ip_strobes. rewrite H.
  destruct (c =? a), (c =? b), (c =? t); reflexivity.
Qed.

Section Proofs.
  Variable nif : nat.
  Variables cmax w : N.
  Variable tbl : ip_table.
  Definition tbl_ok : Prop :=
    forall s a b t, tbl s = Some (a, b, t) -> a <= cmax /\ b <= cmax /\ t <= cmax.
  Hypothesis Htbl : tbl_ok.
  Hypothesis Hw : cmax + 1 < 2 ^ w.

  (* below its limit the counter counts *)
  Lemma ip_next_count : forall c, c < cmax + 1 -> ip_next cmax w c false = c + 1.
  Proof.
    intros c H. unfold ip_next. rewrite (proj2 (N.ltb_lt c (cmax + 1))) by exact H. apply N.mod_small. lia.
  Qed.

  Definition rel (c e : N) : Prop := c = N.min e (cmax + 1).

  (* neither rel_init nor rel_strobes needs Hw: `using Hw` only keeps w and the bound among the arguments of their
     closed statements, as rel_next has them (SetupDec_proofs passes w := 10 and the bound by evaluation) *)
  Lemma rel_init : rel ip_init sp_init.
  Proof using Hw. symmetry. apply N.min_l, N.le_0_l. Qed.

  Lemma rel_next : forall c e st, rel c e -> rel (ip_next cmax w c st) (sp_next e st).
  Proof.
    intros c e st H. unfold rel, ip_next, sp_next in *. destruct st; [lia|].
    destruct (N.ltb_spec c (cmax + 1)); [rewrite N.mod_small by lia|]; lia.
  Qed.

  Lemma rel_strobes : forall c e sp, rel c e -> ip_strobes tbl c sp = ip_strobes tbl e sp.
  Proof using Htbl Hw.
    intros c e sp ->. unfold ip_strobes. destruct (tbl sp) as [[[a b] t]|] eqn:T; [|reflexivity].
    destruct (Htbl _ _ _ _ T) as (Ha & Hb & Ht). rewrite !clip_eqb by lia. reflexivity.
  Qed.

  Theorem iptimer_refines : forall tr c e, rel c e ->
    run (ip_step nif cmax w tbl) c tr = run (sp_step nif tbl) e tr.
  Proof.
    apply sim_run_all. intros c e i H. split; [apply rel_next, H | apply (f_equal (rep nif)), rel_strobes, H].
  Qed.

  Corollary iptimer_from_reset : forall tr,
    run (ip_step nif cmax w tbl) ip_init tr = run (sp_step nif tbl) sp_init tr.
  Proof. intro tr. apply iptimer_refines. apply rel_init. Qed.

  Lemma sp_state_elapsed : forall h, run_state (sp_step nif tbl) sp_init h = elapsed nif h.
  Proof.
    induction h as [|i h IH] using rev_ind; [reflexivity|].
    rewrite run_state_app, elapsed_snoc, <- IH. reflexivity.
  Qed.

  (* C05, cycle by cycle: the strobes in cycle t are exactly "elapsed time = delay for the speed selected in cycle t",
     read against any table that has tbl's entry at that speed: LUNA's tables agree with the USB figures on the
     three USB speeds, and the figures say nothing about speed code 3 *)
  Theorem iptimer_exact_as : forall spec tr t, (t < length tr)%nat ->
    tbl (ip_speed nif (nth t tr 0)) = spec (ip_speed nif (nth t tr 0)) ->
    nth t (run (ip_step nif cmax w tbl) ip_init tr) 0
    = rep nif (ip_strobes spec (elapsed nif (firstn t tr)) (ip_speed nif (nth t tr 0))).
  Proof.
    intros spec tr t Ht E. rewrite iptimer_from_reset, run_nth by exact Ht.
    rewrite sp_state_elapsed. apply (f_equal (rep nif)), ip_strobes_ext, E.
  Qed.
End Proofs.

(* the width Amaranth gives the counter holds the value cmax + 1 at which it saturates *)
Lemma ctr_width_fits : forall cmax, cmax + 1 < 2 ^ ctr_width cmax.
Proof. intro cmax. apply N.size_gt. Qed.

Lemma elapsed_after_start : forall nif pre s quiet,
  ip_starts nif s = true -> Forall (fun i => ip_starts nif i = false) quiet ->
  elapsed nif (pre ++ s :: quiet) = N.of_nat (length quiet).
Proof.
  intros nif pre s quiet Hs Hq. change (pre ++ s :: quiet) with (pre ++ [s] ++ quiet).
  rewrite app_assoc, elapsed_quiet, elapsed_snoc, Hs by exact Hq. reflexivity.
Qed.

Lemma elapsed_from_reset : forall nif quiet,
  Forall (fun i => ip_starts nif i = false) quiet -> elapsed nif quiet = N.of_nat (length quiet).
Proof. intros nif quiet Hq. exact (elapsed_quiet nif [] quiet Hq). Qed.

Lemma speed_cases : forall s, s <= 2 -> s = 0 \/ s = 1 \/ s = 2.
Proof. lia. Qed.

Lemma tbl_60_spec : forall fs_only s, s <= 2 -> tbl_60 fs_only s = usb_delays 5 (negb fs_only) s.
Proof.
  intros fs_only s Hs. destruct (speed_cases s Hs) as [-> | [-> | ->]]; destruct fs_only; reflexivity.
Qed.
Lemma tbl_12_spec : forall s, s <= 2 -> tbl_12 s = usb_delays 1 false s.
Proof. intros s Hs. destruct (speed_cases s Hs) as [-> | [-> | ->]]; reflexivity. Qed.

Lemma tbl_60_ok : forall fs_only, tbl_ok (cmax_of fs_only false) (tbl_60 fs_only).
Proof.
  intros fs_only s a b t H.
  destruct s as [|[p|p|]], fs_only; inversion H; subst; repeat split; discriminate.
Qed.
Lemma tbl_12_ok : tbl_ok (cmax_of true true) tbl_12.
Proof.
  intros s a b t H. destruct s as [|[p|p|]]; inversion H; subst; repeat split; discriminate.
Qed.

Lemma sp_run_ext : forall nif t1 t2 tr e,
  Forall (fun i => t1 (ip_speed nif i) = t2 (ip_speed nif i)) tr ->
  run (sp_step nif t1) e tr = run (sp_step nif t2) e tr.
Proof.
  induction tr as [|i tr IH]; intros e H; [reflexivity|].
  inversion H as [|? ? Hi Htr]; subst. rewrite !run_cons. cbn [sp_step fst snd].
  rewrite (ip_strobes_ext t1 t2 _ _ Hi), (IH _ Htr). reflexivity.
Qed.

(* packing facts for the lock-step obligations: the model state is the counter itself *)
Definition ip_wf (c : N) : Prop := True.
Definition ip_enc (c : N) : N := c.
Definition ip_dec (c : N) : N := c.
Lemma ip_dec_enc : forall c, ip_wf c -> ip_dec (ip_enc c) = c.
Proof. reflexivity. Qed.
