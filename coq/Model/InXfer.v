(* C11 / C14 -- hand model of luna/gateware/usb/usb2/transfer.py: USBInTransferManager as wired by
   luna/gateware/usb/usb2/endpoints/stream.py: USBStreamInEndpoint (generate_zlps = 1, start_with_data1 = 0,
   active = (tokenizer.endpoint == endpoint_number), reset_sequence = matching clear_endpoint_halt_in),
   parametric in max_packet_size (mps) and the endpoint number (ep); `discard` is tied to 0.

   One list element = one cycle of the "usb" domain.

   The model is code-shaped (FSM inductive, fill counters, two packet memories as lists, the registered
   read ports), but names the two buffers by ROLE: x_w is the buffer being filled (buffer[buffer_toggle]),
   x_r the buffer being sent (buffer[~buffer_toggle]); swapping the roles is what toggling buffer_toggle does.

   Two behaviours of the code before a514280 / 3b70630 violated C11 / C14 (both confirmed on the simulator); the model
   takes two booleans saying whether the corresponding one-line repairs are applied (true = property-satisfying
   behaviour, which is what every theorem and every tie uses; false = the code as found, used only in the
   `..._unfixed_violates` examples of Properties/C11.v and Properties/C14.v):
     fix_addr  WAIT_TO_SEND drives the read address with 0 instead of the (possibly stale) send_position
     fix_rst   a PID-sequence reset that coincides with a buffer swap in WAIT_FOR_DATA is not undone by the
               swap's toggle.

   Second half of the file: the SPECIFICATION of C11 as an observer (`c11_mon`) of the endpoint's interface
   signals plus one ghost bit per cycle (did the host receive the packet that completes in this cycle),
   which contains a model of the host (expected toggle, de-duplication of retries). *)
From Coq Require Import NArith List Bool Arith.
Import ListNotations.
From LunaLib Require Import Netlist Machine PackN ListMem.
Open Scope N_scope.

(* ------------------------------------------------------------------------------------------ *)
(* interface signals                                                                           *)
Record ix_in := {
  i_valid : bool;      (* stream.valid *)
  i_last : bool;       (* stream.last *)
  i_flush : bool;      (* flush *)
  i_is_in : bool;      (* interface.tokenizer.is_in *)
  i_rfr : bool;        (* interface.tokenizer.ready_for_response *)
  i_newtok : bool;     (* interface.tokenizer.new_token *)
  i_ack : bool;        (* interface.handshakes_in.ack *)
  i_txrdy : bool;      (* interface.tx.ready *)
  i_rcv : bool;        (* GHOST (carried on stream.first, which the module ignores): the host receives the
                          packet that completes in this cycle intact *)
  i_ep : N;            (* interface.tokenizer.endpoint, 4 bits *)
  i_clr : N;           (* interface.clear_endpoint_halt_in: bit 0 enable, bit 1 direction, bits 2..5 number *)
  i_payload : N        (* stream.payload, 8 bits *)
}.

Record ix_out := {
  o_ready : bool;      (* stream.ready *)
  o_valid : bool;      (* interface.tx.valid *)
  o_first : bool;      (* interface.tx.first *)
  o_last : bool;       (* interface.tx.last *)
  o_nak : bool;        (* interface.handshakes_out.nak *)
  o_pid : N;           (* interface.tx_pid_toggle (2 bits): 0 = DATA0, 1 = DATA1 *)
  o_payload : N        (* interface.tx.payload *)
}.

Definition ix_in_of (w : N) : ix_in :=
  {| i_valid := N.testbit w 0; i_last := N.testbit w 1; i_flush := N.testbit w 2;
     i_is_in := N.testbit w 3; i_rfr := N.testbit w 4; i_newtok := N.testbit w 5;
     i_ack := N.testbit w 6; i_txrdy := N.testbit w 7; i_rcv := N.testbit w 8;
     i_ep := bits w 9 4; i_clr := bits w 13 6; i_payload := bits w 19 8 |}.

Definition ix_out_pack (o : ix_out) : N :=
  pk 2 (b2n (o_ready o)) (pk 2 (b2n (o_valid o)) (pk 2 (b2n (o_first o)) (pk 2 (b2n (o_last o))
  (pk 2 (b2n (o_nak o)) (pk 4 (o_pid o) (o_payload o)))))).

Definition nb (n : N) : bool := negb (n =? 0).

Definition ix_out_of (w : N) : ix_out :=
  let r := w mod 2 in let w := w / 2 in
  let v := w mod 2 in let w := w / 2 in
  let f := w mod 2 in let w := w / 2 in
  let l := w mod 2 in let w := w / 2 in
  let k := w mod 2 in let w := w / 2 in
  let p := w mod 4 in let w := w / 4 in
  {| o_ready := nb r; o_valid := nb v; o_first := nb f; o_last := nb l; o_nak := nb k; o_pid := p;
     o_payload := w mod 256 |}.

(* tx.payload is meaningful only while tx.valid is high: outputs are compared after this normalisation *)
Definition out_norm (o : ix_out) : ix_out :=
  {| o_ready := o_ready o; o_valid := o_valid o; o_first := o_first o; o_last := o_last o; o_nak := o_nak o;
     o_pid := o_pid o; o_payload := if o_valid o then o_payload o else 0 |}.
(* the same on packed output words (bit 1 = tx.valid, bits 7.. = tx.payload) *)
Definition normN (o : N) : N := if N.testbit o 1 then o else N.land o 127.

(* ------------------------------------------------------------------------------------------ *)
(* the module                                                                                  *)
Inductive ix_fsm := WFD | WTS | SEND | WFA.
  (* WAIT_FOR_DATA | WAIT_TO_SEND | SEND_PACKET | WAIT_FOR_ACK *)

Record ix_buf := {
  b_fill : nat;        (* buffer_fill_count[k]; Signal(range(mps+1)), never exceeds mps (ix_wf) *)
  b_end : bool;        (* stream_ended_in_buffer<k> *)
  b_rd : N;            (* data register of the buffer's (synchronous) read port *)
  b_mem : list N       (* transmit_buffer_<k>: mps bytes *)
}.

Record ix_state := {
  x_fsm : ix_fsm;
  x_pid : bool;        (* data_pid[0]  (data_pid[1] is constant 0: start_with_data1 is one bit wide) *)
  x_tog : bool;        (* buffer_toggle: which physical buffer plays the write role (only matters for packing) *)
  x_first : bool;      (* packet_stream.first (a register) *)
  x_w : ix_buf;        (* the buffer being filled *)
  x_r : ix_buf;        (* the buffer being sent *)
  x_pos : nat          (* send_position; Signal(range(mps+1)), never exceeds mps in reachable states *)
}.

Section InXfer.
  Variable fix_addr fix_rst : bool.
  Variable mps : nat.           (* max_packet_size >= 1 *)
  Variable ep : N.              (* endpoint_number *)

  (* address width of Memory(depth = mps): bits_for(mps - 1) *)
  Definition ix_aw : N := N.size (N.of_nat mps - 1).

  Definition buf0 : ix_buf := {| b_fill := 0; b_end := false; b_rd := 0; b_mem := repeat 0 mps |}.
  Definition ix_init : ix_state :=
    {| x_fsm := WFD; x_pid := true; x_tog := false; x_first := false; x_w := buf0; x_r := buf0; x_pos := 0 |}.

  (* an IN token for this endpoint may be answered now *)
  Definition tok (i : ix_in) : bool := (i_ep i =? ep) && i_is_in i && i_rfr i.
  (* ClearFeature(ENDPOINT_HALT) addressed to this IN endpoint: enable & direction & number = ep *)
  Definition clr (i : ix_in) : bool :=
    N.testbit (i_clr i) 0 && N.testbit (i_clr i) 1 && (bits (i_clr i) 2 4 =? ep).

  (* in_stream.ready: room in the buffer being filled, and the stream has not ended in it *)
  Definition w_ready (st : ix_state) : bool :=
    negb (b_fill (x_w st) =? mps)%nat && negb (b_end (x_w st)).
  Definition w_en (st : ix_state) (i : ix_in) : bool := i_valid i && w_ready st.

  Definition packet_completing (st : ix_state) (i : ix_in) : bool :=
    i_valid i && (i_last i || (b_fill (x_w st) + 1 =? mps)%nat).
  Definition packet_to_flush (st : ix_state) (i : ix_in) : bool :=
    i_flush i && negb (b_fill (x_w st) =? 0)%nat.
  Definition packet_ready (st : ix_state) (i : ix_in) : bool :=
    packet_completing st i || packet_to_flush st i.

  (* a registered, non-transparent read of a packet memory; the address is truncated to the port's width *)
  Definition rd_mem (m : list N) (a : nat) : N :=
    let a' := N.to_nat (N.of_nat a mod 2 ^ ix_aw) in
    if (a' <? mps)%nat then nth a' m 0 else 0.

  Definition last_byte (st : ix_state) : bool := (x_pos st + 1 =? b_fill (x_r st))%nat.

  (* read address of the port of the buffer being sent *)
  Definition r_addr (st : ix_state) (i : ix_in) : nat :=
    match x_fsm st with
    | WTS => if fix_addr then 0%nat else x_pos st
    | SEND => if i_txrdy i then (x_pos st + 1)%nat else x_pos st
    | _ => x_pos st
    end.

  (* the two buffers after this cycle's background activity (stream write, port reads), before any
     state-specific register update and before any role swap *)
  Definition w_bg (st : ix_state) (i : ix_in) : ix_buf :=
    let w := x_w st in
    {| b_fill := if w_en st i then (b_fill w + 1)%nat else b_fill w;
       b_end := b_end w || (i_last i && w_en st i);
       b_rd := rd_mem (b_mem w) 0;           (* the unselected read port is addressed with 0 *)
       b_mem := if w_en st i then upd (b_fill w) (i_payload i) (b_mem w) else b_mem w |}.
  Definition r_bg (st : ix_state) (i : ix_in) : ix_buf :=
    let r := x_r st in
    {| b_fill := b_fill r; b_end := b_end r; b_rd := rd_mem (b_mem r) (r_addr st i); b_mem := b_mem r |}.

  Definition set_fill (b : ix_buf) (n : nat) : ix_buf :=
    {| b_fill := n; b_end := b_end b; b_rd := b_rd b; b_mem := b_mem b |}.
  Definition clr_end (b : ix_buf) : ix_buf :=
    {| b_fill := b_fill b; b_end := false; b_rd := b_rd b; b_mem := b_mem b |}.

  Definition zlp_now (st : ix_state) (i : ix_in) : bool :=
    negb (clr i) && tok i && (b_fill (x_r st) =? 0)%nat.

  Definition ix_outf (st : ix_state) (i : ix_in) : ix_out :=
    {| o_ready := w_ready st;
       o_valid := match x_fsm st with SEND => true | WTS => zlp_now st i | _ => false end;
       o_first := x_first st;
       o_last := match x_fsm st with SEND => last_byte st | WTS => zlp_now st i | _ => false end;
       o_nak := match x_fsm st with WFD => tok i | _ => false end;
       o_pid := b2n (x_pid st);
       o_payload := b_rd (x_r st) |}.

  (* follow_up_with_zlp: the packet just ACKed was full and ended the transfer (generate_zlps = 1) *)
  Definition follow_up (st : ix_state) : bool := (b_fill (x_r st) =? mps)%nat && b_end (x_r st).

  Definition ix_next (st : ix_state) (i : ix_in) : ix_state :=
    let w1 := w_bg st i in
    let r1 := r_bg st i in
    (* `with m.If(self.reset_sequence): data_pid.eq(~start_with_data1)` -- overridden by later assignments *)
    let pid0 := if clr i then true else x_pid st in
    match x_fsm st with
    | WFD =>
        if packet_ready st i then
          {| x_fsm := WTS;
             x_pid := if fix_rst && clr i then false else negb (x_pid st);
             x_tog := negb (x_tog st); x_first := x_first st;
             x_w := clr_end r1; x_r := w1; x_pos := x_pos st |}
        else
          {| x_fsm := WFD; x_pid := pid0; x_tog := x_tog st; x_first := x_first st;
             x_w := w1; x_r := r1; x_pos := x_pos st |}
    | WTS =>
        if clr i then
          {| x_fsm := WTS; x_pid := false; x_tog := x_tog st; x_first := x_first st;
             x_w := w1; x_r := r1; x_pos := 0 |}
        else if tok i then
          if negb (b_fill (x_r st) =? 0)%nat then
            {| x_fsm := SEND; x_pid := pid0; x_tog := x_tog st; x_first := true;
               x_w := w1; x_r := r1; x_pos := 0 |}
          else
            {| x_fsm := WFA; x_pid := pid0; x_tog := x_tog st; x_first := x_first st;
               x_w := w1; x_r := clr_end r1; x_pos := 0 |}
        else
          {| x_fsm := WTS; x_pid := pid0; x_tog := x_tog st; x_first := x_first st;
             x_w := w1; x_r := r1; x_pos := 0 |}
    | SEND =>
        if i_txrdy i then
          {| x_fsm := if last_byte st then WFA else SEND; x_pid := pid0; x_tog := x_tog st; x_first := false;
             x_w := w1; x_r := r1; x_pos := (x_pos st + 1)%nat |}
        else
          {| x_fsm := SEND; x_pid := pid0; x_tog := x_tog st; x_first := x_first st;
             x_w := w1; x_r := r1; x_pos := x_pos st |}
    | WFA =>
        if i_ack i then
          if follow_up st then
            {| x_fsm := WTS; x_pid := negb (x_pid st); x_tog := x_tog st; x_first := x_first st;
               x_w := w1; x_r := set_fill r1 0; x_pos := x_pos st |}
          else if negb (w_ready st) || packet_ready st i then
            {| x_fsm := WTS; x_pid := negb (x_pid st); x_tog := negb (x_tog st); x_first := x_first st;
               x_w := clr_end (set_fill r1 0); x_r := w1; x_pos := x_pos st |}
          else
            {| x_fsm := if i_newtok i then WTS else WFD; x_pid := pid0; x_tog := x_tog st; x_first := x_first st;
               x_w := w1; x_r := set_fill r1 0; x_pos := x_pos st |}
        else
          {| x_fsm := if i_newtok i then WTS else WFA; x_pid := pid0; x_tog := x_tog st; x_first := x_first st;
             x_w := w1; x_r := r1; x_pos := x_pos st |}
    end.

  Definition ix_mstep (st : ix_state) (w : N) : ix_state * N :=
    let i := ix_in_of w in (ix_next st i, ix_out_pack (ix_outf st i)).
  (* with normalised outputs *)
  Definition ix_mstep_n (st : ix_state) (w : N) : ix_state * N :=
    let i := ix_in_of w in (ix_next st i, ix_out_pack (out_norm (ix_outf st i))).

  (* typed runs *)
  Fixpoint ix_run (st : ix_state) (ins : list ix_in) : list ix_out :=
    match ins with
    | [] => []
    | i :: t => ix_outf st i :: ix_run (ix_next st i) t
    end.

  (* ---------------------------------------------------------------------------------------- *)
  (* packing (for lock-step ties).  x_pos is the most significant digit: it needs no bound.     *)
  Definition FB : N := N.of_nat mps + 1.           (* radix of a fill count *)
  Definition MB : N := 256 ^ N.of_nat mps.         (* radix of a packet memory *)
  Definition fsm_code (f : ix_fsm) : N := match f with WFD => 0 | WTS => 1 | SEND => 2 | WFA => 3 end.
  Definition fsm_of (n : N) : ix_fsm := match n with 0 => WFD | 1 => WTS | 2 => SEND | _ => WFA end.

  Definition buf_enc (b : ix_buf) (rest : N) : N :=
    pk FB (N.of_nat (b_fill b)) (pk 2 (b2n (b_end b)) (pk 256 (b_rd b) (pk MB (pack 256 (b_mem b)) rest))).
  Definition buf_dec (m : N) : ix_buf * N :=
    let f := m mod FB in let m := m / FB in
    let e := m mod 2 in let m := m / 2 in
    let r := m mod 256 in let m := m / 256 in
    let mm := m mod MB in let m := m / MB in
    ({| b_fill := N.to_nat f; b_end := nb e; b_rd := r; b_mem := unpack 256 mps mm |}, m).

  Definition ix_enc (s : ix_state) : N :=
    pk 4 (fsm_code (x_fsm s)) (pk 2 (b2n (x_pid s)) (pk 2 (b2n (x_tog s)) (pk 2 (b2n (x_first s))
      (buf_enc (x_w s) (buf_enc (x_r s) (N.of_nat (x_pos s))))))).
  Definition ix_dec (m : N) : ix_state :=
    let f := m mod 4 in let m := m / 4 in
    let p := m mod 2 in let m := m / 2 in
    let t := m mod 2 in let m := m / 2 in
    let fi := m mod 2 in let m := m / 2 in
    let (w, m) := buf_dec m in
    let (r, m) := buf_dec m in
    {| x_fsm := fsm_of f; x_pid := nb p; x_tog := nb t; x_first := nb fi; x_w := w; x_r := r;
       x_pos := N.to_nat m |}.
End InXfer.

(* ------------------------------------------------------------------------------------------ *)
(* Input alphabets for the lock-step ties (explicit-state closure cannot enumerate 2^27 input words per state).
   The alphabet depends on the FSM state of the model: the inputs the module reads in that state take every
   combination (payload bytes from `vals`, tokenizer.endpoint from `eps`); the inputs it ignores in that state
   are all 0 or all 1 (`irr`). *)
Definition ix_word (valid last flush is_in rfr nt ack rdy rcv : bool) (e c pl : N) : N :=
  b2n valid + 2 * b2n last + 4 * b2n flush + 8 * b2n is_in + 16 * b2n rfr + 32 * b2n nt + 64 * b2n ack
  + 128 * b2n rdy + 256 * b2n rcv + 512 * e + 8192 * c + 524288 * pl.

Definition bools : list bool := [false; true].

Section Alphabet.
  Variable toks : list (N * bool * bool).   (* tokenizer.endpoint / is_in / ready_for_response combinations *)
  Variable vals : list N.                   (* stream.payload values *)
  Variable clrs : list N.                   (* clear_endpoint_halt_in words *)
  Variable irrs : list bool.                (* settings of the inputs the module ignores in the state *)

  (* stream.valid / last / payload: valid = 0 with two settings of the ignored fields, valid = 1 with everything *)
  Definition a_stream : list (bool * bool * N) :=
    (false, false, 0) :: (false, true, last vals 0) ::
    flat_map (fun l => map (fun p => (true, l, p)) vals) bools.

  Definition ix_alpha (st : ix_state) : list N :=
    let e0 := match toks with (e, _, _) :: _ => e | [] => 0 end in
    let e1 := fst (fst (last toks (0, false, false))) in      (* a token for another endpoint *)
    flat_map (fun s => match s with (v, l, p) =>
    flat_map (fun c =>
    flat_map (fun irr =>
      match x_fsm st with
      | WFD => flat_map (fun f => map (fun t => match t with (e, a, b) =>
                 ix_word v l f a b irr irr irr irr e c p end) toks) bools
      | WTS => flat_map (fun g => map (fun t => match t with (e, a, b) =>
                 ix_word v l irr a b irr irr irr g e c p end) toks) bools
      | SEND => flat_map (fun g => map (fun r =>
                 ix_word v l irr irr irr irr irr r g e0 c p) bools) bools
      | WFA => flat_map (fun f => map (fun h => match h with (a, n, e) =>
                 ix_word v l f irr irr n a irr irr e c p end)
                 [(false, false, e0); (true, false, e0); (false, true, e0); (false, true, e1)]) bools
      end) irrs) clrs end) a_stream.
End Alphabet.

(* ------------------------------------------------------------------------------------------ *)
(* SPECIFICATION of C11: an observer of the interface signals.

   It contains the host: `s_h` is the data toggle the host expects next; a packet that the host
   receives intact (ghost bit i_rcv in the cycle the packet completes) is TAKEN if its PID equals s_h (then
   s_h flips) and otherwise discarded as a duplicate; in both cases the host answers ACK, which may or
   may not reach the device.  `s_pend` is the part of the input stream (bytes with their `last` markers,
   in order) that the module has accepted (valid & ready) and the host has not yet taken; `s_in` and
   `s_host` log everything accepted from the stream / taken by the host.

   Environment (the monitor answers None when it is broken):
     * an ACK strobe arrives only while the handshake of a completed packet is outstanding and the host
       did receive that packet (`s_wait = Some (_, _, true)`): the host ACKs what it received, once,
       and not after it has started a new token;
     * ACK and new_token strobes never coincide (they stem from different packets);
     * no ClearFeature(ENDPOINT_HALT) for this endpoint (that is C14's subject).
   Nothing is assumed about the stream (valid gaps, last, flush), tx.ready, or token timing.

   Verdict (false = violation), see c11_mon:
     V1  while no packet is on the wire and no handshake is outstanding, an IN token for this endpoint is
         answered in the same cycle by exactly one of: NAK, a zero-length packet, or a data packet whose
         first byte is offered from the next cycle on; a NAK only if no packet is due (nothing to
         retry, no ZLP owed, and the pending stream neither holds mps bytes nor a `last` byte);
         without such a token there is neither NAK nor tx.valid;
     V2  while a data packet is on the wire tx.valid stays high, tx.first marks exactly the first byte,
         and the packet has at most mps bytes;
     V3  a packet sent after a handshake timed out (new token, no ACK) repeats PID and payload;
         any other packet carries the toggle the host expects;
     V4  a packet the host takes is a prefix of the pending stream, contains a `last` byte at most as its
         final byte, and is zero-length if a ZLP is owed; a ZLP is owed exactly after the host took a
         full-size packet ending in a `last` byte (so every transfer ends in a short or zero-length packet);
     V5  a packet that is not a retry is either full-size, or ends in a `last` byte, or is the owed ZLP, or flush has been
         asserted since the previous packet completed (no premature short packet in mid-transfer);
     V6  stream.ready is high whenever the pending stream holds fewer than mps bytes and no `last` byte (the module never
         refuses data while even its write buffer alone could not be full). *)
Record sp_state := {
  s_pend : list (N * bool);
  s_h : bool;
  s_cur : option (list N);             (* Some bs: data packet on the wire, bs = bytes handed over so far *)
  s_wait : option (N * list N * bool); (* packet complete, handshake outstanding: PID, payload, host received it *)
  s_retry : option (N * list N);       (* the last packet timed out: it must be sent again *)
  s_zlp : bool;                        (* a zero-length packet is owed *)
  s_in : list N;                       (* log: stream bytes accepted *)
  s_host : list N;                     (* log: bytes taken by the host *)
  s_fl : bool                          (* flush has been asserted since the last packet completed *)
}.

Definition sp_init : sp_state :=
  {| s_pend := []; s_h := false; s_cur := None; s_wait := None; s_retry := None; s_zlp := false;
     s_in := []; s_host := []; s_fl := false |}.

Fixpoint bytes_eqb (a b : list N) : bool :=
  match a, b with
  | [], [] => true
  | x :: a', y :: b' => (x =? y) && bytes_eqb a' b'
  | _, _ => false
  end.

(* no transfer boundary strictly inside a packet *)
Fixpoint last_only_at_end (l : list (N * bool)) : bool :=
  match l with
  | [] => true
  | [_] => true
  | (_, f) :: t => negb f && last_only_at_end t
  end.

Definition ends_with_last (l : list (N * bool)) : bool := snd (last l (0, false)).

Section Spec.
  Variable mps : nat.
  Variable ep : N.

  Definition s_tok (i : ix_in) : bool := (i_ep i =? ep) && i_is_in i && i_rfr i.
  Definition s_clr (i : ix_in) : bool :=
    N.testbit (i_clr i) 0 && N.testbit (i_clr i) 1 && (bits (i_clr i) 2 4 =? ep).

  Definition c11_env (s : sp_state) (i : ix_in) : bool :=
    negb (s_clr i) && negb (i_ack i && i_newtok i) &&
    (negb (i_ack i) || match s_wait s with Some (_, _, got) => got | None => false end).

  (* a complete packet is available in the pending stream *)
  Definition packet_due (pend : list (N * bool)) : bool :=
    (mps <=? length pend)%nat || existsb snd pend.

  (* the packet (pid, bs) completes in this cycle; rcv: the host receives it.  Returns the new state
     (s_cur, s_wait, s_retry are set by the caller) and the verdict V2(size) V3 V4. *)
  Definition complete (s : sp_state) (retry : option (N * list N)) (pid : N) (bs : list N) (rcv : bool)
    : sp_state * bool :=
    let n := length bs in
    let v_size := (n <=? mps)%nat in
    let v_pid := match retry with
                 | Some (p0, bs0) => (pid =? p0) && bytes_eqb bs bs0
                 | None => pid =? b2n (s_h s)
                 end in
    let taken := rcv && (pid =? b2n (s_h s)) in
    let pre := firstn n (s_pend s) in
    let v_take := (n <=? length (s_pend s))%nat && bytes_eqb bs (map fst pre) && last_only_at_end pre
                  && (negb (s_zlp s) || (n =? 0)%nat) in
    let v_shape := match retry with
                   | Some _ => true
                   | None => (n =? mps)%nat || (if (n =? 0)%nat then s_zlp s else ends_with_last pre || s_fl s)
                   end in
    ({| s_pend := if taken then skipn n (s_pend s) else s_pend s;
        s_h := if taken then negb (s_h s) else s_h s;
        s_cur := None;
        s_wait := Some (pid, bs, rcv);
        s_retry := None;
        s_zlp := if taken then (n =? mps)%nat && ends_with_last pre else s_zlp s;
        s_in := s_in s;
        s_host := if taken then s_host s ++ bs else s_host s;
        s_fl := false |},
     v_size && v_pid && v_shape && (negb taken || v_take)).

  (* 1. handshakes, judged on the state before this cycle: an ACK or a new token ends the wait for a handshake;
        a new token without ACK means the packet has to be sent again *)
  Definition hs_phase (s : sp_state) (i : ix_in) : sp_state :=
    {| s_pend := s_pend s; s_h := s_h s; s_cur := s_cur s;
       s_wait := if i_ack i || i_newtok i then None else s_wait s;
       s_retry := match s_wait s with
                  | Some (p, bs, _) => if i_newtok i && negb (i_ack i) then Some (p, bs) else None
                  | None => s_retry s
                  end;
       s_zlp := s_zlp s; s_in := s_in s; s_host := s_host s; s_fl := s_fl s || i_flush i |}.

  Definition set_cur (s : sp_state) (c : option (list N)) : sp_state :=
    {| s_pend := s_pend s; s_h := s_h s; s_cur := c; s_wait := s_wait s; s_retry := s_retry s;
       s_zlp := s_zlp s; s_in := s_in s; s_host := s_host s; s_fl := s_fl s |}.

  (* 2. the transmit side (s: state before the cycle, s1: after the handshake phase) *)
  Definition tx_phase (s s1 : sp_state) (i : ix_in) (o : ix_out) : sp_state * bool :=
    match s_cur s with
    | None =>
        if s_tok i && match s_wait s with None => true | Some _ => false end then
          if o_nak o then
            (s1, negb (o_valid o) && match s_retry s1 with None => true | Some _ => false end
                 && negb (s_zlp s) && negb (packet_due (s_pend s)))
          else if o_valid o then
            let '(s', v) := complete s1 (s_retry s1) (o_pid o) [] (i_rcv i) in
            (s', v && o_last o && negb (o_first o))
          else (set_cur s1 (Some []), true)
        else (s1, negb (o_nak o) && negb (o_valid o))
    | Some bs =>
        let v := o_valid o && negb (o_nak o) && Bool.eqb (o_first o) (match bs with [] => true | _ => false end) in
        if o_valid o && i_txrdy i then
          let bs' := bs ++ [o_payload o] in
          if o_last o then
            let '(s', v') := complete s1 (s_retry s1) (o_pid o) bs' (i_rcv i) in (s', v && v')
          else (set_cur s1 (Some bs'), v && (length bs' <? mps)%nat)
        else (s1, v)
    end.

  (* 3. the stream: a byte handed over (valid & ready) joins the pending stream *)
  Definition add_stream (b : bool) (i : ix_in) (s : sp_state) : sp_state :=
    {| s_pend := if b then s_pend s ++ [(i_payload i, i_last i)] else s_pend s;
       s_h := s_h s; s_cur := s_cur s; s_wait := s_wait s; s_retry := s_retry s; s_zlp := s_zlp s;
       s_in := if b then s_in s ++ [i_payload i] else s_in s;
       s_host := s_host s; s_fl := s_fl s |}.

  (* V6 *)
  Definition ready_ok (s : sp_state) (o : ix_out) : bool := packet_due (s_pend s) || o_ready o.

  Definition c11_mon (s : sp_state) (i : ix_in) (o : ix_out) : option (sp_state * bool) :=
    if negb (c11_env s i) then None else
    if negb (ready_ok s o) then Some (s, false) else
    let '(s2, ok) := tx_phase s (hs_phase s i) i o in
    Some (add_stream (i_valid i && o_ready o) i s2, ok).

  (* the monitor over a whole recorded run: true = no violation (as long as the environment holds) *)
  Fixpoint c11_check (s : sp_state) (ios : list (ix_in * ix_out)) : bool :=
    match ios with
    | [] => true
    | (i, o) :: t => match c11_mon s i o with
                     | None => true
                     | Some (s', ok) => ok && c11_check s' t
                     end
    end.

  (* the monitor's state after a run (stops where the environment breaks) *)
  Fixpoint c11_state (s : sp_state) (ios : list (ix_in * ix_out)) : sp_state :=
    match ios with
    | [] => s
    | (i, o) :: t => match c11_mon s i o with
                     | None => s
                     | Some (s', _) => c11_state s' t
                     end
    end.

  (* the environment holds along the whole run *)
  Fixpoint c11_env_all (s : sp_state) (ios : list (ix_in * ix_out)) : bool :=
    match ios with
    | [] => true
    | (i, o) :: t => match c11_mon s i o with
                     | None => false
                     | Some (s', _) => c11_env_all s' t
                     end
    end.

  (* the stream bytes handed over (valid & ready) during a recorded run *)
  Definition accepted_bytes (ios : list (ix_in * ix_out)) : list N :=
    flat_map (fun io => if i_valid (fst io) && o_ready (snd io) then [i_payload (fst io)] else []) ios.

  (* ---- N-packed form of the monitor state, for the runtime oracle (tie.cmon); the logs are dropped ---- *)
  Definition enc_bytes (l : list N) (rest : N) : N :=
    pk 65536 (N.of_nat (length l)) (pk (512 ^ N.of_nat (length l)) (pack 512 l) rest).
  Definition dec_bytes (m : N) : list N * N :=
    let n := m mod 65536 in let m := m / 65536 in
    let B := 512 ^ n in
    (unpack 512 (N.to_nat n) (m mod B), m / B).
  Definition enc_opt (o : option (N * list N * bool)) (rest : N) : N :=
    match o with
    | None => pk 2 0 rest
    | Some (p, bs, g) => pk 2 1 (pk 4 p (pk 2 (b2n g) (enc_bytes bs rest)))
    end.
  Definition dec_opt (m : N) : option (N * list N * bool) * N :=
    if m mod 2 =? 0 then (None, m / 2) else
    let m := m / 2 in let p := m mod 4 in let m := m / 4 in let g := m mod 2 in let m := m / 2 in
    let (bs, m) := dec_bytes m in (Some (p, bs, nb g), m).

  Definition sp_enc (s : sp_state) : N :=
    pk 2 (b2n (s_fl s)) (pk 2 (b2n (s_h s)) (pk 2 (b2n (s_zlp s))
      (enc_bytes (map (fun x => fst x + 256 * b2n (snd x)) (s_pend s))
        (enc_opt (match s_cur s with Some bs => Some (0, bs, false) | None => None end)
          (enc_opt (s_wait s)
            (enc_opt (match s_retry s with Some (p, bs) => Some (p, bs, false) | None => None end) 0)))))).
  Definition sp_dec (m : N) : sp_state :=
    let f := m mod 2 in let m := m / 2 in
    let h := m mod 2 in let m := m / 2 in
    let z := m mod 2 in let m := m / 2 in
    let (pe, m) := dec_bytes m in
    let (cu, m) := dec_opt m in
    let (wa, m) := dec_opt m in
    let (re, m) := dec_opt m in
    {| s_pend := map (fun x => (x mod 256, nb (x / 256))) pe; s_h := nb h;
       s_cur := match cu with Some (_, bs, _) => Some bs | None => None end;
       s_wait := wa;
       s_retry := match re with Some (p, bs, _) => Some (p, bs) | None => None end;
       s_zlp := nb z; s_in := []; s_host := []; s_fl := nb f |}.

  (* the typed monitor over packed (input word, output word) pairs: 0 = accepted, k+1 = first violated cycle k
     (used as the runtime oracle at packet sizes where the N-packed monitor state would be too slow) *)
  Fixpoint c11_bad_from (k : N) (s : sp_state) (ios : list (N * N)) : N :=
    match ios with
    | [] => 0
    | (w, o) :: t => match c11_mon s (ix_in_of w) (ix_out_of o) with
                     | None => 0
                     | Some (s', ok) => if ok then c11_bad_from (N.succ k) s' t else N.succ k
                     end
    end.
  Definition c11_bad_code (ios : list (N * N)) : N := c11_bad_from 0 sp_init ios.

  Definition c11_monN (m w o : N) : option (N * bool) :=
    match c11_mon (sp_dec m) (ix_in_of w) (ix_out_of o) with
    | None => None
    | Some (s', ok) => Some (sp_enc s', ok)
    end.
End Spec.
