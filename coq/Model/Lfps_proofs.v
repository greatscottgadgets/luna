(* C42 -- proofs about the LFPS detector and generator models (Model/Lfps.v).
   Detector: the run-length specification spec_detect read as a statement about the envelope itself; soundness
   (ld_sound: detect is reported only where the specification holds) by an invariant tying the FSM state to the
   run-length encoded envelope; completeness after reset or a quiet stretch (ld_complete_periodic,
   ld_complete_single) by running the detector proper over the bursts and gaps.
   Generator: the FSM model equals the phase-counter specification (lg_from_reset), and what that specification
   produces while `generate` is held (lgs_held_spec).
   The transceiver lt_step has no theorem. *)
From Coq Require Import NArith List Bool Lia ZifyBool.
Import ListNotations.
From LunaLib Require Import Netlist Machine SymWord.
From LunaModel Require Import Lfps.
Open Scope N_scope.

Lemma push_head : forall b runs, exists n r, push b runs = (b, n) :: r.
Proof. intros b [|[b' n] r]; cbn; [eauto|]. destruct (Bool.eqb b b'); eauto. Qed.

Definition no_head (b : bool) (h : list bool) : Prop := match h with x :: _ => x = negb b | [] => True end.

Lemma no_head_repeat : forall b k t, 1 <= k -> no_head b (repeat (negb b) (N.to_nat k) ++ t).
Proof. intros b k t H. destruct (N.to_nat k) eqn:E; [lia | reflexivity]. Qed.

Lemma rle_repeat : forall k b h', 1 <= k -> no_head b h' ->
  rle (repeat b (N.to_nat k) ++ h') = (b, k) :: rle h'.
Proof.
  intros k b h' Hk Hh. induction k as [|k IH] using N.peano_ind; [lia|].
  rewrite N2Nat.inj_succ. cbn [repeat app rle]. destruct (N.eq_dec k 0) as [-> | Hk'].
  - destruct h' as [|x t]; [reflexivity|]. cbn in Hh. subst x. cbn [N.to_nat repeat app rle].
    destruct (push_head (negb b) (rle t)) as (m & q & Eq). rewrite Eq. cbn [push]. destruct b; reflexivity.
  - rewrite IH by lia. cbn [push]. rewrite Bool.eqb_reflx, N.add_1_r. reflexivity.
Qed.

Lemma first_run : forall h, h = [] \/ exists b k h', 1 <= k /\ h = repeat b (N.to_nat k) ++ h' /\ no_head b h'.
Proof.
  induction h as [|a h IH]; [left; reflexivity | right].
  destruct IH as [-> | (b & k & h' & Hk & -> & Hh)]; [exists a, 1, []; repeat split; lia |].
  destruct (Bool.eqb a b) eqn:E.
  - apply Bool.eqb_prop in E. subst a. exists b, (k + 1), h'.
    replace (N.to_nat (k + 1)) with (S (N.to_nat k)) by lia. repeat split; [lia | exact Hh].
  - exists a, 1, (repeat b (N.to_nat k) ++ h'). repeat split; [lia|].
    replace b with (negb a) by (destruct a, b; try reflexivity; discriminate E). apply no_head_repeat, Hk.
Qed.

Lemma rle_inv : forall h b n r, rle h = (b, n) :: r ->
  exists h', h = repeat b (N.to_nat n) ++ h' /\ rle h' = r /\ 1 <= n /\ no_head b h'.
Proof.
  intros h b n r H. destruct (first_run h) as [-> | (b' & k & h' & Hk & -> & Hh)]; [discriminate|].
  rewrite rle_repeat in H by assumption. inversion H; subst. exists h'. auto.
Qed.

Section SpecUnfold.
  Variable c : ld_cfg.
  Definition win_b (k : N) : Prop := bmin c <= k <= bmax c.
  Definition win_r (n : N) : Prop := rmin c <= n <= rmax c.

  Lemma in_win_iff : forall lo hi x, in_win lo hi x = true <-> lo <= x <= hi.
  Proof. intros. unfold in_win. lia. Qed.

  (* periodic pattern: burst k1, gap g1, burst k2, gap g2, first cycle of the third burst (most recent first) *)
  Theorem spec_detect_periodic_iff : periodic c = true -> forall h,
    spec_detect c h = true <->
    exists k1 g1 k2 g2 rest,
      h = [true] ++ repeat false (N.to_nat g2) ++ repeat true (N.to_nat k2)
                 ++ repeat false (N.to_nat g1) ++ repeat true (N.to_nat k1) ++ rest /\
      no_head true rest /\ 1 <= k1 /\ 1 <= g1 /\ 1 <= k2 /\ 1 <= g2 /\
      win_b k1 /\ win_r (k1 + g1) /\ win_b k2 /\ win_r (k2 + g2).
  Proof.
    intros EP h. unfold spec_detect, spec_runs, win_b, win_r. rewrite EP. setoid_rewrite <- in_win_iff. split.
    - destruct (rle h) as [|[[|] n] [|[[|] g2] [|[[|] k2] [|[[|] g1] [|[[|] k1] r5]]]]] eqn:E; try discriminate.
      intro H. repeat (apply andb_true_iff in H as [H ?]). apply N.eqb_eq in H. subst n.
      apply rle_inv in E as (h1 & -> & E & _ & _).
      apply rle_inv in E as (h2 & -> & E & Hg2 & _).
      apply rle_inv in E as (h3 & -> & E & Hk2 & _).
      apply rle_inv in E as (h4 & -> & E & Hg1 & _).
      apply rle_inv in E as (h5 & -> & E & Hk1 & N4).
      exists k1, g1, k2, g2, h5. repeat split; auto.
    - intros (k1 & g1 & k2 & g2 & rest & -> & Hn & Hk1 & Hg1 & Hk2 & Hg2 & B1 & R1 & B2 & R2).
      change [true] with (repeat true (N.to_nat 1)).
      rewrite !rle_repeat by (auto using (no_head_repeat true), (no_head_repeat false); lia).
      rewrite B1, R1, B2, R2. reflexivity.
  Qed.

  (* single-burst pattern: burst k, first idle cycle *)
  Theorem spec_detect_single_iff : periodic c = false -> forall h,
    spec_detect c h = true <->
    exists k rest, h = [false] ++ repeat true (N.to_nat k) ++ rest /\ no_head true rest /\ 1 <= k /\ win_b k.
  Proof.
    intros EP h. unfold spec_detect, spec_runs, win_b. rewrite EP. setoid_rewrite <- in_win_iff. split.
    - destruct (rle h) as [|[[|] n] [|[[|] k] r2]] eqn:E; try discriminate.
      intro H. apply andb_true_iff in H as [H B]. apply N.eqb_eq in H. subst n.
      apply rle_inv in E as (h1 & -> & E & _ & _).
      apply rle_inv in E as (h2 & -> & E & Hk & N1).
      exists k, h2. repeat split; auto.
    - intros (k & rest & -> & Hn & Hk & B).
      change [false] with (repeat false (N.to_nat 1)).
      rewrite !rle_repeat by (auto using (no_head_repeat false); lia). rewrite B. reflexivity.
  Qed.
End SpecUnfold.

Section Detector.
  Variable c : ld_cfg.
  Hypothesis Hb1 : 1 <= bmax c.
  Hypothesis Hbw : bmax c < 2 ^ cw c.
  Hypothesis Hper : periodic c = true -> bmax c < rmax c /\ rmax c < 2 ^ cw c.

  Definition good_pair (rest : list (bool * N)) : bool :=
    match rest with
    | (false, g1) :: (true, k1) :: _ =>
        in_win (bmin c) (bmax c) k1 && in_win (rmin c) (rmax c) (k1 + g1)
    | _ => false
    end.

  (* what the FSM state knows about the run-length encoded envelope *)
  Definition Inv (st : ld_core) (runs : list (bool * N)) : Prop :=
    match fsm st with
    | WAIT => dly st = false -> match runs with [] => True | (b, _) :: _ => b = false end
    | BURST => dly st = true /\ exists k rest, runs = (true, k) :: rest /\ cnt st = k /\ 1 <= k /\ k <= bmax c /\
                 (lim st = true -> good_pair rest = true)
    | REPEAT => periodic c = true /\ dly st = true /\ exists g k rest, runs = (false, g) :: (true, k) :: rest /\
                 in_win (bmin c) (bmax c) k = true /\ cnt st = k + g /\ k + g <= rmax c /\
                 (lim st = true -> good_pair rest = true)
    end.

  Lemma Inv_init : Inv ld_core_init [].
  Proof. intro. exact I. Qed.

  Definition step_ok (st : ld_core) (runs : list (bool * N)) (p : bool) : Prop :=
    Inv (fst (ld_core_step c st p)) (push p runs) /\
    (snd (ld_core_step c st p) = true -> spec_runs c (push p runs) = true).

  Lemma wait_ok : forall d n l runs p,
    (d = false -> match runs with [] => True | (b, _) :: _ => b = false end) ->
    step_ok {| dly := d; fsm := WAIT; cnt := n; lim := l |} runs p.
  Proof.
    intros d n l runs p H. unfold step_ok, ld_core_step. cbn [fsm dly cnt lim].
    destruct p, d; cbn [andb negb fst snd]; (split; [|discriminate]); unfold Inv; cbn [fsm dly cnt lim];
      try discriminate.
    2,3: intros _; destruct runs as [|[[] m] r]; reflexivity.
    split; [reflexivity|]. exists 1, runs. specialize (H eq_refl).
    repeat split; try discriminate; try exact Hb1. destruct runs as [|[[] m] r]; [|discriminate|]; reflexivity.
  Qed.

  Lemma burst_ok : forall n l rest p, 1 <= n <= bmax c -> (l = true -> good_pair rest = true) ->
    step_ok {| dly := true; fsm := BURST; cnt := n; lim := l |} ((true, n) :: rest) p.
  Proof.
    intros n l rest p Hn Hl. unfold step_ok, ld_core_step. destruct p; cbn [fsm dly cnt lim push Bool.eqb negb].
    - destruct (n =? bmax c) eqn:E; cbn [fst snd]; (split; [|discriminate]); unfold Inv; cbn [fsm dly cnt lim].
      + discriminate.
      + split; [reflexivity|]. exists (n + 1), rest. rewrite N.mod_small by lia. repeat split; try assumption; lia.
    - destruct (n <? bmin c) eqn:E1; [|destruct (periodic c) eqn:EP]; cbn [fst snd]; unfold Inv; cbn [fsm dly cnt lim].
      + split; discriminate.
      + destruct (Hper eq_refl). split; [|discriminate]. split; [exact EP|]. split; [reflexivity|].
        exists 1, n, rest. rewrite N.mod_small by lia. unfold in_win. repeat split; try assumption; lia.
      + split; [discriminate|]. intros _. unfold spec_runs, in_win. rewrite EP. lia.
  Qed.

  Lemma repeat_ok : forall g k l rest p, periodic c = true -> in_win (bmin c) (bmax c) k = true ->
    k + g <= rmax c -> (l = true -> good_pair rest = true) ->
    step_ok {| dly := true; fsm := REPEAT; cnt := k + g; lim := l |} ((false, g) :: (true, k) :: rest) p.
  Proof.
    intros g k l rest p EP Hk Hr Hl. destruct (Hper EP). unfold step_ok, ld_core_step.
    destruct p; cbn [fsm dly cnt lim push Bool.eqb].
    - cbn [fst snd]. split.
      + split; [reflexivity|]. exists 1, ((false, g) :: (true, k) :: rest).
        repeat split; try reflexivity; try exact Hb1. cbn [lim good_pair]. rewrite Hk. unfold in_win. lia.
      + intro Ho. apply andb_true_iff in Ho as [Hl1 Hn]. specialize (Hl Hl1).
        unfold spec_runs. rewrite EP.
        destruct rest as [|[[|] g1] [|[[|] k1] rest']]; try discriminate Hl. cbn [good_pair] in Hl.
        unfold in_win in *. lia.
    - destruct (k + g =? rmax c) eqn:E; cbn [fst snd]; (split; [|discriminate]); unfold Inv; cbn [fsm dly cnt lim].
      + discriminate.
      + split; [exact EP|]. split; [reflexivity|]. exists (g + 1), k, rest.
        rewrite N.mod_small by lia. repeat split; try assumption; lia.
  Qed.

  Lemma Inv_step : forall st runs p, Inv st runs -> step_ok st runs p.
  Proof.
    intros [d [] n l] runs p H; unfold Inv in H; cbn [fsm dly cnt lim] in H.
    - apply wait_ok, H.
    - destruct H as (-> & k & rest & -> & <- & Hk1 & Hk2 & Hl). apply burst_ok; auto.
    - destruct H as (EP & -> & g & k & rest & -> & Hk & -> & Hr & Hl). apply repeat_ok; assumption.
  Qed.

  (* nothing happens to an empty envelope while the synchroniser still shifts out its reset value *)
  Lemma Inv_pad : forall st, Inv st [] ->
    Inv (fst (ld_core_step c st false)) [] /\ snd (ld_core_step c st false) = false.
  Proof.
    intros [d [] n l] H.
    - split; [intro; exact I | reflexivity].
    - destruct H as (_ & k & rest & E & _). discriminate.
    - destruct H as (_ & _ & g & k & rest & E & _). discriminate.
  Qed.

  (* whole detector: hist = earlier values of signaling_received, most recent first *)
  Definition FullInv (st : ld_state) (hist : list bool) : Prop :=
    s0 st = nth 0 hist false /\ s1 st = nth 1 hist false /\ Inv (core st) (rle (skipn 2 hist)).

  Definition implied (o s : N) : Prop := o = 1 -> s = 1.

  Lemma ld_sound_gen : forall tr st hist, FullInv st hist ->
    Forall2 implied (run (ld_step c) st tr) (spec_trace c hist tr).
  Proof.
    induction tr as [|i t IH]; intros st hist (E0 & E1 & HI); cbn [run spec_trace]; [constructor|].
    assert (Hnext : Inv (fst (ld_core_step c (core st) (s1 st))) (rle (skipn 2 (N.odd i :: hist))) /\
                    (snd (ld_core_step c (core st) (s1 st)) = true ->
                     spec_detect c (skipn 2 (N.odd i :: hist)) = true)).
    { rewrite E1. destruct hist as [|x [|y hist']]; cbn [nth]; [| | exact (Inv_step _ _ y HI)];
        destruct (Inv_pad _ HI) as [A B]; (split; [exact A | rewrite B; discriminate]). }
    unfold ld_step at 1. destruct (ld_core_step c (core st) (s1 st)) as [core' d], Hnext as [HI' Hd].
    constructor.
    - destruct d; [intros _; rewrite Hd; reflexivity | discriminate].
    - apply IH. repeat split; [destruct hist; exact E0 | exact HI'].
  Qed.

  Theorem ld_sound : forall tr, Forall2 implied (run (ld_step c) ld_init tr) (spec_trace c [] tr).
  Proof. intro tr. apply ld_sound_gen. unfold FullInv. cbn. repeat split; try apply Inv_init. Qed.

  Lemma full_core : forall bits st x y,
    run (ld_step c) st (map b2n bits ++ [x; y]) = map b2n (trun (ld_core_step c) (core st) (s1 st :: s0 st :: bits)).
  Proof.
    induction bits as [|b t IH]; intros st x y; cbn [map app run trun]; unfold ld_step at 1;
      destruct (ld_core_step c (core st) (s1 st)) as [c1 d1].
    - unfold ld_step. cbn [s0 s1 core]. destruct (ld_core_step c c1 (s0 st)) as [c2 d2]. reflexivity.
    - rewrite IH. cbn [s0 s1 core map trun]. destruct b; reflexivity.
  Qed.

  Lemma ld_last : forall bits p x y,
    last (run (ld_step c) ld_init (map b2n (bits ++ [p]) ++ [x; y])) 0 =
    b2n (snd (ld_core_step c (tstate (ld_core_step c) ld_core_init (false :: false :: bits)) p)).
  Proof.
    intros. rewrite full_core. cbn [s0 s1 core ld_init]. rewrite !app_comm_cons, trun_app, map_app. cbn [trun].
    destruct (ld_core_step c _ p). apply last_last.
  Qed.

  Lemma hold_run : forall (p : bool) m st, fsm st = (if p then BURST else REPEAT) ->
    (p = false -> periodic c = true) -> cnt st + N.of_nat m <= (if p then bmax c else rmax c) ->
    tstate (ld_core_step c) st (repeat p m) =
    {| dly := dly st; fsm := fsm st; cnt := cnt st + N.of_nat m; lim := lim st |}.
  Proof.
    induction m as [|m IH]; intros st Hf EP Hc.
    - destruct st. cbn. rewrite N.add_0_r. reflexivity.
    - replace (S m) with (m + 1)%nat by lia. rewrite repeat_app, tstate_app, IH by (auto; lia).
      cbn [repeat tstate]. unfold ld_core_step. rewrite Hf.
      destruct p; cbn [fsm cnt lim dly negb]; [| destruct (Hper (EP eq_refl))];
        rewrite (proj2 (N.eqb_neq _ _)) by lia; cbn [fst]; rewrite N.mod_small by lia; f_equal; lia.
  Qed.

  (* the detector sees the next rising edge *)
  Definition armed (st : ld_core) : Prop := fsm st = REPEAT \/ (fsm st = WAIT /\ dly st = false).

  Lemma burst_run : forall st k, armed st -> 1 <= k <= bmax c ->
    exists d, tstate (ld_core_step c) st (repeat true (N.to_nat k)) =
              {| dly := d; fsm := BURST; cnt := k; lim := lim (fst (ld_core_step c st true)) |}.
  Proof.
    intros st k Ha Hk. replace (N.to_nat k) with (S (N.to_nat (k - 1))) by lia. cbn [repeat tstate].
    assert (exists d l, fst (ld_core_step c st true) = {| dly := d; fsm := BURST; cnt := 1; lim := l |}) as (d & l & ->).
    { destruct st as [d f n l], Ha as [H | [H1 H2]]; cbn [fsm dly] in *; subst; cbn; eauto. }
    rewrite (hold_run true); cbn [fsm cnt lim dly]; auto; [| discriminate | lia]. exists d. f_equal. lia.
  Qed.

  Lemma period_run : forall st k g, periodic c = true -> armed st ->
    1 <= k -> 1 <= g -> bmin c <= k <= bmax c -> k + g <= rmax c ->
    exists d, tstate (ld_core_step c) st (repeat true (N.to_nat k) ++ repeat false (N.to_nat g)) =
              {| dly := d; fsm := REPEAT; cnt := k + g; lim := lim (fst (ld_core_step c st true)) |}.
  Proof.
    intros st k g EP Ha Hk Hg Hb Hr. destruct (Hper EP) as [Hr1 Hr2].
    rewrite tstate_app. destruct (burst_run st k Ha) as [d ->]; [lia|].
    replace (N.to_nat g) with (S (N.to_nat (g - 1))) by lia. cbn [repeat tstate].
    unfold ld_core_step at 2. cbn [fsm cnt lim dly negb].
    assert (E : (k <? bmin c) = false) by lia. rewrite E, EP. cbn [fst].
    rewrite (hold_run false); cbn [fsm cnt lim dly]; auto; rewrite N.mod_small by lia; [|lia].
    exists d. f_equal. lia.
  Qed.

  (* idle cycles after which the detector is armed: a time-out of REPEAT falls back to WAIT with a stale dly = 1,
     which the first WAIT cycle clears *)
  Definition to_arm (st : ld_core) : N :=
    match fsm st with WAIT => b2n (dly st) | BURST => rmax c + 2 | REPEAT => rmax c - cnt st + 2 end.

  Lemma to_arm_step : forall st runs, Inv st runs -> to_arm (fst (ld_core_step c st false)) <= to_arm st - 1.
  Proof.
    intros [d [] n l] runs H; unfold Inv in H; cbn [fsm dly cnt lim] in H; pose proof (b2n_lt2 d);
      unfold to_arm, ld_core_step; cbn [fsm dly cnt lim negb andb fst].
    - apply N.le_0_l.
    - destruct H as (_ & k & rest & _ & <- & Hk1 & Hk2 & _).
      destruct (n <? bmin c); [| destruct (periodic c) eqn:EP]; cbn [fst fsm dly cnt]; [lia | | lia].
      destruct (Hper eq_refl). rewrite N.mod_small by lia. lia.
    - destruct H as (EP & _ & g & k & rest & _ & _ & -> & Hr & _). destruct (Hper EP).
      destruct (k + g =? rmax c) eqn:E; cbn [fst fsm dly cnt]; [lia | rewrite N.mod_small by lia; lia].
  Qed.

  Lemma quiet_arms : forall m st runs, Inv st runs -> to_arm st <= N.of_nat m ->
    armed (tstate (ld_core_step c) st (repeat false m)).
  Proof.
    induction m as [|m IH]; intros st runs H Hm; cbn [repeat tstate].
    - destruct st as [[] [] n l]; cbn in Hm; try lia; [right; auto | left; reflexivity..].
    - apply (IH _ (push false runs)); [apply Inv_step, H | pose proof (to_arm_step st runs H); lia].
  Qed.

  Lemma to_arm_le : forall st, to_arm st <= rmax c + 2.
  Proof. intros [[] [] n l]; cbn; lia. Qed.

  Lemma Inv_run : forall ps st runs, Inv st runs ->
    Inv (tstate (ld_core_step c) st ps) (fold_left (fun r p => push p r) ps runs).
  Proof. induction ps as [|p t IH]; intros st runs H; cbn [tstate fold_left]; [exact H | apply IH, Inv_step, H]. Qed.

  (* quiet_end pre: the envelope `pre` (oldest cycle first) is empty or ends with rmax + 2 idle cycles *)
  Definition quiet_end (pre : list bool) : Prop :=
    pre = [] \/ exists pre' m, pre = pre' ++ repeat false m /\ rmax c + 2 <= N.of_nat m.

  Lemma quiet_end_armed : forall pre, quiet_end pre ->
    armed (tstate (ld_core_step c) ld_core_init (false :: false :: pre)).
  Proof.
    intros pre [-> | (pre' & m & -> & Hm)].
    - right. cbn. auto.
    - rewrite !app_comm_cons, tstate_app. apply (quiet_arms _ _ _ (Inv_run _ _ _ Inv_init)).
      eapply N.le_trans; [apply to_arm_le | exact Hm].
  Qed.

  (* whole detector (inputs = signaling_received words; x, y = the two cycles of synchroniser latency) *)
  Theorem ld_complete_periodic : periodic c = true -> forall pre k1 g1 k2 g2 x y, quiet_end pre ->
    1 <= k1 -> 1 <= g1 -> 1 <= k2 -> 1 <= g2 ->
    bmin c <= k1 <= bmax c -> rmin c <= k1 + g1 <= rmax c ->
    bmin c <= k2 <= bmax c -> rmin c <= k2 + g2 <= rmax c ->
    last (run (ld_step c) ld_init
           (map b2n (pre ++ repeat true (N.to_nat k1) ++ repeat false (N.to_nat g1) ++
                     repeat true (N.to_nat k2) ++ repeat false (N.to_nat g2) ++ [true]) ++ [x; y])) 0 = 1.
  Proof.
    intros EP pre k1 g1 k2 g2 x y Hq K1 G1 K2 G2 B1 R1 B2 R2. apply quiet_end_armed in Hq.
    rewrite !app_assoc, ld_last, <- !app_assoc, !app_comm_cons, tstate_app.
    set (st := tstate _ _ (false :: false :: pre)) in *.
    rewrite (app_assoc (repeat true _)), tstate_app.
    destruct (period_run st k1 g1) as [d1 ->]; auto; [lia|].
    destruct (period_run {| dly := d1; fsm := REPEAT; cnt := k1 + g1; lim := lim (fst (ld_core_step c st true)) |} k2 g2)
      as [d2 ->]; auto; [left; reflexivity | lia |].
    change 1 with (b2n true). f_equal. cbn. lia.
  Qed.

  Theorem ld_complete_single : periodic c = false -> forall pre k x y, quiet_end pre ->
    1 <= k -> bmin c <= k <= bmax c ->
    last (run (ld_step c) ld_init (map b2n (pre ++ repeat true (N.to_nat k) ++ [false]) ++ [x; y])) 0 = 1.
  Proof.
    intros EP pre k x y Hq K B. apply quiet_end_armed in Hq.
    rewrite !app_assoc, ld_last, !app_comm_cons, tstate_app.
    destruct (burst_run _ k Hq) as [d ->]; [lia|].
    unfold ld_core_step at 1. cbn [fsm cnt lim dly negb].
    assert (E : (k <? bmin c) = false) by lia. rewrite E, EP. reflexivity.
  Qed.
End Detector.

Section GenSpec.
  Variables B R : N.
  Hypothesis HB : 1 <= B.
  Hypothesis HBR : B < R.

  Lemma lgs_steady : forall (b : bool) ins k rest, k + N.of_nat (length ins) < R ->
    (if b then k + N.of_nat (length ins) <= B else B <= k) ->
    run (lgs_step B R) (Some k) (ins ++ rest) =
    repeat (lg_word false true b) (length ins) ++ run (lgs_step B R) (Some (k + N.of_nat (length ins))) rest.
  Proof.
    intro b. induction ins as [|i t IH]; intros k rest H Hb.
    - cbn. rewrite N.add_0_r. reflexivity.
    - cbn [length] in H, Hb. cbn [app run lgs_step length repeat].
      assert (E1 : (k + 1 =? R) = false) by lia. assert (E2 : (k <? B) = b) by (destruct b; lia).
      rewrite E1, E2, IH by (destruct b; lia). do 4 f_equal. lia.
  Qed.

  (* from idle, a cycle with generate = 1 followed by ANY R cycles produces exactly one period and ends idle *)
  Theorem lgs_period : forall i b1 b2 x rest, N.odd i = true ->
    length b1 = N.to_nat B -> length b2 = N.to_nat (R - B - 1) ->
    run (lgs_step B R) None ((i :: b1 ++ b2 ++ [x]) ++ rest) = lg_period B R ++ run (lgs_step B R) None rest.
  Proof.
    intros i b1 b2 x rest Hi L1 L2. unfold lg_period.
    cbn [app run]. unfold lgs_step at 1. rewrite Hi. f_equal.
    rewrite <- !app_assoc, (lgs_steady true), L1 by lia. f_equal.
    rewrite (lgs_steady false), L2 by lia. f_equal.
    remember (0 + N.of_nat (N.to_nat B) + N.of_nat (N.to_nat (R - B - 1))) as k eqn:Ek. cbn [app run lgs_step].
    assert (E1 : (k + 1 =? R) = true) by lia. assert (E2 : (k <? B) = false) by lia.
    rewrite E1, E2. reflexivity.
  Qed.

  (* while generate is held: n periods of R+1 cycles each *)
  Theorem lgs_held_spec : forall n, run (lgs_step B R) None (repeat 1 (n * N.to_nat (R + 1))) =
                                    concat (repeat (lg_period B R) n).
  Proof.
    induction n as [|n IH]; [reflexivity|].
    cbn [Nat.mul concat repeat]. rewrite repeat_app, <- IH. generalize (repeat 1 (n * N.to_nat (R + 1))) as rest.
    intro rest. replace (N.to_nat (R + 1)) with (S (N.to_nat B + (N.to_nat (R - B - 1) + 1))) by lia.
    cbn [repeat]. rewrite !repeat_app. apply lgs_period; [reflexivity | apply repeat_length..].
  Qed.
End GenSpec.

Section GenProofs.
  Variables B R w : N.
  Hypothesis HB : 1 <= B.
  Hypothesis HBR : B < R.
  Hypothesis Hw : R <= 2 ^ w.

  Lemma lg_period_length : length (lg_period B R) = N.to_nat (R + 1).
  Proof. unfold lg_period. rewrite !app_length, !repeat_length. cbn. lia. Qed.

  Definition lg_rel (st : lg_state) (p : option N) : Prop :=
    match gfsm st, p with
    | G_IDLE, None => True
    | G_BURST, Some k => gcnt st = k /\ k < B
    | G_WAIT, Some k => gcnt st = k /\ B <= k /\ k < R
    | _, _ => False
    end.

  Lemma lg_rel_step : forall st p i, lg_rel st p ->
    lg_rel (fst (lg_step B R w st i)) (fst (lgs_step B R p i)) /\
    snd (lg_step B R w st i) = snd (lgs_step B R p i).
  Proof.
    intros [f n] p i H. unfold lg_rel in H. cbn [gfsm gcnt] in H.
    unfold lg_step, lgs_step. cbn [gfsm gcnt].
    destruct f, p as [k|]; try contradiction.
    - cbn [fst snd]. split; [|reflexivity]. unfold lg_rel. destruct (N.odd i); cbn; [lia | exact I].
    - destruct H as [-> Hk]. cbn [fst snd].
      assert (E1 : (k + 1 =? R) = false) by lia. assert (E2 : (k <? B) = true) by lia.
      rewrite E1, E2. split; [|reflexivity]. unfold lg_rel. cbn [gfsm gcnt].
      rewrite N.mod_small by lia. destruct (k + 1 =? B) eqn:E; lia.
    - destruct H as (-> & Hk1 & Hk2).
      assert (E2 : (k <? B) = false) by lia. rewrite E2.
      destruct (k + 1 =? R) eqn:E; cbn [fst snd]; (split; [|reflexivity]); unfold lg_rel; cbn [gfsm gcnt].
      + exact I.
      + rewrite N.mod_small by lia. lia.
  Qed.

  Theorem lg_refines : forall tr st p, lg_rel st p ->
    run (lg_step B R w) st tr = run (lgs_step B R) p tr.
  Proof. exact (sim_run_all _ _ _ lg_rel_step). Qed.

  Corollary lg_from_reset : forall tr, run (lg_step B R w) lg_init tr = run (lgs_step B R) None tr.
  Proof. intro tr. apply lg_refines. exact I. Qed.
End GenProofs.

(* for the lock-step tie to the netlist (props/C42.py) *)
Definition ld_wf (st : ld_state) : Prop := True.

Lemma ld_dec_enc : forall st, ld_dec (ld_enc st) = st.
Proof.
  intros [a b [d f n l]]. unfold ld_dec, ld_enc. cbn [s0 s1 core dly fsm cnt lim]. cbv zeta.
  rewrite !(digit_div 2), !(digit_mod 2), !b2n_eqb1 by apply b2n_lt2.
  rewrite (digit_div 4), (digit_mod 4) by (destruct f; reflexivity). destruct f; reflexivity.
Qed.

Definition lg_wf (st : lg_state) : Prop := True.
Lemma lg_dec_enc : forall st, lg_dec (lg_enc st) = st.
Proof.
  intros [f n]. unfold lg_dec, lg_enc. cbn [gfsm gcnt].
  rewrite (digit_div 4), (digit_mod 4) by (destruct f; reflexivity). destruct f; reflexivity.
Qed.

(* input words of the tie theorems are 1-bit *)
Lemma b2n_words : forall l x y, x < 2 -> y < 2 -> Forall (fun i => i < 2 ^ N.of_nat 1) (map b2n l ++ [x; y]).
Proof.
  intros l x y Hx Hy. apply Forall_app. split.
  - apply Forall_map, Forall_forall. intros [] _; reflexivity.
  - repeat constructor; assumption.
Qed.
