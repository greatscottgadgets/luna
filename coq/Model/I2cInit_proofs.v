(* C52 -- the I2C initiator model (Model/I2cInit.v).  sinv says that busy is low only in IDLE (busy_low_only_idle)
   and where SCL is in the two phases in which SDA may move (sda_discipline); ginv relates the state to a ghost
   record of SDA at the SCL rises and of the samples taken, and in IDLE says what a write and a read put on the bus
   (write_correct, read_correct).  group_entry, idle_accepts and stretch_holds are read off i2c_next, without an
   invariant.  The state packing stands last. *)
From Coq Require Import NArith PeanoNat List Bool Lia.
Import ListNotations.
From LunaLib Require Import Netlist Bits Machine BitFacts ListFacts.
From LunaModel Require Import I2cInit.
Open Scope N_scope.

Lemma msb8_length : forall d, length (msb8 d) = 8%nat.
Proof. intros d. unfold msb8. rewrite rev_length. apply N2bits_length. Qed.

Lemma shin_length : forall l b n, length l = S n -> length (shin l b) = S n.
Proof. intros l b n H. rewrite <- H. apply tl_snoc_length. lia. Qed.

(* The branches of i2c_next: in IDLE by the request of highest priority (five cases, the last: none); in a
   group by phase and strobe and, for SclH without strobe, by whether SCL is seen high, which is where the
   groups differ. *)
Ltac by_request i :=
  destruct (in_start i) eqn:?; [|destruct (in_stop i) eqn:?; [|destruct (in_write i) eqn:?; [|destruct (in_read i) eqn:?]]].
Ltac by_phase g k s st :=
  destruct k; destruct (stb st) eqn:?; [..| destruct (sclh_done s st) eqn:?; [destruct g|] | |].

Lemma i2c_wf_next : forall q s st i, i2c_wf st -> i2c_wf (i2c_next q s st i).
Proof.
  intros q s st i (Hb & Hw & Hr & Hd). unfold i2c_wf, i2c_next.
  assert (M : (bitno st + 1) mod 8 < 8) by (apply N.mod_lt; discriminate).
  pose proof (shin_length (w_shreg st) false 7 Hw). pose proof (shin_length (r_shreg st) (sda_i st) 7 Hr).
  pose proof (msb8_length (in_data i)).
  destruct (fsm st) as [|g k].
  - by_request i; cbn [bitno w_shreg r_shreg data_o]; auto.
  - by_phase g k s st; try destruct g; cbn [bitno w_shreg r_shreg data_o]; auto.
Qed.

Lemma i2c_wf_init : i2c_wf i2c_init.
Proof. unfold i2c_wf, i2c_init. cbn. repeat split; reflexivity. Qed.

(* The first conjunct is C52's busy_low_only_idle; nothing else here needs it.  The second: SCL is released in IDLE and
   through Sda2, held low through Sda1; Sda1 and Sda2 are the two phases whose strobe may move SDA. *)
Definition sinv (st : i2c_state) : Prop :=
  (busy st = false -> fsm st = Idle) /\
  match fsm st with
  | Idle => scl_o st = true
  | Ph _ Sda1 => scl_o st = false
  | Ph _ Sda2 => scl_o st = true
  | _ => True
  end.

Lemma sinv_init : sinv i2c_init.
Proof. split; [discriminate | reflexivity]. Qed.

Lemma sinv_busy : forall st g k, sinv st -> fsm st = Ph g k -> busy st = true.
Proof. intros st g k (Hb & _) F. destruct (busy st); [reflexivity|]. rewrite Hb in F by reflexivity. discriminate. Qed.

Section Safety.
  Variable q : N.
  Variable stretch : bool.

  Lemma sclh_done_true : forall st, sclh_done stretch st = true ->
    scl_o st = true /\ (stretch = true -> scl_i st = true) /\ stb st = false.
  Proof.
    intros st. unfold sclh_done. destruct (stb st), (scl_o st); try discriminate. cbn [negb andb].
    intros D. repeat split. intros S. rewrite S in D. exact D.
  Qed.

  Lemma sinv_next : forall st i, sinv st -> sinv (i2c_next q stretch st i).
  Proof.
    intros st i S. pose proof (sinv_busy st) as Bz. pose proof S as (_ & Hs). unfold sinv, i2c_next.
    destruct (fsm st) as [|g k] eqn:F.
    - (* Idle *)
      by_request i; cbn [fsm busy scl_o]; (split; [discriminate || reflexivity|]); try assumption; try exact I.
      + destruct (scl_i st && sda_i st); [assumption | destruct (negb (scl_i st)); exact I].
      + destruct (scl_i st && negb (sda_o st)); [assumption | destruct (negb (scl_i st)); exact I].
    - rewrite (Bz g k S eq_refl). clear Bz.
      by_phase g k stretch st; cbn [fsm busy scl_o];
        try (split; [discriminate | first [exact I | reflexivity | assumption]]).
      (* SclH left: SCL has been released *)
      1-6: split; [discriminate | apply sclh_done_true; assumption].
      (* Sda2 left *)
      split; [discriminate|]. unfold after_sda2. destruct g; try assumption; destruct (bitno st =? 7); exact I.
  Qed.

  Lemma sinv_reachable : forall tr, sinv (run_state (i2c_step q stretch) i2c_init tr).
  Proof. intro tr. apply run_state_inv; [intros st i; apply sinv_next | exact sinv_init]. Qed.

  Lemma sda_discipline_step : forall st i, sinv st ->
    let st' := i2c_next q stretch st i in
    sda_o st' <> sda_o st ->
    (scl_o st = false /\ scl_o st' = false /\ exists g, fsm st = Ph g Sda1) \/
    (scl_o st = true /\ scl_o st' = true /\
       ((fsm st = Ph GStart Sda2 /\ sda_o st = true /\ sda_o st' = false) \/
        (fsm st = Ph GStop Sda2 /\ sda_o st = false /\ sda_o st' = true))).
  Proof.
    intros st i (_ & Hs) st' Hd. subst st'. unfold i2c_next in *.
    destruct (fsm st) as [|g k].
    - by_request i; contradiction Hd; reflexivity.
    - by_phase g k stretch st;
        cbn [sda_o scl_o] in *; try (contradiction Hd; reflexivity).
      + (* the strobe of Sda1 *) left. eauto.
      + (* the strobe of Sda2 *) right. do 2 (split; [exact Hs|]).
        destruct g; try (contradiction Hd; reflexivity); [left | right];
          (destruct (sda_o st); [|]; try (contradiction Hd; reflexivity); auto).
  Qed.

  (* C52: SDA moves only with SCL held low, or as the SDA edge of a START (falling) or STOP (rising) sequence *)
  Theorem sda_discipline : forall tr i,
    let st := run_state (i2c_step q stretch) i2c_init tr in
    let st' := i2c_next q stretch st (i2c_decode i) in
    sda_o st' <> sda_o st ->
    (scl_o st = false /\ scl_o st' = false /\ exists g, fsm st = Ph g Sda1) \/
    (scl_o st = true /\ scl_o st' = true /\
       ((fsm st = Ph GStart Sda2 /\ sda_o st = true /\ sda_o st' = false) \/
        (fsm st = Ph GStop Sda2 /\ sda_o st = false /\ sda_o st' = true))).
  Proof. intros tr i. apply sda_discipline_step, sinv_reachable. Qed.

  (* the request that enters group g from IDLE, by priority start > stop > write > read *)
  Definition requested (g : i2c_group) (i : i2c_in) : Prop :=
    match g with
    | GStart => in_start i = true
    | GStop => in_start i = false /\ in_stop i = true
    | GWData => in_start i = false /\ in_stop i = false /\ in_write i = true
    | GRData => in_start i = false /\ in_stop i = false /\ in_write i = false /\ in_read i = true
    | GWAck | GRAck => False
    end.

  Lemma idle_next : forall st i, fsm st = Idle ->
    let st' := i2c_next q stretch st i in
    ((in_start i || in_stop i || in_write i || in_read i) = false /\ fsm st' = Idle) \/
    (exists g k, fsm st' = Ph g k /\ requested g i /\ busy st' = true).
  Proof.
    intros st i F. unfold i2c_next. rewrite F.
    by_request i; cbn [fsm busy orb]; [right; exists GStart | right; exists GStop | right; exists GWData | right; exists GRData | left; auto].
    - destruct (scl_i st && sda_i st); [|destruct (negb (scl_i st))]; eexists; repeat split; assumption.
    - destruct (scl_i st && negb (sda_o st)); [|destruct (negb (scl_i st))]; eexists; repeat split; assumption.
    - eexists; repeat split; assumption.
    - eexists; repeat split; assumption.
  Qed.

  Theorem group_entry : forall st i g k, fsm (i2c_next q stretch st i) = Ph g k ->
    (exists k0, fsm st = Ph g k0) \/ (fsm st = Idle /\ requested g i) \/
    (g = GWAck /\ fsm st = Ph GWData Sda2 /\ bitno st = 7) \/ (g = GRAck /\ fsm st = Ph GRData Sda2 /\ bitno st = 7).
  Proof.
    intros st i g k H. destruct (fsm st) as [|g0 k0] eqn:F.
    - right. left. split; [reflexivity|].
      destruct (idle_next st i F) as [(_ & E) | (g' & k' & E & R & _)]; rewrite E in H; [discriminate|].
      injection H as <- _. exact R.
    - unfold i2c_next in H. rewrite F in H.
      by_phase g0 k0 stretch st;
        cbn [fsm] in H; try (injection H as <- _; eauto).
      unfold after_sda2 in H.
      destruct g0; try discriminate; destruct (bitno st =? 7) eqn:E; injection H as <- _; eauto;
        apply N.eqb_eq in E; right; right; [left | right]; auto.
  Qed.

  Theorem busy_low_only_idle : forall tr,
    let st := run_state (i2c_step q stretch) i2c_init tr in busy st = false -> fsm st = Idle.
  Proof. intros tr st. exact (proj1 (sinv_reachable tr)). Qed.

  Theorem idle_accepts : forall st i, fsm st = Idle ->
    (in_start i || in_stop i || in_write i || in_read i) = true ->
    exists g k, fsm (i2c_next q stretch st i) = Ph g k /\ requested g i /\ busy (i2c_next q stretch st i) = true.
  Proof.
    intros st i F R. destruct (idle_next st i F) as [(N & _) | A]; [|exact A]. rewrite N in R. discriminate.
  Qed.

  Definition ctrl_eq (a b : i2c_state) : Prop :=
    fsm a = fsm b /\ timer a = timer b /\ busy a = busy b /\ bitno a = bitno b /\ w_shreg a = w_shreg b /\
    r_shreg a = r_shreg b /\ data_o a = data_o b /\ r_ack a = r_ack b /\ ack_o a = ack_o b /\
    scl_o a = scl_o b /\ sda_o a = sda_o b.

  Lemma stretch_step : forall st i, stretch = true -> fsm st <> Idle -> busy st = true -> timer st <> 0 ->
    scl_o st = true -> scl_i st = false ->
    let st' := i2c_next q stretch st i in ctrl_eq st' st /\ scl_s0 st' = in_scl i /\ scl_i st' = scl_s0 st.
  Proof.
    intros st i S F B T So Si. unfold ctrl_eq, i2c_next, timer_next, sclh_done, stb.
    apply N.eqb_neq in T. rewrite T, B, So, Si, S. cbn [negb orb andb eqb].
    destruct (fsm st) as [|g k]; [contradiction|]. destruct k; cbn; repeat split; reflexivity.
  Qed.

  Lemma ctrl_eq_trans : forall a b c, ctrl_eq a b -> ctrl_eq b c -> ctrl_eq a c.
  Proof.
    unfold ctrl_eq. intros a b c (? & ? & ? & ? & ? & ? & ? & ? & ? & ? & ?) (? & ? & ? & ? & ? & ? & ? & ? & ? & ? & ?).
    repeat split; congruence.
  Qed.

  (* C52: with clk_stretch, while SCL is released but seen low, everything but the input synchronisers is frozen *)
  Theorem stretch_holds : forall tr st, stretch = true -> fsm st <> Idle -> busy st = true -> timer st <> 0 ->
    scl_o st = true -> scl_s0 st = false -> scl_i st = false ->
    Forall (fun i => in_scl (i2c_decode i) = false) tr ->
    ctrl_eq (run_state (i2c_step q stretch) st tr) st.
  Proof.
    induction tr as [|i t IH]; intros st S F B T So S0 Si H.
    - cbn. unfold ctrl_eq. repeat split; reflexivity.
    - inversion H as [|a b Hi Ht]; subst a b. cbn [run_state i2c_step fst].
      destruct (stretch_step st (i2c_decode i) S F B T So Si) as (E & N0 & N1).
      pose proof E as (E1 & E2 & E3 & _ & _ & _ & _ & _ & _ & E10 & _).
      apply ctrl_eq_trans with (2 := E). apply IH; try assumption; congruence.
  Qed.
End Safety.

(* The SCL pulses of an operation, seen from phase k of the pulse in progress: R is SDA at the rises of the
   earlier pulses, v the value SDA is given for this one.  Its rise is recorded in the SclH step that
   releases SCL. *)
Definition rises_at (k : i2c_phase) (st : i2c_state) (rises R : list bool) (v : bool) : Prop :=
  match k with
  | SclL | Sda1 => rises = R
  | SclH => sda_o st = v /\ rises = R ++ (if scl_o st then [v] else [])
  | Sda2 => rises = R ++ [v]
  end.

(* data bits dealt with, of which bitno is the one in progress: in Sda2 it has been shifted / sampled *)
Definition done_bits (k : i2c_phase) (j : nat) : nat := match k with Sda2 => S j | _ => j end.

Definition ginv (st : i2c_state) (g : ghost) : Prop :=
  let d := g_data g in let a := g_ack g in
  let j := N.to_nat (bitno st) in
  match fsm st with
  | Idle => bitno st = 0 /\
      match g_op g with
      | OpWrite => length d = 8%nat /\ g_rises g = d ++ [true] /\ exists s, g_samples g = [s] /\ ack_o st = negb s
      | OpRead => length (g_samples g) = 8%nat /\ data_o st = g_samples g /\ g_rises g = repeat true 8 ++ [negb a]
      | _ => True
      end
  | Ph GStart _ => g_op g = OpStart /\ bitno st = 0
  | Ph GStop _ => g_op g = OpStop /\ bitno st = 0
  | Ph GWData k =>
      (g_op g = OpWrite /\ length d = 8%nat /\ g_samples g = [] /\
       w_shreg st = skipn (done_bits k j) d ++ repeat false (done_bits k j)) /\
      rises_at k st (g_rises g) (firstn j d) (nth j d false)
  | Ph GWAck k =>
      (g_op g = OpWrite /\ length d = 8%nat /\ bitno st = 0 /\
       match k with Sda2 => exists s, g_samples g = [s] /\ ack_o st = negb s | _ => g_samples g = [] end) /\
      rises_at k st (g_rises g) d true
  | Ph GRData k =>
      (g_op g = OpRead /\ r_ack st = a /\ length (g_samples g) = done_bits k j /\
       exists pre, r_shreg st = pre ++ g_samples g) /\
      rises_at k st (g_rises g) (repeat true j) true
  | Ph GRAck k =>
      (g_op g = OpRead /\ r_ack st = a /\ bitno st = 0 /\ length (g_samples g) = 8%nat /\
       r_shreg st = g_samples g /\ match k with Sda2 => data_o st = g_samples g | _ => True end) /\
      rises_at k st (g_rises g) (repeat true 8) (negb a)
  end.

Lemma ginv_init : ginv i2c_init ghost0.
Proof. unfold ginv. cbn. auto. Qed.

Section GhostProofs.
  Variable q : N.
  Variable stretch : bool.

  Ltac prj := cbn [fsm timer busy bitno w_shreg r_shreg data_o r_ack ack_o scl_o sda_o scl_s0 scl_i sda_s0 sda_i
                   g_op g_data g_ack g_rises g_samples].

  (* For a state whose FSM position F gives: names the next state st', with E saying what it is, and leaves in G
     the clause of ginv for F.  (Unfolding i2c_next inside ginv instead would copy it once per field.) *)
  Ltac step_of F G :=
    unfold ghost_next, accepted, samples_now; rewrite F;
    remember (i2c_next _ _ _ _) as st' eqn:E; unfold i2c_next in E; rewrite F in E;
    unfold ginv in G; rewrite F in G.

  Lemma ginv_idle : forall st i g, fsm st = Idle -> ginv st g ->
    ginv (i2c_next q stretch st i) (ghost_next q stretch st i g).
  Proof.
    intros st i g F G. step_of F G. destruct G as (B0 & G).
    by_request i; subst st'; unfold ginv; prj.
    - destruct (scl_i st && sda_i st); [|destruct (negb (scl_i st))]; prj; auto.
    - destruct (scl_i st && negb (sda_o st)); [|destruct (negb (scl_i st))]; prj; auto.
    - rewrite B0. repeat split.
    - rewrite B0. repeat split. exists (r_shreg st). apply eq_sym, app_nil_r.
    - rewrite andb_negb_l, !app_nil_r. auto.
  Qed.

  (* In a group the ghost is only appended to.  Waiting for the strobe changes nothing the invariant
     mentions; SclL and Sda1 share their clause. *)
  Lemma ginv_scll : forall st i g grp, fsm st = Ph grp SclL -> ginv st g ->
    ginv (i2c_next q stretch st i) (ghost_next q stretch st i g).
  Proof.
    intros st i g grp F G. step_of F G.
    destruct (stb st); subst st'; unfold ginv; destruct grp; prj;
      rewrite ?andb_false_r, ?andb_negb_l; cbv iota; rewrite ?app_nil_r; exact G.
  Qed.

  Lemma ginv_sda1 : forall st i g grp, fsm st = Ph grp Sda1 -> bitno st < 8 -> scl_o st = false -> ginv st g ->
    ginv (i2c_next q stretch st i) (ghost_next q stretch st i g).
  Proof.
    intros st i g grp F Wb So G. step_of F G.
    destruct (stb st); subst st'; unfold ginv, rises_at; destruct grp; prj; rewrite ?So; cbn [negb andb];
      rewrite ?app_nil_r; try exact G;
      (split; [exact (proj1 G) | split; [|exact (proj2 G)]]); unfold sda1_value; try reflexivity.
    - destruct G as ((_ & Gd & _ & Gw) & _). rewrite Gw. cbn [done_bits]. rewrite (skipn_cons_nth _ _ false) by lia. reflexivity.
    - destruct G as ((_ & Ga & _) & _). rewrite Ga. reflexivity.
  Qed.

  Lemma rises_released : forall st st' rises R v, scl_o st' = true -> sda_o st' = sda_o st ->
    rises_at SclH st rises R v ->
    rises_at SclH st' (rises ++ (if negb (scl_o st) && scl_o st' then [sda_o st] else [])) R v.
  Proof.
    intros st st' rises R v So' Sd (Gv & Gp). unfold rises_at. rewrite So', Sd, andb_true_r, Gv.
    split; [reflexivity|]. subst rises. destruct (scl_o st); cbn [negb]; rewrite app_nil_r; reflexivity.
  Qed.

  Lemma ginv_sclh : forall st i g grp, fsm st = Ph grp SclH -> i2c_wf st -> ginv st g ->
    ginv (i2c_next q stretch st i) (ghost_next q stretch st i g).
  Proof.
    intros st i g grp F (Wb & _ & Wr & _) G. step_of F G.
    destruct (stb st) eqn:T; [|destruct (sclh_done stretch st) eqn:D].
    - assert (D : sclh_done stretch st = false) by (unfold sclh_done; rewrite T; reflexivity).
      subst st'. unfold ginv. destruct grp; prj; rewrite ?D, ?app_nil_r; try exact G;
        (split; [exact (proj1 G) | apply rises_released; [reflexivity | reflexivity | exact (proj2 G)]]).
    - (* SCL is seen high: sample or shift; no rise, SCL was released already *)
      destruct (sclh_done_true stretch st D) as (So & _).
      subst st'. unfold ginv, rises_at in *. destruct grp; prj; rewrite ?So in *; cbn [negb andb]; rewrite ?app_nil_r;
        try exact G; destruct G as (Gr & _ & Gp); (split; [|exact Gp]).
      + destruct Gr as (G1 & G2 & G3 & G4). repeat split; try assumption.
        unfold shl0. rewrite G4. cbn [done_bits]. rewrite (skipn_cons_nth _ _ false) by lia. cbn [tl app].
        rewrite <- app_assoc, <- repeat_cons. reflexivity.
      + destruct Gr as (G1 & G2 & G3 & G4). repeat split; try assumption.
        exists (sda_i st). rewrite G4. split; reflexivity.
      + destruct Gr as (G1 & G2 & G3 & pre & G4). repeat split; try assumption.
        * rewrite app_length, G3. apply Nat.add_1_r.
        * (* eight bits hold the fewer samples: the shift drops none of them *)
          destruct pre as [|p pre]; [exfalso; rewrite G4 in Wr; cbn [app done_bits] in *; lia|].
          exists pre. unfold shin. rewrite G4. apply eq_sym, app_assoc.
      + destruct Gr as (G1 & G2 & G3 & G4 & G5 & _). repeat split; assumption.
    - subst st'. unfold ginv. destruct grp; prj; rewrite ?andb_negb_l, ?app_nil_r; exact G.
  Qed.

  Lemma bitno_succ : forall b, b < 8 -> b <> 7 -> (b + 1) mod 8 = b + 1 /\ N.to_nat (b + 1) = S (N.to_nat b).
  Proof. intros b H E. split; [apply N.mod_small|]; lia. Qed.

  Lemma ginv_sda2 : forall st i g grp, fsm st = Ph grp Sda2 -> i2c_wf st -> ginv st g ->
    ginv (i2c_next q stretch st i) (ghost_next q stretch st i g).
  Proof.
    intros st i g grp F (Wb & _ & Wr & _) G. step_of F G. unfold after_sda2 in E.
    destruct (stb st); subst st'; unfold ginv, rises_at in *; destruct grp; prj; rewrite ?andb_negb_l, ?app_nil_r;
      try exact G.
    - destruct G as (-> & B0). auto.
    - destruct G as (-> & B0). auto.
    - destruct G as ((G1 & G2 & G3 & G4) & G5). rewrite <- (firstn_succ _ _ false) in G5 by lia.
      destruct (N.eqb_spec (bitno st) 7) as [B|B].
      + rewrite B in *. rewrite firstn_all2 in G5 by (rewrite G2; apply le_n). repeat split; assumption.
      + destruct (bitno_succ _ Wb B) as (-> & ->). repeat split; assumption.
    - destruct G as ((-> & G2 & G3 & G4) & G5). auto.
    - destruct G as ((G1 & G2 & G3 & pre & G4) & G5). rewrite <- repeat_cons in G5.
      destruct (N.eqb_spec (bitno st) 7) as [B|B].
      + rewrite B in *.
        (* eight samples fill the register *)
        destruct pre as [|p pre]; [|exfalso; rewrite G4, app_length, G3 in Wr; cbn [length done_bits] in Wr; lia].
        repeat split; assumption.
      + destruct (bitno_succ _ Wb B) as (-> & ->). repeat split; eauto.
    - destruct G as ((-> & G2 & G3 & G4 & G5 & G6) & G7). auto.
  Qed.

  Lemma ginv_next : forall st i g, i2c_wf st -> sinv st -> ginv st g ->
    ginv (i2c_next q stretch st i) (ghost_next q stretch st i g).
  Proof.
    intros st i g W (_ & Ss) G. destruct (fsm st) as [|grp k] eqn:F; [apply ginv_idle; assumption|].
    destruct k.
    - apply (ginv_scll st i g grp); assumption.
    - apply (ginv_sda1 st i g grp); try assumption. apply W.
    - apply (ginv_sclh st i g grp); assumption.
    - apply (ginv_sda2 st i g grp); assumption.
  Qed.

  Lemma inv_reachable_from : forall tr st g, i2c_wf st -> sinv st -> ginv st g ->
    ginv (fst (grun q stretch st g tr)) (snd (grun q stretch st g tr)).
  Proof.
    induction tr as [|i t IH]; intros st g W S G; [exact G|].
    apply IH; [apply i2c_wf_next, W | apply sinv_next, S | apply ginv_next; assumption].
  Qed.

  Lemma ginv_reachable : forall tr,
    ginv (fst (grun q stretch i2c_init ghost0 tr)) (snd (grun q stretch i2c_init ghost0 tr)).
  Proof. intros tr. apply inv_reachable_from; [exact i2c_wf_init | exact sinv_init | exact ginv_init]. Qed.

  Lemma grun_state : forall tr st g, fst (grun q stretch st g tr) = run_state (i2c_step q stretch) st tr.
  Proof. induction tr as [|i t IH]; intros st g; [reflexivity|]. cbn [grun run_state i2c_step fst]. apply IH. Qed.

  (* C52: a write is nine SCL pulses, the data MSB first then SDA released, and ack_o the complement of the one sample *)
  Theorem write_correct : forall tr,
    let st := fst (grun q stretch i2c_init ghost0 tr) in
    let g := snd (grun q stretch i2c_init ghost0 tr) in
    fsm st = Idle -> g_op g = OpWrite ->
    length (g_data g) = 8%nat /\ g_rises g = g_data g ++ [true] /\
    exists s, g_samples g = [s] /\ ack_o st = negb s.
  Proof.
    intros tr st g F O. pose proof (ginv_reachable tr) as G.
    fold st g in G. unfold ginv in G. rewrite F, O in G. exact (proj2 G).
  Qed.

  (* C52: a read is nine SCL pulses, SDA released for eight then (not ack_i); data_o holds the eight samples, first in MSB *)
  Theorem read_correct : forall tr,
    let st := fst (grun q stretch i2c_init ghost0 tr) in
    let g := snd (grun q stretch i2c_init ghost0 tr) in
    fsm st = Idle -> g_op g = OpRead ->
    length (g_samples g) = 8%nat /\ data_o st = g_samples g /\
    g_rises g = repeat true 8 ++ [negb (g_ack g)].
  Proof.
    intros tr st g F O. pose proof (ginv_reachable tr) as G.
    fold st g in G. unfold ginv in G. rewrite F, O in G. exact (proj2 G).
  Qed.

  Theorem samples_scl_high : forall st, samples_now stretch st = true ->
    scl_o st = true /\ (stretch = true -> scl_i st = true) /\ stb st = false.
  Proof.
    intros st H. apply sclh_done_true. unfold samples_now in H.
    destruct (fsm st) as [|g k]; [discriminate|]. destruct g, k; try discriminate; exact H.
  Qed.

  Theorem registers_change_only_by_sampling : forall st i,
    samples_now stretch st = false ->
    r_shreg (i2c_next q stretch st i) = r_shreg st /\ ack_o (i2c_next q stretch st i) = ack_o st.
  Proof.
    intros st i H. unfold samples_now in H. unfold i2c_next.
    destruct (fsm st) as [|g k].
    - by_request i; split; reflexivity.
    - by_phase g k stretch st; try (split; reflexivity); rewrite H in *; discriminate.
  Qed.
End GhostProofs.

Lemma ipk_spec : forall w a r, ipk w a r = a + 2^w * r.
Proof. intros. unfold ipk. rewrite N.shiftl_mul_pow2. apply f_equal, N.mul_comm. Qed.

Lemma ipk_mod : forall w a r, a < 2^w -> N.land (ipk w a r) (N.ones w) = a.
Proof. exact unpair_lo. Qed.

Lemma ipk_div : forall w a r, a < 2^w -> N.shiftr (ipk w a r) w = r.
Proof. exact unpair_hi. Qed.

Lemma ipkb_odd : forall b r, N.odd (ipk 1 (b2n b) r) = b.
Proof. intros. rewrite ipk_spec. apply odd_b2n_add_2. Qed.

Lemma ipkb_div : forall b r, N.div2 (ipk 1 (b2n b) r) = r.
Proof. intros. rewrite ipk_spec. apply div2_b2n_add_2. Qed.

Lemma fsm_code_lt : forall f, fsm_code f < 2^5.
Proof. intros [|g k]; [reflexivity|]. destruct g, k; reflexivity. Qed.

Lemma fsm_of_code : forall f, fsm_of (fsm_code f) = f.
Proof. intros [|g k]; [reflexivity|]. destruct g, k; reflexivity. Qed.

Lemma of_msb_lt : forall l, length l = 8%nat -> of_msb l < 2^8.
Proof. intros l. exact (bits2N_rev_lt l 8). Qed.

Lemma msb8_of_msb : forall l, length l = 8%nat -> msb8 (of_msb l) = l.
Proof. intros l. exact (rev_N2bits_bits2N_rev l 8). Qed.

Lemma i2c_dec_enc : forall st, i2c_wf st -> i2c_dec (i2c_enc st) = st.
Proof.
  intros [f t bz bn w r d ra ao sc sd c0 c1 d0 d1] (Hb & Hw & Hr & Hd).
  cbn [bitno w_shreg r_shreg data_o] in *. unfold i2c_enc, i2c_dec. cbv zeta.
  cbn [fsm timer busy bitno w_shreg r_shreg data_o r_ack ack_o scl_o sda_o scl_s0 scl_i sda_s0 sda_i].
  change (bn < 2^3) in Hb.
  (* dec peels the fields off in the order enc stacked them: FSM code, busy, bit number, three octets,
     eight flags; what is left is the timer *)
  rewrite ipk_mod, ipk_div, ipkb_odd, ipkb_div by apply fsm_code_lt.
  rewrite ipk_mod, ipk_div by exact Hb.
  do 3 rewrite ipk_mod, ipk_div by (apply of_msb_lt; assumption).
  do 8 rewrite ipkb_odd, ipkb_div.
  rewrite fsm_of_code, !msb8_of_msb by assumption. reflexivity.
Qed.

Lemma i2c_wf_step : forall q s st i, i2c_wf st -> i2c_wf (fst (i2c_step q s st i)).
Proof. intros. unfold i2c_step. cbn [fst]. apply i2c_wf_next. assumption. Qed.
