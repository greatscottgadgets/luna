(* C50 -- proofs about the SPI device model (Model/SpiDev.v): the code-shaped model with the bit counter
   restarting per word has the outputs of the specification (simulation relation `rel`); what the specification
   does in one step (sp_count), in two (sp_report) and along a transaction (sp_tx_in_order); and the packing
   facts the lock-step obligations need. *)
From Coq Require Import NArith PeanoNat List Bool Lia.
Import ListNotations.
From LunaLib Require Import Netlist Bits Machine BitFacts ListFacts.
From LunaModel Require Import SpiDev.
Open Scope N_scope.

Lemma succ_eqb_of_nat : forall n m, (N.of_nat n + 1 =? N.of_nat m) = Nat.eqb (S n) m.
Proof.
  intros n m. destruct (Nat.eqb (S n) m) eqn:E.
  - apply Nat.eqb_eq in E. apply N.eqb_eq. lia.
  - apply Nat.eqb_neq in E. apply N.eqb_neq. lia.
Qed.

Section SpiProofs.
  Variable c : spi_cfg.
  Hypothesis Hws : (1 <= ws c)%nat.

  Lemma in_wout_length : forall i, length (in_wout c i) = ws c.
  Proof. intros. apply N2bits_length. Qed.

  Lemma shift_in_length : forall b rx, length rx = ws c -> length (shift_in c b rx) = ws c.
  Proof. intros b rx H. rewrite <- H. unfold shift_in. destruct (msb c); [apply cons_removelast_length | apply tl_snoc_length]; lia. Qed.

  Lemma shift_out_length : forall tx, length tx = ws c -> length (shift_out c tx) = ws c.
  Proof. intros tx H. rewrite <- H. unfold shift_out. destruct (msb c); [apply cons_removelast_length | apply tl_snoc_length]; lia. Qed.

  Lemma edges_exclusive : forall prev i, sample_edge c prev i && output_edge c prev i = false.
  Proof.
    intros. unfold sample_edge, output_edge, leading, trailing.
    destruct (cpha c), prev, (sclk c i); reflexivity.
  Qed.

  Lemma cnt_no_wrap : forall n, (S n < ws c)%nat -> (N.of_nat n + 1) mod 2 ^ cnt_width c = N.of_nat (S n).
  Proof.
    (* `clear Hws`, here and below: `lia` takes Hws into its term whether it needs it or not, and after `End`
       the lemma would ask for it *)
    intros n H. clear Hws. unfold cnt_width. rewrite mod_pow2_size; lia.
  Qed.

  (* The bits sampled so far (`acc`, newest first) sit at the end of the register where sdi enters. *)
  Definition collected (acc rx : list bool) : Prop :=
    length rx = ws c /\
    if msb c then firstn (length acc) rx = acc else skipn (ws c - length acc) rx = rev acc.

  Lemma collected_nil : forall rx, length rx = ws c -> collected [] rx.
  Proof.
    intros rx H. clear Hws. split; [exact H|]. destruct (msb c); [reflexivity|].
    cbn [length]. rewrite Nat.sub_0_r. apply skipn_all2. lia.
  Qed.

  Lemma collected_shift : forall b acc rx, (length acc < ws c)%nat -> collected acc rx ->
    collected (b :: acc) (shift_in c b rx).
  Proof.
    intros b acc rx Hn [L H]. split; [apply shift_in_length, L|].
    unfold shift_in. cbn [length rev]. destruct (msb c).
    - cbn [firstn]. rewrite firstn_removelast, H by lia. reflexivity.
    - destruct rx as [|x rx]; [cbn in L; lia|]. cbn [tl length] in *.
      replace (ws c - length acc)%nat with (S (ws c - S (length acc))) in H by lia. cbn [skipn] in H.
      rewrite skipn_app, H. replace (ws c - S (length acc) - length rx)%nat with 0%nat by lia. reflexivity.
  Qed.

  Lemma collected_full : forall acc rx, length acc = ws c -> collected acc rx -> rx = word_bits c acc.
  Proof.
    intros acc rx E [L H]. unfold word_bits. rewrite E in H. destruct (msb c).
    - rewrite <- H, <- L. symmetry. apply firstn_all.
    - rewrite Nat.sub_diag in H. exact H.
  Qed.

  (* word_accepted marks the cycle in which current_rx is the pending word *)
  Definition rel_collect (st : d_state) (sp : sp_state) : Prop :=
    d_cnt st = N.of_nat (length (s_acc sp)) /\ (length (s_acc sp) < ws c)%nat /\ collected (s_acc sp) (d_rx st) /\
    s_pend sp = if d_wa st then Some (d_rx st) else None.

  Definition rel_report (st : d_state) (sp : sp_state) : Prop := d_win st = s_win sp /\ d_wc st = s_wc sp.

  Lemma rel_collect_next : forall st sp i, d_clk st = s_clk sp -> rel_collect st sp ->
    rel_collect (d_next true c st i) (sp_next c sp i).
  Proof.
    intros st sp i Hc (Hcnt & Hn & Hcol & _).
    pose proof (collected_nil _ (proj1 Hcol)) as Hclr.
    pose proof (collected_shift (in_sdi i) _ _ Hn Hcol) as Hsh.
    unfold rel_collect, d_next, sp_next. cbn [d_cnt d_rx d_wa s_acc s_pend].
    rewrite <- Hc, Hcnt, succ_eqb_of_nat.
    destruct (selected c i); cbn [negb andb orb]; [|exact (conj eq_refl (conj Hws (conj Hclr eq_refl)))].
    destruct (sample_edge c (d_clk st) i); cbn [negb andb orb];
      [|exact (conj eq_refl (conj Hn (conj Hcol eq_refl)))].
    destruct (Nat.eqb (S (length (s_acc sp))) (ws c)) eqn:E; cbn [negb andb orb].
    - (* the sample edge that completes the word *)
      apply Nat.eqb_eq in E. rewrite <- (collected_full (in_sdi i :: s_acc sp) _ E Hsh).
      exact (conj eq_refl (conj Hws (conj (collected_nil _ (proj1 Hsh)) eq_refl))).
    - apply Nat.eqb_neq in E.
      split; [apply cnt_no_wrap; lia | split; [cbn [length]; lia | exact (conj Hsh eq_refl)]].
  Qed.

  Lemma rel_report_next : forall fixed st sp i, rel_collect st sp -> rel_report st sp ->
    rel_report (d_next fixed c st i) (sp_next c sp i).
  Proof.
    intros fixed st sp i (_ & _ & _ & Hp) (Hwin & Hwc). unfold rel_report.
    cbn [d_next sp_next d_win d_wc s_win s_wc]. rewrite Hp. destruct (d_wa st); split; reflexivity || assumption.
  Qed.

  (* the shift register `tx` after `j` output edges since `w` was latched *)
  Definition loaded (w : list bool) (j : nat) (tx : list bool) : Prop :=
    length tx = ws c /\
    forall p, (p < ws c)%nat ->
      nth p tx false = nth (if msb c then p - j else Nat.min (p + j) (ws c - 1)) w false.

  Lemma loaded_latch : forall w, length w = ws c -> loaded w 0 w.
  Proof. intros w H. clear Hws. split; [exact H|]. intros p Hp. f_equal. destruct (msb c); lia. Qed.

  Lemma out_bit_nth : forall tx, length tx = ws c ->
    out_bit c tx = nth (if msb c then ws c - 1 else 0) tx false.
  Proof.
    intros tx H. unfold out_bit. destruct (msb c); [rewrite last_nth, H; reflexivity | destruct tx; reflexivity].
  Qed.

  Lemma nth_shift_out : forall tx p, length tx = ws c -> (p < ws c)%nat ->
    nth p (shift_out c tx) false = nth (if msb c then p - 1 else Nat.min (S p) (ws c - 1)) tx false.
  Proof.
    intros tx p H Hp. clear Hws. unfold shift_out. destruct (msb c).
    - destruct p as [|p]; [destruct tx; reflexivity|].
      cbn [nth Nat.sub]. rewrite Nat.sub_0_r. apply nth_removelast. lia.
    - assert (Lt : length (tl tx) = (ws c - 1)%nat) by (change (tl tx) with (skipn 1 tx); rewrite skipn_length; lia).
      destruct (Nat.eq_dec (S p) (ws c)) as [E|E].
      + rewrite app_nth2, Lt by lia. replace (p - (ws c - 1))%nat with 0%nat by lia.
        cbn [nth]. rewrite last_nth, H. f_equal. lia.
      + rewrite app_nth1, nth_tl by lia. f_equal. lia.
  Qed.

  Lemma loaded_shift : forall w j tx, loaded w j tx -> loaded w (S j) (shift_out c tx).
  Proof.
    intros w j tx [L H]. split; [apply shift_out_length, L|]. intros p Hp.
    rewrite nth_shift_out, H by (assumption || destruct (msb c); lia). f_equal. destruct (msb c); lia.
  Qed.

  Lemma loaded_out : forall w j tx, loaded w j tx -> out_bit c tx = tx_bit c w j.
  Proof.
    intros w j tx [L H]. rewrite out_bit_nth, H by (assumption || destruct (msb c); lia).
    unfold tx_bit. destruct (msb c); f_equal; lia.
  Qed.

  Definition rel_tx (st : d_state) (sp : sp_state) : Prop :=
    d_sdo st = s_sdo sp /\ loaded (s_load sp) (s_sent sp) (d_tx st).

  Lemma rel_tx_next : forall st sp i, d_clk st = s_clk sp -> d_cnt st = N.of_nat (length (s_acc sp)) ->
    rel_tx st sp -> rel_tx (d_next true c st i) (sp_next c sp i).
  Proof.
    intros st sp i Hc Hcnt (Hs & Hl).
    pose proof (loaded_latch _ (in_wout_length i)) as Hlatch.
    pose proof (loaded_shift _ _ _ Hl) as Hsh.
    unfold rel_tx, d_next, sp_next. cbn [d_sdo d_tx s_sdo s_load s_sent].
    rewrite <- Hc, Hcnt, succ_eqb_of_nat, Hs, (loaded_out _ _ _ Hl). split; [reflexivity|].
    destruct (selected c i); cbn [negb andb orb]; [|exact Hlatch].
    pose proof (edges_exclusive (d_clk st) i) as X.
    destruct (sample_edge c (d_clk st) i); cbn [negb andb orb] in *.
    - rewrite X. destruct (Nat.eqb (S (length (s_acc sp))) (ws c)); assumption.
    - destruct (output_edge c (d_clk st) i); assumption.
  Qed.

  Definition rel (st : d_state) (sp : sp_state) : Prop :=
    d_clk st = s_clk sp /\ rel_collect st sp /\ rel_report st sp /\ rel_tx st sp.

  Lemma rel_init : rel (d_init c) (sp_init c).
  Proof.
    pose proof (repeat_length false (ws c)) as L. split; [reflexivity|]. split; [|split].
    - exact (conj eq_refl (conj Hws (conj (collected_nil _ L) eq_refl))).
    - split; reflexivity.
    - exact (conj eq_refl (loaded_latch _ L)).
  Qed.

  Lemma rel_out : forall st sp, rel st sp -> d_out c st = sp_out c sp.
  Proof.
    intros st sp (_ & (_ & _ & _ & Hp) & (Hwin & Hwc) & (Hs & _)).
    unfold d_out, sp_out. rewrite Hp, Hwin, Hwc, Hs. destruct (d_wa st); reflexivity.
  Qed.

  Lemma rel_next : forall st sp i, rel st sp -> rel (d_next true c st i) (sp_next c sp i).
  Proof.
    intros st sp i (Hc & Hr & Hp & Ht). split; [reflexivity|]. split; [|split].
    - apply rel_collect_next; assumption.
    - apply rel_report_next; assumption.
    - apply rel_tx_next; [exact Hc | exact (proj1 Hr) | exact Ht].
  Qed.

  Theorem spidev_refines : forall tr st sp, rel st sp ->
    run (d_step true c) st tr = run (sp_step c) sp tr.
  Proof. apply sim_run_all. intros st sp i H. split; [apply rel_next | apply rel_out]; exact H. Qed.

  Corollary spidev_from_reset : forall tr,
    run (d_step true c) (d_init c) tr = run (sp_step c) (sp_init c) tr.
  Proof. intros. apply spidev_refines. apply rel_init. Qed.
End SpiProofs.

Section SpecFacts.
  Variable c : spi_cfg.
  Hypothesis Hws : (1 <= ws c)%nat.

  Definition completes (sp : sp_state) (i : N) : bool :=
    selected c i && sample_edge c (s_clk sp) i && Nat.eqb (S (length (s_acc sp))) (ws c).

  (* C50: the number of collected bits counts sample edges modulo word_size and restarts with chip select *)
  Theorem sp_count : forall sp i, (length (s_acc sp) < ws c)%nat ->
    length (s_acc (sp_next c sp i)) =
      if negb (selected c i) then 0%nat
      else if sample_edge c (s_clk sp) i then (S (length (s_acc sp)) mod ws c)%nat
      else length (s_acc sp).
  Proof.
    intros sp i H. unfold sp_next. cbn [s_acc].
    destruct (selected c i); cbn [negb andb orb]; [|reflexivity].
    destruct (sample_edge c (s_clk sp) i); cbn [andb]; [|reflexivity].
    destruct (Nat.eqb (S (length (s_acc sp))) (ws c)) eqn:E.
    - apply Nat.eqb_eq in E. rewrite E, Nat.mod_same by lia. reflexivity.
    - apply Nat.eqb_neq in E. cbn [length]. rewrite Nat.mod_small by lia. reflexivity.
  Qed.

  (* C50: a completed word is flagged on word_accepted in the next cycle, on word_in with word_complete in the one after *)
  Theorem sp_report : forall sp i i1,
    let sp1 := sp_next c sp i in
    let sp2 := sp_next c sp1 i1 in
    is_some (s_pend sp1) = completes sp i /\
    s_wc sp2 = completes sp i /\
    (completes sp i = true -> s_win sp2 = word_bits c (in_sdi i :: s_acc sp)) /\
    (completes sp i = false -> s_win sp2 = s_win sp1).
  Proof.
    intros sp i i1. cbn zeta. unfold completes, sp_next. cbn [s_pend s_wc s_win].
    destruct (selected c i && sample_edge c (s_clk sp) i && Nat.eqb (S (length (s_acc sp))) (ws c));
      cbn [is_some]; repeat split; try reflexivity; discriminate.
  Qed.

  (* Transmit side, clock phase 1 (data changes on the leading edge, is sampled on the trailing edge).
     Synchronisation invariant of a transaction that starts with the clock at its idle level. *)
  Definition tx_inv (sp : sp_state) : Prop :=
    s_sent sp = (length (s_acc sp) + if s_clk sp then 1 else 0)%nat /\
    (s_clk sp = true -> s_sdo sp = tx_bit c (s_load sp) (length (s_acc sp))).

  Lemma tx_inv_establish : forall sp i, selected c i = false -> sclk c i = false -> tx_inv (sp_next c sp i).
  Proof.
    intros sp i Hs Hk. unfold tx_inv, sp_next. cbn [s_sent s_acc s_clk s_sdo s_load].
    rewrite Hs, Hk. cbn [negb andb orb length]. split; [reflexivity | discriminate].
  Qed.

  Lemma tx_inv_step : cpha c = true -> forall sp i, selected c i = true -> tx_inv sp -> tx_inv (sp_next c sp i).
  Proof.
    intros Hph sp i Hs [I1 I2]. clear Hws. unfold tx_inv, sp_next. cbn [s_sent s_acc s_clk s_sdo s_load].
    unfold sample_edge, output_edge, leading, trailing. rewrite Hph, Hs. cbn [negb andb orb].
    destruct (s_clk sp) eqn:Ek, (sclk c i) eqn:Ek'; cbn [negb andb orb] in *.
    - split; [exact I1 | intros _; apply I2; reflexivity].
    - destruct (Nat.eqb (S (length (s_acc sp))) (ws c)); cbn [length]; split; try discriminate; lia.
    - split; [lia|]. intros _. rewrite I1. f_equal. lia.
    - split; [exact I1 | discriminate].
  Qed.

  (* C50: from an unselected cycle with the clock idle, at every sample edge sdo is the next bit of the latched word *)
  Theorem sp_tx_in_order : cpha c = true ->
    forall ins sp i0, selected c i0 = false -> sclk c i0 = false -> Forall (fun i => selected c i = true) ins ->
    let sp' := run_state (sp_step c) sp (i0 :: ins) in
    forall i, selected c i = true -> sample_edge c (s_clk sp') i = true ->
    s_sdo sp' = tx_bit c (s_load sp') (length (s_acc sp')).
  Proof using Hws.   (* not needed; C50_tx_in_order is stated with it *)
    intros Hph ins sp i0 H0 H0k HF. cbn zeta.
    assert (Inv : tx_inv (run_state (sp_step c) sp (i0 :: ins))).
    { cbn [run_state sp_step fst].
      pose proof (tx_inv_establish sp i0 H0 H0k) as I. revert I. generalize (sp_next c sp i0).
      induction ins as [|j t IH]; intros s I; [exact I|].
      inversion HF as [|? ? Hj Ht]; subst. cbn [run_state sp_step fst]. apply IH; [exact Ht|].
      apply tx_inv_step; assumption. }
    intros i Hs He. destruct Inv as [_ I2]. apply I2.
    unfold sample_edge, trailing in He. rewrite Hph in He.
    destruct (s_clk (run_state (sp_step c) sp (i0 :: ins))); [reflexivity | discriminate].
  Qed.

  Lemma tx_bit_msb : msb c = true -> forall w j, tx_bit c w j = nth (ws c - 1 - j) w false.
  Proof. intros H w j. unfold tx_bit. rewrite H. reflexivity. Qed.
End SpecFacts.

Lemma d_dec_enc : forall c st, d_wf c st -> d_dec c (d_enc c st) = st.
Proof.
  intros c [clk cnt tx rx win wc wa sdo] (L1 & L2 & L3). unfold d_dec, d_enc.
  cbn [d_clk d_cnt d_tx d_rx d_win d_wc d_wa d_sdo] in *.
  pose proof (fun l => bits2N_lt_len l (ws c)) as B. pose proof (fun l => N2bits_bits2N_len l (ws c)) as W.
  set (k := 2 ^ N.of_nat (ws c)) in *.
  (* every component is one digit of the code: radix 2 for the four flags, then radix k for the words *)
  remember (bits2N tx + k * (bits2N rx + k * (bits2N win + k * cnt))) as r eqn:Er.
  replace (b2n clk + 2 * b2n wc + 4 * b2n wa + 8 * b2n sdo + 16 * r)
    with (b2n clk + 2 * (b2n wc + 2 * (b2n wa + 2 * (b2n sdo + 2 * r)))) by lia.
  change 16 with (2 * 2 * 2 * 2). change 8 with (2 * 2 * 2). change 4 with (2 * 2).
  rewrite <- !N.div_div by lia.
  rewrite !digit_div, !digit_mod, !b2n_eqb1 by apply b2n_lt2. subst r.
  rewrite !digit_div, !digit_mod, !W by auto. reflexivity.
Qed.

Lemma d_wf_step : forall fixed c, (1 <=? ws c)%nat = true ->
  forall st i, d_wf c st -> d_wf c (fst (d_step fixed c st i)).
Proof.
  intros fixed c Hws st i (L1 & L2 & L3). apply Nat.leb_le in Hws.
  cbn [d_step fst]. unfold d_wf, d_next. cbn [d_tx d_rx d_win].
  pose proof (in_wout_length c i) as Lw.
  pose proof (shift_out_length c Hws (d_tx st) L1) as Ls.
  pose proof (shift_in_length c Hws (in_sdi i) (d_rx st) L2) as Li.
  (* each register takes one of several values of the right length *)
  repeat split.
  - destruct (selected c i), (sample_edge c (d_clk st) i && (d_cnt st + 1 =? N.of_nat (ws c))),
      (output_edge c (d_clk st) i); assumption.
  - destruct (selected c i && sample_edge c (d_clk st) i); assumption.
  - destruct (d_wa st); assumption.
Qed.

Lemma d_wf_init : forall c, d_wf c (d_init c).
Proof. intros c. repeat split; apply repeat_length. Qed.
