(* C23 -- the ULPITransmitTranslator model (Model/UlpiTx.v).  The model satisfies the cycle-level contract on every
   input trace (tx_model_accepts; tx_inv: the contract's ghost tracks the FSM).  The contract implies the packet-level
   reading, PHY packets = translation of the UTMI transmissions (tx_packets; pk_rel relates the packets the two readings
   have open).  tx_model_packets puts both together.  tx_dec_enc, txg_dec_enc: packing for the lock-step obligation. *)
From Coq Require Import NArith List Bool Lia.
Import ListNotations.
From LunaLib Require Import Netlist Machine BitFacts.
From LunaModel Require Import UlpiTx.
Open Scope N_scope.

Lemma tx_view_pack : forall i r q d st b, d < 256 ->
  tx_view (i, tx_pack r q d st b) =
  {| c_data := ti_data i; c_valid := ti_valid i; c_mode := ti_mode i; c_ready := r;
     c_idle := ti_idle i; c_nxt := ti_nxt i; c_req := q; c_dout := d; c_stp := st; c_busy := b |}.
Proof.
  intros i r q d st b Hd. unfold tx_view, tx_pack.
  set (L := [(1, b2n r); (1, b2n q); (8, d); (1, b2n st); (1, b2n b)]).
  assert (HL : fields_ok L) by (repeat constructor; cbn [fst snd]; try apply b2n_lt2; assumption).
  replace (_ + _) with (fields_word L) by (subst L; cbn [fields_word]; lia).
  f_equal.
  - exact (testbit_fields_word L 0 r HL eq_refl).
  - exact (testbit_fields_word L 1 q HL eq_refl).
  - exact (bits_fields_word L 2 HL).
  - exact (testbit_fields_word L 3 st HL eq_refl).
  - exact (testbit_fields_word L 4 b HL eq_refl).
Qed.

(* The ghost tracks the FSM; inside a packet the bus is claimed; outside it is claimed if the transmission was
   already requested in the previous cycle, and not claimed if nothing was requested since the last packet. *)
Definition tx_inv (s : tx_state) (g : txg) : bool :=
  eqb (t_tx s) (g_tx g) &&
  (if g_tx g then t_req s else implb (g_rp g) (t_req s) && implb (negb (g_armed g)) (negb (t_req s))).

Lemma tx_bytes_lt : forall i (b : bool),
  ti_data i < 256 /\ (if b then 255 else 0) < 256 /\ TXCMD + (if b then 0 else ti_data i mod 16) < 256.
Proof.
  intros i b. assert (ti_data i mod 16 < 16) by (apply N.mod_lt; discriminate).
  repeat split; [apply bits_lt | destruct b; reflexivity | destruct b; unfold TXCMD; lia].
Qed.

Lemma tx_step_ok : forall s g i, tx_inv s g = true ->
  let c := tx_view (i, snd (tx_step s i)) in
  tx_env g c = true -> tx_ok g c && tx_inv (fst (tx_step s i)) (tx_gnext g c) = true.
Proof.
  intros [tx rq] [gt grp ga] i.
  destruct (tx_bytes_lt i (ti_mode i =? NO_BIT_STUFF)) as (Hd & Hs & Hc).
  destruct tx, gt, grp, ga, rq; try discriminate; intros _.
  (* In each branch of tx_step the cycle record is explicit.  The bytes that tx_ok compares are the same terms; the
     rest is a fact about the four input bits. *)
  all: unfold tx_step; cbv zeta; cbn [t_tx t_req]; destruct (ti_valid i) eqn:V, (ti_idle i) eqn:I; cbn [andb fst snd];
    rewrite tx_view_pack by (assumption || reflexivity);
    lazy beta iota zeta delta [tx_inv tx_env tx_ok tx_gnext txcmd_of c_rq c_nostuff txg0 t_tx t_req
      g_tx g_rp g_armed c_data c_valid c_mode c_ready c_idle c_nxt c_req c_dout c_stp c_busy];
    rewrite V, ?I; cbn [andb]; rewrite ?N.eqb_refl;
    destruct (ti_nxt i), (ti_mode i =? NO_BIT_STUFF); intro E; (discriminate E || reflexivity).
Qed.

Lemma ios_cons : forall (S : Type) (step : S -> N -> S * N) s i t,
  ios step s (i :: t) = (i, snd (step s i)) :: ios step (fst (step s i)) t.
Proof. intros. unfold ios. rewrite run_cons. reflexivity. Qed.

Theorem tx_model_accepts_from : forall tr s g, tx_inv s g = true ->
  tx_accepts g (map tx_view (ios tx_step s tr)) = true.
Proof.
  induction tr as [|i t IH]; intros s g H; [reflexivity|].
  rewrite ios_cons. cbn [map tx_accepts].
  destruct (tx_env g (tx_view (i, snd (tx_step s i)))) eqn:E; [|reflexivity].
  pose proof (tx_step_ok s g i H E) as K. apply andb_true_iff in K as [-> K]. exact (IH _ _ K).
Qed.

Theorem tx_model_accepts : forall tr, tx_accepts txg0 (map tx_view (ios tx_step tx_init tr)) = true.
Proof. intro tr. exact (tx_model_accepts_from tr tx_init txg0 eq_refl). Qed.

Lemma tx_strict_of : forall cs g, tx_accepts g cs = true -> tx_env_all g cs = true -> tx_strict g cs = true.
Proof.
  induction cs as [|c t IH]; intros g HA HE; [reflexivity|]. cbn in *.
  apply andb_true_iff in HE as [He Ht]. rewrite He in *. apply andb_true_iff in HA as [Hok Ha].
  rewrite Hok. cbn. apply IH; assumption.
Qed.

(* bytes the PHY has taken so far for a transmission of which UTMI has handed over l *)
Definition wbytes (m : N) (l : list N) : list N :=
  if m =? NO_BIT_STUFF then TXCMD :: l
  else match l with [] => [] | b0 :: r => (TXCMD + b0 mod 16) :: r end.

(* Between packets a UTMI transmission that has handed over nothing yet is read like none (utmi_nothing_yet), so the
   relation only has to speak of `None` there.  The first UTMI byte travels in the command, hence l <> [] once
   the command is taken -- except without bit stuffing. *)
Definition pk_rel (g : txg) (cp : option (list N)) (cu : option (N * list N)) : Prop :=
  if g_tx g then
    exists m l, cu = Some (m, l) /\ cp = Some (wbytes m l) /\ ((m =? NO_BIT_STUFF) = false -> l <> [])
  else cp = None /\ cu = None.

Lemma utmi_nothing_yet : forall m cs, utmi_ok (Some (m, [])) cs = true ->
  utmi_ok None cs = true /\ flat_map wire (utmi_tx (Some (m, [])) cs) = flat_map wire (utmi_tx None cs).
Proof.
  intros m [|c t] H; [split; reflexivity|]. cbn [utmi_ok utmi_tx] in *. destruct (c_valid c).
  - apply andb_true_iff in H as [Hm H]. apply N.eqb_eq in Hm. rewrite Hm. split; [exact H | reflexivity].
  - apply andb_true_iff in H as [_ H]. split; [exact H | reflexivity].
Qed.

Lemma is_txcmd_cmd : forall x, x < 16 -> is_txcmd (TXCMD + x) = true.
Proof. intros x H. unfold is_txcmd, TXCMD. apply andb_true_intro. split; [apply N.leb_le | apply N.ltb_lt]; lia. Qed.

Lemma is_txcmd_of : forall c, is_txcmd (txcmd_of c) = true.
Proof.
  intro c. unfold txcmd_of. apply is_txcmd_cmd. destruct (c_nostuff c); [lia | apply N.mod_lt; discriminate].
Qed.

Lemma wbytes_snoc : forall m l d, ((m =? NO_BIT_STUFF) = false -> l <> []) -> wbytes m l ++ [d] = wbytes m (l ++ [d]).
Proof.
  intros m l d H. unfold wbytes. destruct (m =? NO_BIT_STUFF); [reflexivity|].
  destruct l as [|b0 r]; [destruct (H eq_refl eq_refl) | reflexivity].
Qed.

Lemma wire_wbytes : forall m l, l <> [] -> wire (m, l) = [(wbytes m l, if m =? NO_BIT_STUFF then 255 else 0)].
Proof.
  intros m [|b0 r] H; [destruct (H eq_refl)|]. unfold wire, wbytes. cbn [fst snd].
  destruct (m =? NO_BIT_STUFF); reflexivity.
Qed.

(* One cycle of tx_packets_from, with the claim for the remaining cycles as a hypothesis. *)
Section Cycle.
  Variables (g : txg) (c : txc) (t : list txc).
  Hypothesis rest : forall cp cu, pk_rel (tx_gnext g c) cp cu -> utmi_ok cu t = true ->
    phy_tx cp t = flat_map wire (utmi_tx cu t).

  Lemma cycle_in_packet : forall m l, g_tx g = true -> ((m =? NO_BIT_STUFF) = false -> l <> []) ->
    tx_ok g c = true -> utmi_ok (Some (m, l)) (c :: t) = true ->
    phy_tx (Some (wbytes m l)) (c :: t) = flat_map wire (utmi_tx (Some (m, l)) (c :: t)).
  Proof.
    intros m l G Hne Hok HU. unfold tx_ok in Hok. unfold pk_rel, tx_gnext in rest. rewrite G in *.
    cbn [phy_tx utmi_tx utmi_ok] in *. apply andb_true_iff in Hok as [_ Hok].
    destruct (c_valid c); cbn [g_tx] in rest.
    - apply andb_true_iff in Hok as [Hok Hstp]. apply andb_true_iff in Hok as [Hd Hr].
      apply negb_true_iff in Hstp. apply N.eqb_eq in Hd. apply eqb_prop in Hr.
      apply andb_true_iff in HU as [_ HU]. rewrite Hstp, Hd. rewrite Hr in *.
      destruct (c_nxt c); [rewrite wbytes_snoc by exact Hne|]; (apply rest; [|exact HU]).
      + exists m, (l ++ [c_data c]). repeat split. intros _. destruct l; discriminate.
      + exists m, l. repeat split. exact Hne.
    - apply andb_true_iff in Hok as [-> Hd]. apply N.eqb_eq in Hd.
      apply andb_true_iff in HU as [HU1 HU]. apply andb_true_iff in HU1 as [Hm Hnn]. apply N.eqb_eq in Hm.
      (* the transmission that ends has handed over a byte: without bit stuffing by the UTMI discipline, else by Hne *)
      assert (Hl : l <> [])
        by (destruct (m =? NO_BIT_STUFF); [destruct l; [discriminate Hnn | discriminate] | exact (Hne eq_refl)]).
      cbn [flat_map]. rewrite (wire_wbytes m l Hl), Hd. unfold c_nostuff. rewrite Hm.
      cbn [app]. f_equal. apply rest; [split; reflexivity | exact HU].
  Qed.

  Lemma cycle_between : g_tx g = false -> tx_env g c = true -> tx_ok g c = true -> utmi_ok None (c :: t) = true ->
    phy_tx None (c :: t) = flat_map wire (utmi_tx None (c :: t)).
  Proof.
    intros G He Hok HU. unfold tx_env, tx_ok in He, Hok. unfold pk_rel, tx_gnext in rest. rewrite G in *.
    cbn [g_tx] in rest.
    apply andb_true_iff in Hok as [Hok _]. apply andb_true_iff in Hok as [Hok _].
    apply andb_true_iff in Hok as [Hok Hrdy]. apply andb_true_iff in Hok as [_ Hd]. apply N.eqb_eq in Hd.
    cbn [phy_tx utmi_tx utmi_ok] in *.
    replace (c_req c && c_idle c && c_nxt c && is_txcmd (c_dout c)) with (c_rq c && c_nxt c).
    2:{ rewrite Hd. unfold c_rq in *.
        destruct (c_valid c), (c_idle c), (c_nxt c), (c_req c); cbn [andb implb] in *;
          rewrite ?is_txcmd_of; reflexivity || discriminate. }
    destruct (c_rq c && c_nxt c) eqn:S.
    - (* command taken *)
      apply andb_true_iff in S as [S _]. rewrite S in *. apply andb_true_iff in S as [V _]. rewrite V in *.
      cbn [implb andb] in Hrdy. apply eqb_prop in Hrdy.
      apply rest; [|exact HU]. exists (c_mode c), (if c_ready c then [c_data c] else []).
      rewrite Hd, Hrdy. unfold txcmd_of, wbytes, c_nostuff.
      destruct (c_mode c =? NO_BIT_STUFF); cbn [negb]; rewrite ?N.add_0_r; repeat split; discriminate.
    - (* nothing taken: UTMI has handed over nothing *)
      destruct (c_valid c).
      + cbn [implb] in Hrdy. apply eqb_prop in Hrdy. cbn [andb] in Hrdy. rewrite Hrdy in *.
        destruct (utmi_nothing_yet _ _ HU) as [HU' ->]. apply rest; [split; reflexivity | exact HU'].
      + apply rest; [split; reflexivity | exact HU].
  Qed.
End Cycle.

Theorem tx_packets_from : forall cs g cp cu, pk_rel g cp cu ->
  tx_strict g cs = true -> utmi_ok cu cs = true ->
  phy_tx cp cs = flat_map wire (utmi_tx cu cs).
Proof.
  induction cs as [|c t IH]; intros g cp cu R HS HU; [reflexivity|].
  cbn [tx_strict] in HS. apply andb_true_iff in HS as [HS Ht]. apply andb_true_iff in HS as [He Hok].
  assert (rest := fun cp cu R => IH (tx_gnext g c) cp cu R Ht).
  unfold pk_rel in R. destruct (g_tx g) eqn:G.
  - destruct R as (m & l & -> & -> & Hne). apply (cycle_in_packet g); assumption.
  - destruct R as [-> ->]. apply (cycle_between g); assumption.
Qed.

Theorem tx_packets : forall cs, tx_strict txg0 cs = true -> utmi_ok None cs = true ->
  phy_tx None cs = flat_map wire (utmi_tx None cs).
Proof. intros cs. apply (tx_packets_from cs txg0 None None). split; reflexivity. Qed.

Corollary tx_model_packets : forall tr,
  let cs := map tx_view (ios tx_step tx_init tr) in
  tx_env_all txg0 cs = true -> utmi_ok None cs = true ->
  phy_tx None cs = flat_map wire (utmi_tx None cs).
Proof.
  intros tr cs HE HU. apply tx_packets; [|exact HU].
  apply tx_strict_of; [apply tx_model_accepts | exact HE].
Qed.

Lemma tx_dec_enc : forall s, tx_dec (tx_enc s) = s.
Proof. intros [[] []]; reflexivity. Qed.

Lemma txg_dec_enc : forall g, txg_dec (txg_enc g) = g.
Proof. intros [[] [] []]; reflexivity. Qed.
