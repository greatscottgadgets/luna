(* C40 -- the DataPacketReceiver model (Model/DataRx.v).  drx_sim (drx_real_events for the real CRC units): for every
   input history the observable events of the model equal the events of the specification parser run over the VALID
   words only, so invalid words never matter; drx_rel places a model state at a state of the parser.  What the
   specification says about one packet with valid header CRCs and no ctrl symbol on a payload byte (sp_good_packet:
   exactly one report, after the beats, good iff the CRC-32 matches) then holds of the model: drx_packet_reported_once.
   The rest serves the lock-step obligations: packing of states and outputs, and the control core as the full model
   without its header output. *)
From Coq Require Import NArith Arith List Bool Lia ZifyBool.
Import ListNotations.
From LunaLib Require Import Netlist Bits Machine PackN ListFacts.
From LunaModel Require Import Crc Crc_proofs DataRx.
Open Scope N_scope.

(* Words and their bytes.  The module shifts and merges 32-bit words; the specification speaks of byte
   strings.  The two meet in `drx_le`: a window of whole bytes of `drx_le l` is `drx_le` of a sublist of l
   (drx_le_window), and a word glued from two such windows is `drx_le` of the two sublists (drx_le_merge).   *)
Fixpoint drx_bytes (l : list N) : Prop := match l with [] => True | b :: t => b < 256 /\ drx_bytes t end.

Lemma drx_bytes4_bytes : forall w, drx_bytes (drx_bytes4 w).
Proof. intro w. repeat split; apply (bits_lt w _ 8). Qed.

Lemma drx_le_word : forall w, w < 4294967296 -> drx_le (drx_bytes4 w) = w.
Proof.
  intros w H. transitivity (bits w 0 32); [|apply bits_small; exact H].
  rewrite (bits_split w 0 8 24 : bits w 0 32 = bits w 0 8 + 256 * bits w 8 24),
    (bits_split w 8 8 16 : bits w 8 24 = bits w 8 8 + 256 * bits w 16 16),
    (bits_split w 16 8 8 : bits w 16 16 = bits w 16 8 + 256 * bits w 24 8).
  cbn [drx_bytes4 drx_le]. rewrite N.mul_0_r, N.add_0_r. reflexivity.
Qed.

(* lets a proof speak of byte variables *)
Lemma drx_word_bytes : forall w, w < 4294967296 ->
  exists a b c d, drx_bytes [a; b; c; d] /\ drx_bytes4 w = [a; b; c; d] /\ w = drx_le [a; b; c; d].
Proof.
  intros w H. exists (bits w 0 8), (bits w 8 8), (bits w 16 8), (bits w 24 8).
  split; [apply drx_bytes4_bytes | split; [reflexivity | symmetry; apply (drx_le_word w H)]].
Qed.

Lemma drx_le_app : forall a b, drx_le (a ++ b) = drx_le a + 2 ^ (8 * N.of_nat (length a)) * drx_le b.
Proof.
  induction a as [|x a IH]; intro b; cbn [app drx_le length].
  - rewrite N.mul_1_l. reflexivity.
  - rewrite IH, Nat2N.inj_succ, N.mul_succ_r, N.add_comm, N.pow_add_r. change (2 ^ 8) with 256. lia.
Qed.

Lemma bits_above_byte : forall b t lo n, b < 256 -> bits (b + 256 * t) (lo + 8) n = bits t lo n.
Proof.
  intros b t lo n H. rewrite !bits_spec, (N.add_comm lo 8), N.pow_add_r, <- N.div_div by apply pow2_nz.
  change (2 ^ 8) with 256. rewrite digit_div by exact H. reflexivity.
Qed.

Lemma drx_le_window : forall l i n, drx_bytes l ->
  bits (drx_le l) (8 * N.of_nat i) (8 * N.of_nat n) = drx_le (firstn n (skipn i l)).
Proof.
  induction l as [|b t IH]; intros i n H.
  - rewrite skipn_nil, firstn_nil. unfold bits. cbn [drx_le]. rewrite N.shiftr_0_l. reflexivity.
  - destruct H as [Hb Ht]. destruct i as [|i]; cbn [skipn drx_le].
    + destruct n as [|n]; [rewrite bits_spec; apply N.mod_1_r|]. cbn [firstn drx_le]. change (8 * N.of_nat 0) with 0.
      rewrite Nat2N.inj_succ, N.mul_succ_r, (N.add_comm _ 8), bits_split, bits_above_byte by exact Hb.
      rewrite bits_0, digit_mod by exact Hb. f_equal. f_equal. exact (IH 0%nat n Ht).
    + rewrite Nat2N.inj_succ, N.mul_succ_r, bits_above_byte by exact Hb. apply IH. exact Ht.
Qed.

Lemma drx_le_merge : forall P D i n j m, drx_bytes P -> drx_bytes D -> length (firstn n (skipn i P)) = n ->
  bits (drx_le P) (8 * N.of_nat i) (8 * N.of_nat n) + 2 ^ (8 * N.of_nat n) * bits (drx_le D) (8 * N.of_nat j) (8 * N.of_nat m)
  = drx_le (firstn n (skipn i P) ++ firstn m (skipn j D)).
Proof. intros P D i n j m HP HD Hl. rewrite !drx_le_window, drx_le_app, Hl by assumption. reflexivity. Qed.

Lemma drx_bytes4_le : forall a b c d, drx_bytes [a; b; c; d] -> drx_bytes4 (drx_le [a; b; c; d]) = [a; b; c; d].
Proof.
  intros a b c d H. unfold drx_bytes4.
  rewrite (drx_le_window _ 0 1 H : bits _ 0 8 = a + 0), (drx_le_window _ 1 1 H : bits _ 8 8 = b + 0),
    (drx_le_window _ 2 1 H : bits _ 16 8 = c + 0), (drx_le_window _ 3 1 H : bits _ 24 8 = d + 0), !N.add_0_r.
  reflexivity.
Qed.

Lemma drx_N2bits_byte : forall w lo, N2bits 8 (bits w lo 8) = N2bits 8 (N.shiftr w lo).
Proof.
  intros. apply N2bits_ext. intros i Hi. unfold bits. rewrite N.land_spec, N.ones_spec_low by exact Hi.
  apply andb_true_r.
Qed.

Lemma drx_bits_of_bytes4 : forall w k, (k <= 4)%nat ->
  bits_of_units 8 (firstn k (drx_bytes4 w)) = N2bits (8 * k) w.
Proof.
  intros w k Hk. unfold bits_of_units, drx_bytes4.
  assert (E1 : N2bits 8 (bits w 0 8) = N2bits 8 w) by (rewrite drx_N2bits_byte, N.shiftr_0_r; reflexivity).
  destruct k as [|[|[|[|[|k]]]]]; try lia; cbn [firstn flat_map Nat.mul Nat.add]; rewrite ?app_nil_r, ?drx_N2bits_byte, ?E1.
  - reflexivity.
  - reflexivity.
  - change 16%nat with (8 + 8)%nat. rewrite N2bits_app. reflexivity.
  - change 24%nat with (8 + (8 + 8))%nat. rewrite !N2bits_app, N.shiftr_shiftr. reflexivity.
  - change 32%nat with (8 + (8 + (8 + 8)))%nat. rewrite !N2bits_app, !N.shiftr_shiftr. reflexivity.
Qed.

Definition drx_reg16_of (ws : list N) : N := bits2N (crc_update poly16h (repeat true 16) (bits_of_units 32 ws)).
Definition drx_reg32_of (bs : list N) : N := bits2N (crc_update poly32 (repeat true 32) (bits_of_units 8 bs)).

Lemma drx_reg_bits : forall poly n msg, length poly = n ->
  N2bits n (bits2N (crc_update poly (repeat true n) msg)) = crc_update poly (repeat true n) msg.
Proof. intros poly n msg <-. apply N2bits_bits2N_len, crc_update_length, repeat_length. Qed.

(* What the proofs about the models (here and in Model/RawTx_proofs.v) ask of a pair of CRC units: after the words ws /
   the bytes bs the registers are r16 ws / r32 bs, and the units then put out h16 ws / c32f bs. *)
Set Implicit Arguments.
Record crc_tracks (U : crc_units) (h16 c32f r16 r32 : list N -> N) : Prop := {
  t16_init : r16 [] = u16_init U;
  t16_adv : forall ws w, u16_adv U (r16 ws) w = r16 (ws ++ [w]);
  t16_out : forall ws, u16_out U (r16 ws) = h16 ws;
  t32_init : r32 [] = u32_init U;
  t32_adv : forall bs k w, 1 <= k <= 4 -> u32_adv U (r32 bs) k w = r32 (bs ++ firstn (N.to_nat k) (drx_bytes4 w));
  t32_out : forall bs, u32_out U (r32 bs) = c32f bs }.
Unset Implicit Arguments.

Lemma drx_real_tracks : crc_tracks drx_real_units crc16_hdr crc32_usb drx_reg16_of drx_reg32_of.
Proof.
  split; try reflexivity; intros; cbn [u16_adv u16_out u32_adv u32_out drx_real_units]; unfold drx_reg16_of, drx_reg32_of.
  - rewrite (drx_reg_bits poly16h 16), bits_of_units_app, crc_update_app, bits_of_units_one by reflexivity. reflexivity.
  - rewrite (drx_reg_bits poly16h 16) by reflexivity. reflexivity.
  - rewrite (drx_reg_bits poly32 32), bits_of_units_app, crc_update_app, drx_bits_of_bytes4 by (reflexivity || lia).
    replace (N.to_nat (8 * k)) with (8 * N.to_nat k)%nat by lia. reflexivity.
  - rewrite (drx_reg_bits poly32 32) by reflexivity. reflexivity.
Qed.

Lemma drx_mask_ones : forall r, drx_mask r true = N.ones (N.min r 4).
Proof.
  intro r. unfold drx_mask. destruct (3 <? r) eqn:E.
  - replace (N.min r 4) with 4 by lia. reflexivity.
  - replace (N.min r 4) with r by lia. reflexivity.
Qed.

Lemma drx_nb_cases : forall nb, nb <= 4 -> nb = 0 \/ nb = 1 \/ nb = 2 \/ nb = 3 \/ nb = 4.
Proof. intros. lia. Qed.

Lemma drx_ones_eq0 : forall nb, nb <= 4 -> (N.ones nb =? 0) = (nb =? 0).
Proof. intros nb H. destruct (drx_nb_cases nb H) as [E|[E|[E|[E|E]]]]; subst; reflexivity. Qed.

Lemma drx_sel_ones : forall nb data, nb <= 4 ->
  drx_sel_bytes (N.ones nb) data = firstn (N.to_nat nb) (drx_bytes4 data).
Proof. intros nb data H. destruct (drx_nb_cases nb H) as [E|[E|[E|[E|E]]]]; subst; reflexivity. Qed.

Lemma drx_to_check_ok : forall nb pw data, nb <= 4 -> pw < 4294967296 -> data < 4294967296 ->
  drx_to_check (N.ones nb) pw data
  = drx_le (firstn 4 (skipn (N.to_nat nb) (drx_bytes4 pw ++ drx_bytes4 data))).
Proof.
  intros nb pw data H Hp Hd.
  destruct (drx_word_bytes pw Hp) as (a & b & c & d & HP & -> & ->).
  destruct (drx_word_bytes data Hd) as (e & f & g & h & HD & -> & ->).
  destruct (drx_nb_cases nb H) as [E|[E|[E|[E|E]]]]; subst nb.
  - reflexivity.
  - exact (drx_le_merge _ _ 1 3 0 1 HP HD eq_refl).
  - exact (drx_le_merge _ _ 2 2 0 2 HP HD eq_refl).
  - exact (drx_le_merge _ _ 3 1 0 3 HP HD eq_refl).
  - reflexivity.
Qed.

Lemma sp_pbytes_app : forall a b, sp_pbytes (a ++ b) = sp_pbytes a ++ sp_pbytes b.
Proof. intros. unfold sp_pbytes. rewrite map_app, flat_map_app. reflexivity. Qed.

Lemma sp_pbytes_cons : forall x a, sp_pbytes (x :: a) = drx_bytes4 (fst x) ++ sp_pbytes a.
Proof. reflexivity. Qed.

Lemma sp_pbytes_length : forall a, length (sp_pbytes a) = (4 * length a)%nat.
Proof.
  induction a as [|x a IH]; [reflexivity|]. rewrite sp_pbytes_cons, app_length, IH. cbn [drx_bytes4 length]. lia.
Qed.

Lemma sp_pbytes_cut : forall pre pw pc w nb, nb <= 4 ->
  let bs := sp_pbytes ((pre ++ [(pw, pc)]) ++ [w]) in
  let L := N.to_nat (4 * N.of_nat (length pre) + nb) in
  firstn L bs = sp_pbytes pre ++ firstn (N.to_nat nb) (drx_bytes4 pw) /\
  skipn L bs = skipn (N.to_nat nb) (drx_bytes4 pw ++ drx_bytes4 (fst w)).
Proof.
  intros pre pw pc w nb Hnb bs L. unfold bs. rewrite !sp_pbytes_app.
  change (sp_pbytes [(pw, pc)]) with (drx_bytes4 pw ++ []). change (sp_pbytes [w]) with (drx_bytes4 (fst w) ++ []).
  rewrite !app_nil_r, <- app_assoc.
  replace L with (length (sp_pbytes pre) + N.to_nat nb)%nat by (rewrite sp_pbytes_length; lia).
  rewrite firstn_app_2, <- skipn_skipn, (skipn_app_l _ _ _ eq_refl), firstn_app.
  replace (N.to_nat nb - length (drx_bytes4 pw))%nat with 0%nat by (cbn [drx_bytes4 length]; lia).
  rewrite firstn_O, app_nil_r. split; reflexivity.
Qed.

Lemma sp_more_succ : forall L k, sp_more L (k + 1) = (4 <? L - 4 * k).
Proof. intros. unfold sp_more. lia. Qed.

Lemma drx_runR_cons : forall U lw hd s i t,
  drx_runR U lw hd s (i :: t) = snd (drx_stepR U lw hd s i) :: drx_runR U lw hd (fst (drx_stepR U lw hd s i)) t.
Proof. intros. cbn [drx_runR]. destruct (drx_stepR U lw hd s i). reflexivity. Qed.

Lemma sp_run_cons : forall h16 c32f lw s w t,
  sp_run h16 c32f lw s (w :: t) = snd (sp_step h16 c32f lw s w) ++ sp_run h16 c32f lw (fst (sp_step h16 c32f lw s w)) t.
Proof. intros. cbn [sp_run]. destruct (sp_step h16 c32f lw s w). reflexivity. Qed.

(* The simulation, for any units that track h16 / c32f; drx_rel relates a model state to a state of the specification
   parser. *)
Section Sim.
  Variable U : crc_units.
  Variable lw : N.
  Variables h16 c32f r16 r32 : list N -> N.
  Hypothesis HT : crc_tracks U h16 c32f r16 r32.

  (* RECEIVE_PAYLOAD, before payload word number |acc| *)
  Definition drx_rel_pay (s : drx_state) (ws : list N) (acc : list (N * N)) : Prop :=
    fsm s = DPAY /\ rem s = sp_len lw ws - 4 * N.of_nat (length acc) /\ first s = (N.of_nat (length acc) =? 0) /\
    c32 s = r32 (sp_pbytes acc).
  (* CHECK_CRC32: the last payload word pw held nb payload bytes *)
  Definition drx_rel_crc (s : drx_state) (ws : list N) (acc : list (N * N)) : Prop :=
    fsm s = DCRC /\
    exists pre pw pc nb, acc = pre ++ [(pw, pc)] /\ sp_len lw ws = 4 * N.of_nat (length pre) + nb /\ nb <= 4 /\
      pw < 4294967296 /\ pword s = pw /\ pvalid s = N.ones nb /\
      c32 s = r32 (sp_pbytes pre ++ firstn (N.to_nat nb) (drx_bytes4 pw)).

  Definition drx_rel (s : drx_state) (sp : drx_sp) : Prop :=
    match sp with
    | SIdle => fsm s = DWAIT
    | SHdr [] => fsm s = DDW0 /\ c16 s = r16 [] /\ c32 s = u32_init U
    | SHdr [a] => fsm s = DDW1 /\ c16 s = r16 [a] /\ c32 s = u32_init U /\ hdw0 s = a
    | SHdr [a; b] => fsm s = DDW2 /\ c16 s = r16 [a; b] /\ c32 s = u32_init U /\ hdw0 s = a /\ hdw1 s = b /\
                     plen s = bits b 16 lw
    | SHdr [a; b; c] => fsm s = DDW3 /\ c16 s = r16 [a; b; c] /\ c32 s = u32_init U /\ hdw0 s = a /\ hdw1 s = b /\
                        hdw2 s = c /\ plen s = bits b 16 lw
    | SHdr _ => False
    | SChk [a; b; c; d] => fsm s = DCHK /\ c16 s = r16 [a; b; c] /\ c32 s = u32_init U /\ hdw0 s = a /\ hdw1 s = b /\
                           hdw2 s = c /\ hdw3 s = d /\ plen s = bits b 16 lw /\
                           f16 s = bits d 0 16 /\ f5 s = bits d 27 5 /\ xcrc5 s = crc5_usb (bits d 16 11)
    | SChk _ => False
    | SPay ws acc =>
        ohdr s = sp_hdr ws /\
        if sp_more (sp_len lw ws) (N.of_nat (length acc)) then drx_rel_pay s ws acc else drx_rel_crc s ws acc
    end.

  Lemma drx_rel_init : drx_rel (drx_init U) SIdle.
  Proof. reflexivity. Qed.

  Lemma drx_step_invalid : forall s sp data ctrl, drx_rel s sp ->
    drx_rel (fst (drx_next U lw true s false data ctrl)) sp /\
    drx_events (snd (drx_next U lw true s false data ctrl)) = [].
  Proof.
    intros s sp data ctrl R. destruct s as [f p f16_ f5_ x r fi pw pv a b h0 h1 h2 h3 oh].
    destruct sp as [|ws|ws|ws acc]; cbn [drx_rel fsm] in R.
    - subst f. split; reflexivity.
    - destruct ws as [|w0 [|w1 [|w2 [|w3 ws]]]]; try contradiction;
        destruct R as [-> R]; (split; [exact (conj eq_refl R) | reflexivity]).
    - destruct ws as [|w0 [|w1 [|w2 [|w3 [|w4 ws]]]]]; try contradiction.
      destruct R as [-> R]. split; [exact (conj eq_refl R) | reflexivity].
    - cbn [drx_rel]. destruct (sp_more _ _); destruct R as [Ho [Hf R]]; cbn [fsm] in Hf; subst f;
        (split; [exact (conj Ho (conj eq_refl R)) | reflexivity]).
  Qed.

  Definition drx_step_ok (s : drx_state) (sp : drx_sp) (data ctrl : N) : Prop :=
    drx_rel (fst (drx_next U lw true s true data ctrl)) (fst (sp_step h16 c32f lw sp (data, ctrl))) /\
    drx_events (snd (drx_next U lw true s true data ctrl)) = snd (sp_step h16 c32f lw sp (data, ctrl)).

  Lemma drx_step_idle : forall s data ctrl, drx_rel s SIdle -> drx_step_ok s SIdle data ctrl.
  Proof.
    intros [f p f16_ f5_ x r fi pw pv a b h0 h1 h2 h3 oh] data ctrl R. cbn [drx_rel fsm] in R. subst f.
    split; [|reflexivity]. cbn [drx_next sp_step fst snd fsm andb].
    destruct ((data =? DRX_HPSTART) && (ctrl =? 15)); cbn [drx_rel fsm c16 c32]; [|reflexivity].
    rewrite (t16_init HT). tauto.
  Qed.

  Lemma drx_step_hdr : forall s ws data ctrl, drx_rel s (SHdr ws) -> drx_step_ok s (SHdr ws) data ctrl.
  Proof.
    intros [f p f16_ f5_ x r fi pw pv a b h0 h1 h2 h3 oh] ws data ctrl R.
    destruct ws as [|w0 [|w1 [|w2 [|w3 ws]]]]; cbn [drx_rel fsm c16 c32 hdw0 hdw1 hdw2 plen] in R; try contradiction;
      decompose [and] R; subst; (split; [|reflexivity]); cbn [drx_next sp_step fst snd fsm gate app].
    - destruct (bits data 0 5 =? DRX_TYPE_DATA); cbn [drx_rel fsm c16 c32 hdw0]; [|reflexivity].
      rewrite (t16_adv HT). tauto.
    - cbn [drx_rel fsm c16 c32 hdw0 hdw1 plen]. rewrite (t16_adv HT). tauto.
    - cbn [drx_rel fsm c16 c32 hdw0 hdw1 hdw2 plen]. rewrite (t16_adv HT). tauto.
    - cbn [drx_rel fsm c16 c32 hdw0 hdw1 hdw2 hdw3 plen f16 f5 xcrc5]. tauto.
  Qed.

  Lemma drx_step_chk : forall s ws data ctrl, drx_rel s (SChk ws) -> drx_step_ok s (SChk ws) data ctrl.
  Proof.
    intros [f p f16_ f5_ x r fi pw pv a b h0 h1 h2 h3 oh] ws data ctrl R.
    destruct ws as [|w0 [|w1 [|w2 [|w3 [|w4 ws]]]]]; cbn [drx_rel fsm c16 c32 hdw0 hdw1 hdw2 hdw3 plen f16 f5 xcrc5] in R;
      try contradiction.
    decompose [and] R; subst. unfold drx_step_ok. cbn [drx_next sp_step fst snd fsm gate f5 f16 xcrc5 c16].
    rewrite (t16_out HT). unfold sp_hdr_ok. cbn [firstn nth].
    destruct (crc5_usb (bits w3 16 11) =? bits w3 27 5), (h16 [w0; w1; w2] =? bits w3 0 16); cbn [negb orb andb fst snd];
      try (split; reflexivity).
    destruct ((data =? DRX_DPPSTART) && (ctrl =? 15)); cbn [fst snd]; (split; [|reflexivity]); [|reflexivity].
    cbn [drx_rel ohdr length N.of_nat]. split; [reflexivity|].
    replace (sp_more (sp_len lw [w0; w1; w2; w3]) 0) with true by (unfold sp_more; lia).
    unfold drx_rel_pay, sp_len. cbn [nth fsm rem first c32 plen length N.of_nat].
    repeat split; [lia | exact (eq_sym (t32_init HT))].
  Qed.

  Lemma drx_c32_adv : forall bs r data,
    (if r =? 0 then r32 bs else u32_adv U (r32 bs) (drx_nbytes r) data)
    = r32 (bs ++ firstn (N.to_nat (N.min r 4)) (drx_bytes4 data)).
  Proof.
    intros bs r data. unfold drx_nbytes. destruct (r =? 0) eqn:E0.
    - replace (N.min r 4) with 0 by lia. rewrite app_nil_r. reflexivity.
    - apply (t32_adv HT). lia.
  Qed.

  Lemma drx_step_pay : forall s ws acc data ctrl, data < 4294967296 -> ohdr s = sp_hdr ws ->
    sp_more (sp_len lw ws) (N.of_nat (length acc)) = true -> drx_rel_pay s ws acc ->
    drx_step_ok s (SPay ws acc) data ctrl.
  Proof.
    intros [f p f16_ f5_ x r fi pw pv a b h0 h1 h2 h3 oh] ws acc data ctrl Hd Ho Hm (Hf & Hr & Hfi & Hc).
    cbn [fsm rem first c32 ohdr] in *. subst f oh r fi b. unfold drx_step_ok. cbn [sp_step]. rewrite Hm.
    set (L := sp_len lw ws) in *. set (k := N.of_nat (length acc)) in *.
    cbn [drx_next fst snd fsm rem first ohdr c32]. rewrite drx_mask_ones.
    set (nb := N.min (L - 4 * k) 4). assert (Hnb : nb <= 4) by (unfold nb; lia).
    unfold drx_events at 1. cbn [o_data o_valid o_first o_last o_good o_bad o_hdr andb].
    rewrite drx_ones_eq0, drx_sel_ones by exact Hnb.
    destruct (N.land ctrl (N.ones nb) =? 0); cbn [negb fst snd]; [|split; reflexivity].
    split; [|rewrite app_nil_r; reflexivity].
    cbn [drx_rel ohdr]. split; [reflexivity|]. unfold drx_rel_pay, drx_rel_crc.
    rewrite app_length. cbn [length]. replace (N.of_nat (length acc + 1)) with (k + 1) by (unfold k; lia).
    fold L. rewrite sp_more_succ. unfold sp_more in Hm.
    rewrite drx_c32_adv. fold nb.
    destruct (4 <? L - 4 * k) eqn:E4.
    - cbn [fsm rem first c32]. rewrite sp_pbytes_app. replace nb with 4 by (unfold nb; lia).
      change (sp_pbytes [(data, ctrl)]) with (drx_bytes4 data ++ []). rewrite app_nil_r.
      repeat split; try reflexivity; lia.
    - split; [reflexivity|]. exists acc, data, ctrl, (L - 4 * k). fold k. cbn [pword pvalid c32].
      replace nb with (L - 4 * k) by (unfold nb; lia). repeat split; lia.
  Qed.

  Lemma drx_step_crc : forall s ws acc data ctrl, data < 4294967296 -> ohdr s = sp_hdr ws ->
    sp_more (sp_len lw ws) (N.of_nat (length acc)) = false -> drx_rel_crc s ws acc ->
    drx_step_ok s (SPay ws acc) data ctrl.
  Proof.
    intros [f p f16_ f5_ x r fi pw pv a b h0 h1 h2 h3 oh] ws acc data ctrl Hd Ho Hm
      (Hf & pre & pw0 & pc & nb & Hacc & HL & Hnb & Hpw & Hpw' & Hpv & Hc).
    cbn [fsm pword pvalid c32 ohdr] in *. subst f oh pw pv b acc. unfold drx_step_ok. cbn [sp_step]. rewrite Hm.
    cbn [drx_next fst snd fsm pvalid pword c32 ohdr first]. split; [reflexivity|].
    rewrite (t32_out HT), HL. fold (sp_pbytes ((pre ++ [(pw0, pc)]) ++ [(data, ctrl)])).
    destruct (sp_pbytes_cut pre pw0 pc (data, ctrl) nb Hnb) as [-> ->]. cbn [fst].
    rewrite <- drx_to_check_ok by assumption.
    unfold drx_events. cbn [o_valid o_good o_bad o_hdr N.eqb app andb].
    rewrite (N.eqb_sym (drx_to_check (N.ones nb) pw0 data)).
    destruct (c32f (sp_pbytes pre ++ firstn (N.to_nat nb) (drx_bytes4 pw0)) =? drx_to_check (N.ones nb) pw0 data); reflexivity.
  Qed.

  Lemma drx_step_valid : forall s sp data ctrl, data < 4294967296 -> drx_rel s sp -> drx_step_ok s sp data ctrl.
  Proof.
    intros s sp data ctrl Hd R. destruct sp as [|ws|ws|ws acc].
    - apply drx_step_idle. exact R.
    - apply drx_step_hdr. exact R.
    - apply drx_step_chk. exact R.
    - destruct R as [Ho R]. destruct (sp_more _ _) eqn:Hm; [apply drx_step_pay | apply drx_step_crc]; assumption.
  Qed.

  Theorem drx_sim : forall ins s sp, drx_rel s sp ->
    flat_map drx_events (drx_runR U lw true s ins) = sp_run h16 c32f lw sp (drx_vwords ins).
  Proof.
    induction ins as [|i t IH]; intros s sp R; [reflexivity|].
    rewrite drx_runR_cons. unfold drx_stepR, drx_vwords. cbn [flat_map]. fold (drx_vwords t).
    destruct (N.odd (bits i 36 1)).
    - destruct (drx_step_valid s sp _ (bits i 32 4) (bits_lt i 0 32) R) as [R' E].
      cbn [app]. rewrite sp_run_cons, E. f_equal. exact (IH _ _ R').
    - destruct (drx_step_invalid s sp (bits i 0 32) (bits i 32 4) R) as [R' E]. rewrite E. exact (IH _ _ R').
  Qed.
End Sim.

Lemma sp_nwords_spec : forall L n, n = sp_nwords L <-> L <= 4 * n /\ (if L =? 0 then n = 1 else 4 * n < L + 4).
Proof.
  intros L n. unfold sp_nwords. destruct (L =? 0) eqn:E; [lia|].
  pose proof (N.div_mod' (L + 3) 4) as D. pose proof (N.mod_lt (L + 3) 4 ltac:(discriminate)) as M.
  set (q := (L + 3) / 4) in *. set (m := (L + 3) mod 4) in *. lia.
Qed.

Lemma sp_more_nwords : forall L n j, N.of_nat n = sp_nwords L -> sp_more L (N.of_nat j) = (j <? n)%nat.
Proof.
  intros L n j Hn. apply sp_nwords_spec in Hn. unfold sp_more. destruct (L =? 0) eqn:E, (Nat.ltb_spec j n); lia.
Qed.

Lemma sp_beats_app : forall lw ws a b k,
  sp_beats lw ws k (a ++ b) = sp_beats lw ws k a ++ sp_beats lw ws (k + N.of_nat (length a)) b.
Proof.
  intros lw ws. induction a as [|w a IH]; intros b k.
  - cbn [app sp_beats length N.of_nat]. rewrite N.add_0_r. reflexivity.
  - cbn [app sp_beats length]. rewrite IH, <- app_assoc.
    replace (k + N.of_nat (S (length a))) with (k + 1 + N.of_nat (length a)) by lia. reflexivity.
Qed.

Lemma drx_beats_bytes : forall lw ws pay k,
  flat_map drx_beat_bytes (sp_beats lw ws k pay) = firstn (N.to_nat (sp_len lw ws - 4 * k)) (sp_pbytes pay).
Proof.
  intros lw ws. induction pay as [|w t IH]; intro k.
  - cbn [sp_beats flat_map sp_pbytes map]. rewrite firstn_nil. reflexivity.
  - cbn [sp_beats]. rewrite flat_map_app, IH, sp_pbytes_cons, firstn_app. change (length (drx_bytes4 (fst w))) with 4%nat.
    set (r := sp_len lw ws - 4 * k). replace (sp_len lw ws - 4 * (k + 1)) with (r - 4) by lia.
    replace (N.to_nat r - 4)%nat with (N.to_nat (r - 4)) by lia. f_equal.
    destruct (N.min r 4 =? 0) eqn:E.
    + replace r with 0 by lia. reflexivity.
    + cbn [flat_map drx_beat_bytes]. rewrite app_nil_r, (firstn_clip (N.to_nat r)). f_equal. cbn [drx_bytes4 length]. lia.
Qed.

Lemma sp_payload_length : forall lw ws pay, N.of_nat (length pay) = sp_nwords (sp_len lw ws) ->
  length (flat_map drx_beat_bytes (sp_beats lw ws 0 pay)) = N.to_nat (sp_len lw ws).
Proof.
  intros lw ws pay Hn. rewrite drx_beats_bytes, firstn_length, sp_pbytes_length.
  apply sp_nwords_spec in Hn. lia.
Qed.

Lemma drx_beats_no_report : forall lw ws pay k, existsb drx_is_report (sp_beats lw ws k pay) = false.
Proof.
  intros lw ws. induction pay as [|w t IH]; intro k; [reflexivity|]. cbn [sp_beats]. rewrite existsb_app, IH.
  destruct (N.min (sp_len lw ws - 4 * k) 4 =? 0); reflexivity.
Qed.

Section SpecFacts.
  Variables h16 c32f : list N -> N.
  Variable lw : N.
  Notation run := (sp_run h16 c32f lw).

  Lemma sp_run_app : forall a b s, run s (a ++ b) = run s a ++ run (sp_state_after h16 c32f lw s a) b.
  Proof.
    induction a as [|w a IH]; intros b s; [reflexivity|].
    cbn [app sp_state_after]. rewrite !sp_run_cons, IH. apply app_assoc.
  Qed.

  Lemma sp_header_run : forall d0 c0 d1 c1 d2 c2 d3 c3 t, bits d0 0 5 = DRX_TYPE_DATA ->
    run SIdle ((DRX_HPSTART, 15) :: (d0, c0) :: (d1, c1) :: (d2, c2) :: (d3, c3) :: t) = run (SChk [d0; d1; d2; d3]) t.
  Proof.
    intros d0 c0 d1 c1 d2 c2 d3 c3 t Ht.
    rewrite sp_run_cons. cbn [sp_step fst snd]. rewrite !N.eqb_refl. cbn [andb app].
    rewrite sp_run_cons. cbn [sp_step fst snd]. rewrite Ht, N.eqb_refl.
    rewrite !sp_run_cons. reflexivity.
  Qed.

  Lemma sp_pay_prefix : forall ws pay acc t,
    sp_clean lw ws (N.of_nat (length acc)) pay = true ->
    (forall j, (j < length pay)%nat -> sp_more (sp_len lw ws) (N.of_nat (length acc + j)) = true) ->
    run (SPay ws acc) (pay ++ t) = sp_beats lw ws (N.of_nat (length acc)) pay ++ run (SPay ws (acc ++ pay)) t.
  Proof.
    intros ws. induction pay as [|w pay IH]; intros acc t Hc Hm; [rewrite app_nil_r; reflexivity|].
    cbn [sp_clean] in Hc. apply andb_true_iff in Hc as [Hc0 Hc].
    pose proof (Hm 0%nat ltac:(cbn [length]; lia)) as H0. rewrite Nat.add_0_r in H0.
    assert (El : N.of_nat (length (acc ++ [w])) = N.of_nat (length acc) + 1) by (rewrite app_length; cbn [length]; lia).
    cbn [app sp_beats]. rewrite sp_run_cons. cbn [sp_step]. rewrite H0, Hc0. cbn [fst snd].
    rewrite (IH (acc ++ [w])), El, <- !app_assoc; [reflexivity | rewrite El; exact Hc |].
    intros j Hj. rewrite app_length, <- Nat.add_assoc. apply Hm. cbn [length]. lia.
  Qed.

  Theorem sp_good_packet : forall d0 c0 d1 c1 d2 c2 d3 c3 pay cw rest,
    let ws := [d0; d1; d2; d3] in
    bits d0 0 5 = DRX_TYPE_DATA -> sp_hdr_ok h16 ws = true ->
    N.of_nat (length pay) = sp_nwords (sp_len lw ws) -> sp_clean lw ws 0 pay = true ->
    run SIdle ((DRX_HPSTART, 15) :: (d0, c0) :: (d1, c1) :: (d2, c2) :: (d3, c3) :: (DRX_DPPSTART, 15) :: pay ++ cw :: rest)
    = sp_beats lw ws 0 pay ++ Report (sp_hdr ws) (sp_verdict c32f lw ws (pay ++ [cw])) :: run SIdle rest.
  Proof.
    intros d0 c0 d1 c1 d2 c2 d3 c3 pay cw rest ws Ht Hok Hn Hc.
    rewrite sp_header_run by exact Ht. fold ws.
    rewrite sp_run_cons. cbn [sp_step fst snd]. rewrite Hok, !N.eqb_refl. cbn [andb app].
    rewrite (sp_pay_prefix ws pay [])
      by (try exact Hc; intros j Hj; cbn [length Nat.add]; rewrite (sp_more_nwords _ _ j Hn); apply Nat.ltb_lt, Hj).
    cbn [length N.of_nat app]. rewrite sp_run_cons. cbn [sp_step]. rewrite (sp_more_nwords _ _ _ Hn), Nat.ltb_irrefl. reflexivity.
  Qed.

  (* a ctrl symbol on a payload byte: the beats up to and including that word's, one `bad`, and the parser is idle again *)
  Theorem sp_ctrl_error : forall ws pay w rest acc,
    sp_clean lw ws (N.of_nat (length acc)) pay = true ->
    (forall j, (j <= length pay)%nat -> sp_more (sp_len lw ws) (N.of_nat (length acc + j)) = true) ->
    N.land (snd w) (N.ones (N.min (sp_len lw ws - 4 * N.of_nat (length acc + length pay)) 4)) <> 0 ->
    run (SPay ws acc) (pay ++ w :: rest)
    = sp_beats lw ws (N.of_nat (length acc)) (pay ++ [w]) ++ Report (sp_hdr ws) false :: run SIdle rest.
  Proof.
    intros ws pay w rest acc Hc Hm He.
    rewrite sp_pay_prefix by (try exact Hc; intros j Hj; apply Hm; lia).
    rewrite sp_run_cons. cbn [sp_step]. rewrite app_length, (Hm (length pay) (le_n _)).
    apply N.eqb_neq in He. rewrite He. cbn [fst snd].
    rewrite sp_beats_app. cbn [sp_beats]. rewrite app_nil_r, Nat2N.inj_add, <- !app_assoc. reflexivity.
  Qed.

  (* a data header whose CRC-16 or CRC-5 is wrong is never followed by a report for that packet *)
  Theorem sp_bad_header : forall d0 c0 d1 c1 d2 c2 d3 c3 x rest,
    bits d0 0 5 = DRX_TYPE_DATA -> sp_hdr_ok h16 [d0; d1; d2; d3] = false ->
    run SIdle ((DRX_HPSTART, 15) :: (d0, c0) :: (d1, c1) :: (d2, c2) :: (d3, c3) :: x :: rest) = run SIdle rest.
  Proof.
    intros d0 c0 d1 c1 d2 c2 d3 c3 x rest Ht Hbad.
    rewrite sp_header_run by exact Ht. rewrite sp_run_cons. cbn [sp_step fst snd]. rewrite Hbad. reflexivity.
  Qed.
End SpecFacts.

Theorem drx_real_events : forall lw ins,
  flat_map drx_events (drx_runR drx_real_units lw true (drx_init drx_real_units) ins)
  = sp_run crc16_hdr crc32_usb lw SIdle (drx_vwords ins).
Proof.
  intros. exact (drx_sim _ lw _ _ _ _ drx_real_tracks ins _ _ (drx_rel_init _ _ _ _)).
Qed.

Corollary drx_idle_independent : forall lw ins ins',
  drx_vwords ins = drx_vwords ins' ->
  flat_map drx_events (drx_runR drx_real_units lw true (drx_init drx_real_units) ins)
  = flat_map drx_events (drx_runR drx_real_units lw true (drx_init drx_real_units) ins').
Proof. intros lw ins ins' H. rewrite !drx_real_events, H. reflexivity. Qed.

Definition drx_model_events (lw : N) (ins : list N) : list drx_ev :=
  flat_map drx_events (drx_runR drx_real_units lw true (drx_init drx_real_units) ins).

(* C40, per packet, on the module model (real CRCs) *)
Theorem drx_packet_reported_once : forall lw ins pre d0 c0 d1 c1 d2 c2 d3 c3 pay cw rest,
  let ws := [d0; d1; d2; d3] in
  drx_vwords ins
    = pre ++ (DRX_HPSTART, 15) :: (d0, c0) :: (d1, c1) :: (d2, c2) :: (d3, c3) :: (DRX_DPPSTART, 15) :: pay ++ cw :: rest ->
  sp_state_after crc16_hdr crc32_usb lw SIdle pre = SIdle ->
  bits d0 0 5 = DRX_TYPE_DATA -> sp_hdr_ok crc16_hdr ws = true ->
  N.of_nat (length pay) = sp_nwords (sp_len lw ws) -> sp_clean lw ws 0 pay = true ->
  drx_model_events lw ins
  = sp_run crc16_hdr crc32_usb lw SIdle pre
    ++ sp_beats lw ws 0 pay
    ++ Report (sp_hdr ws) (sp_verdict crc32_usb lw ws (pay ++ [cw]))
    :: sp_run crc16_hdr crc32_usb lw SIdle rest.
Proof.
  intros lw ins pre d0 c0 d1 c1 d2 c2 d3 c3 pay cw rest ws Hv Hpre Ht Hok Hn Hc.
  unfold drx_model_events. rewrite drx_real_events, Hv, sp_run_app, Hpre. f_equal.
  apply sp_good_packet; assumption.
Qed.

(* what the stand-in units (drx_stub_units) hold after the words / bytes so far: 2-bit xor checksums; they put out their
   registers as they are, so the same functions serve as h16 / c32f and as r16 / r32 of crc_tracks *)
Definition drx_stub_h16 (ws : list N) : N := fold_left (fun r w => N.lxor r (drx_x2 4 w)) ws 3.
Definition drx_stub_c32 (bs : list N) : N := fold_left (fun r b => N.lxor r (bits b 0 2)) bs 3.

Lemma drx_stub_c32_lt : forall bs, drx_stub_c32 bs < 4294967296.
Proof.
  induction bs as [|b bs IH] using rev_ind; [reflexivity|]. unfold drx_stub_c32 in *. rewrite fold_left_app.
  apply (lxor_lt_pow2 _ _ 32); [exact IH | eapply N.lt_trans; [apply bits_lt | reflexivity]].
Qed.

Lemma drx_stub16_adv : forall ws w, N.lxor (drx_stub_h16 ws) (drx_x2 4 w) = drx_stub_h16 (ws ++ [w]).
Proof. intros. unfold drx_stub_h16. rewrite fold_left_app. reflexivity. Qed.

Lemma drx_bits_bits2 : forall w lo, bits (bits w lo 8) 0 2 = bits w lo 2.
Proof. intros. unfold bits. rewrite N.shiftr_0_r, <- N.land_assoc. reflexivity. Qed.

Lemma drx_stub32_adv : forall bs k w, 1 <= k <= 4 ->
  N.lxor (drx_stub_c32 bs) (drx_x2 k w) = drx_stub_c32 (bs ++ firstn (N.to_nat k) (drx_bytes4 w)).
Proof.
  intros bs k w Hk. unfold drx_stub_c32. rewrite fold_left_app. set (r := fold_left _ bs 3).
  assert (E : k = 1 \/ k = 2 \/ k = 3 \/ k = 4) by lia.
  destruct E as [->|[->|[->| ->]]];
    cbv [drx_x2 N.ltb N.compare Pos.compare Pos.compare_cont N.to_nat Pos.to_nat Pos.iter_op Nat.add firstn drx_bytes4 fold_left];
    rewrite !drx_bits_bits2, ?N.lxor_0_r, ?N.lxor_assoc; reflexivity.
Qed.

Lemma drx_stub_tracks : crc_tracks drx_stub_units drx_stub_h16 drx_stub_c32 drx_stub_h16 drx_stub_c32.
Proof. split; try reflexivity; [exact drx_stub16_adv | exact drx_stub32_adv]. Qed.

Theorem drx_stub_events : forall lw ins,
  flat_map drx_events (drx_runR drx_stub_units lw true (drx_init drx_stub_units) ins)
  = sp_run drx_stub_h16 drx_stub_c32 lw SIdle (drx_vwords ins).
Proof.
  intros. exact (drx_sim _ lw _ _ _ _ drx_stub_tracks ins _ _ (drx_rel_init _ _ _ _)).
Qed.

Lemma drx_mask_lt : forall r v, drx_mask r v < 16.
Proof.
  intros r [|]; [|reflexivity]. rewrite drx_mask_ones. apply (ones_lt _ 4), N.le_min_r.
Qed.

Lemma drx_out_bounded : forall U lw hd s i,
  o_data (snd (drx_stepR U lw hd s i)) < 4294967296 /\ o_valid (snd (drx_stepR U lw hd s i)) < 16.
Proof.
  intros. unfold drx_stepR, drx_next.
  destruct (fsm s); cbn [snd drx_quiet o_data o_valid]; try (split; reflexivity).
  split; [apply (bits_lt i 0 32) | apply drx_mask_lt].
Qed.

Definition drx_clear_hdr (o : drx_out) : drx_out :=
  {| o_data := o_data o; o_valid := o_valid o; o_first := o_first o; o_last := o_last o; o_good := o_good o;
     o_bad := o_bad o; o_hdr := 0 |}.

(* drx_unpack divides by the weight of each field; the same fields peeled off one digit at a time *)
Lemma drx_unpack_peel : forall w,
  let q1 := w / 4294967296 in let q2 := q1 / 16 in let q3 := q2 / 2 in let q4 := q3 / 2 in let q5 := q4 / 2 in
  drx_unpack w = {| o_data := w mod 4294967296; o_valid := q1 mod 16; o_first := N.odd q2; o_last := N.odd q3;
                    o_good := N.odd q4; o_bad := N.odd q5; o_hdr := q5 / 2 |}.
Proof. intro w. cbv zeta. rewrite !N.div_div by discriminate. reflexivity. Qed.

Lemma drx_unpack_pack : forall hd o, o_data o < 4294967296 -> o_valid o < 16 ->
  drx_unpack (drx_pack hd o) = if hd then o else drx_clear_hdr o.
Proof.
  intros hd o Hd Hv. rewrite drx_unpack_peel. unfold drx_pack.
  rewrite !pk_div, !pk_mod, !pk2_odd by first [assumption | apply b2n_lt2].
  destruct hd, o; reflexivity.
Qed.

Lemma drx_events_clear : forall o,
  drx_events (drx_clear_hdr o)
  = map drx_ev_nohdr (drx_events o).
Proof.
  intros [d v f l g b h]. unfold drx_events, drx_clear_hdr. cbn [o_data o_valid o_first o_last o_good o_bad o_hdr].
  destruct (v =? 0), g, b; reflexivity.
Qed.

Lemma drx_fsm_code_lt : forall f, drx_fsm_code f < 8.
Proof. destruct f; reflexivity. Qed.
Lemma drx_fsm_of_code : forall f, drx_fsm_of (drx_fsm_code f) = f.
Proof. destruct f; reflexivity. Qed.

Lemma drx_dec_enc : forall s, drx_wf s -> drx_dec (drx_enc s) = s.
Proof.
  intros s (H1 & H2 & H3 & H4 & H5 & H6 & H7 & H8 & H9 & H10 & H11 & H12 & H13).
  unfold drx_dec, drx_enc. cbv zeta.
  change 7 with (N.ones 3); change 65535 with (N.ones 16); change 31 with (N.ones 5); change 15 with (N.ones 4);
  change 4294967295 with (N.ones 32).
  rewrite !pk_shiftr, !pk_land, pk2_odd, drx_fsm_of_code
    by first [assumption | reflexivity | apply b2n_lt2 | apply drx_fsm_code_lt].
  destruct s; reflexivity.
Qed.

Lemma drx_wf_init : forall U, units_bounded U -> drx_wf (drx_init U).
Proof. intros U (A & B & _ & _). unfold drx_wf, drx_init, W32 in *. cbn. repeat split; try lia; assumption. Qed.

Lemma drx_wf_next : forall U lw hd, units_bounded U -> lw <= 16 ->
  forall s v data ctrl, data < 4294967296 -> drx_wf s -> drx_wf (fst (drx_next U lw hd s v data ctrl)).
Proof.
  intros U lw hd (Ai & Bi & Aa & Ba) Hlw s v data ctrl Hd Hs. pose proof Hs as (H1 & H2 & H3 & H4 & H5 & H6 & H7 & H8 & H9 & H10 & H11 & H12 & H13).
  pose proof (crc5_usb_lt (bits data 16 11)) as Hc5.
  assert (Hpl : bits data 16 lw < 65536) by (eapply N.lt_le_trans; [apply bits_lt | apply (pow2_le_mono lw 16 Hlw)]).
  pose proof (bits_lt data 0 16 : _ < 65536) as Hf16. pose proof (bits_lt data 27 5 : _ < 32) as Hf5.
  pose proof (drx_mask_lt (rem s) v) as Hm.
  assert (Hr4 : (if 4 <? rem s then rem s - 4 else rem s) < 65536) by (destruct (4 <? rem s); lia).
  assert (Hc32 : (if rem s =? 0 then c32 s else u32_adv U (c32 s) (drx_nbytes (rem s)) data) < W32)
    by (destruct (rem s =? 0); [assumption | apply Ba; assumption]).
  assert (Hg : forall old, old < W32 -> gate hd data old < W32) by (intros old Ho; destruct hd; assumption).
  assert (Ha : u16_adv U (c16 s) data < W32) by (apply Aa; assumption).
  (* the new state is s itself, or a record whose fields are among the bounded values above *)
  unfold drx_next. destruct (fsm s); destruct v; cbn [fst]; try exact Hs;
    try (destruct (negb (xcrc5 s =? f5 s) || negb (u16_out U (c16 s) =? f16 s)); [|destruct ((data =? DRX_DPPSTART) && (ctrl =? 15))]);
    unfold drx_wf; cbn [plen f16 f5 xcrc5 rem pword pvalid c16 c32 hdw0 hdw1 hdw2 hdw3];
    repeat split; first [assumption | apply Hg; assumption].
Qed.

Lemma drx_wf_step : forall U lw hd, units_bounded U -> lw <= 16 ->
  forall s i, drx_wf s -> drx_wf (fst (drx_step U lw hd s i)).
Proof.
  intros U lw hd HU Hlw s i Hs. unfold drx_step. rewrite fst_let_pair.
  exact (drx_wf_next U lw hd HU Hlw s _ _ _ (bits_lt i 0 32) Hs).
Qed.

(* The control core (hd = false: header registers not tracked) is the full model with the header output dropped. *)
Definition drx_strip (s : drx_state) : drx_state :=
  {| fsm := fsm s; plen := plen s; f16 := f16 s; f5 := f5 s; xcrc5 := xcrc5 s; rem := rem s; first := first s;
     pword := pword s; pvalid := pvalid s; c16 := c16 s; c32 := c32 s; hdw0 := 0; hdw1 := 0; hdw2 := 0; hdw3 := 0; ohdr := 0 |}.

Lemma drx_core_next : forall U lw s s' v data ctrl, drx_strip s = drx_strip s' ->
  drx_strip (fst (drx_next U lw false s v data ctrl)) = drx_strip (fst (drx_next U lw true s' v data ctrl)) /\
  drx_pack false (snd (drx_next U lw false s v data ctrl)) = drx_pack false (snd (drx_next U lw true s' v data ctrl)).
Proof.
  intros U lw s s' v data ctrl E.
  destruct s as [f p f16_ f5_ x r fi pw pv a b h0 h1 h2 h3 oh], s' as [f' p' f16_' f5_' x' r' fi' pw' pv' a' b' h0' h1' h2' h3' oh'].
  injection E as -> -> -> -> -> -> -> -> -> -> ->.
  (* normalise before comparing: left to itself, conversion compares the two unfolded steps structurally *)
  unfold drx_next. destruct f'; destruct v;
    cbv [drx_strip drx_pack drx_quiet gate fst snd fsm plen f16 f5 xcrc5 rem first pword pvalid c16 c32 hdw0 hdw1 hdw2 hdw3 ohdr
         o_data o_valid o_first o_last o_good o_bad o_hdr];
    try (split; reflexivity).
  (* CHECK_HEADER chooses between whole records *)
  destruct (negb (x' =? f5_') || negb (u16_out U a' =? f16_')); [split; reflexivity|].
  destruct ((data =? DRX_DPPSTART) && (ctrl =? 15)); split; reflexivity.
Qed.

Lemma drx_core_run : forall U lw ins s s', drx_strip s = drx_strip s' ->
  map (drx_pack false) (drx_runR U lw false s ins) = map (drx_pack false) (drx_runR U lw true s' ins).
Proof.
  induction ins as [|i t IH]; intros s s' H; [reflexivity|]. rewrite !drx_runR_cons. unfold drx_stepR.
  destruct (drx_core_next U lw s s' (N.odd (bits i 36 1)) (bits i 0 32) (bits i 32 4) H) as [Hs Ho].
  cbn [map]. rewrite Ho. f_equal. apply IH. exact Hs.
Qed.

Lemma drx_packed_run : forall U lw hd ins s,
  run (drx_step U lw hd) s ins = map (drx_pack hd) (drx_runR U lw hd s ins).
Proof.
  induction ins as [|i t IH]; intros s; [reflexivity|]. cbn [run drx_runR map]. unfold drx_step.
  destruct (drx_stepR U lw hd s i) as [s1 o1]. cbn [map]. rewrite IH. reflexivity.
Qed.

Definition drx_events_w (w : N) : list drx_ev := drx_events (drx_unpack w).

Lemma drx_events_packed : forall hd U lw ins s,
  flat_map drx_events_w (map (drx_pack hd) (drx_runR U lw true s ins))
  = let es := flat_map drx_events (drx_runR U lw true s ins) in if hd then es else map drx_ev_nohdr es.
Proof.
  induction ins as [|i t IH]; intros s; [destruct hd; reflexivity|].
  rewrite drx_runR_cons. destruct (drx_out_bounded U lw true s i) as [Hd Hv].
  cbn [map flat_map]. unfold drx_events_w at 1. rewrite drx_unpack_pack, IH by assumption.
  destruct hd; [reflexivity|]. cbv zeta. rewrite map_app, drx_events_clear. reflexivity.
Qed.

(* what the lock-step obligations are combined with: packed outputs of the machine -> specification events *)
Theorem drx_machine_events : forall U lw h16 c32f ins,
  (forall ins, flat_map drx_events (drx_runR U lw true (drx_init U) ins) = sp_run h16 c32f lw SIdle (drx_vwords ins)) ->
  flat_map drx_events_w (run (drx_step U lw true) (drx_init U) ins) = sp_run h16 c32f lw SIdle (drx_vwords ins).
Proof. intros U lw h16 c32f ins H. rewrite drx_packed_run, drx_events_packed. apply H. Qed.

Theorem drx_machine_events_nohdr : forall U lw h16 c32f ins,
  (forall ins, flat_map drx_events (drx_runR U lw true (drx_init U) ins) = sp_run h16 c32f lw SIdle (drx_vwords ins)) ->
  flat_map drx_events_w (run (drx_step U lw false) (drx_init U) ins)
  = map drx_ev_nohdr (sp_run h16 c32f lw SIdle (drx_vwords ins)).
Proof.
  intros U lw h16 c32f ins H. rewrite drx_packed_run, (drx_core_run U lw ins _ _ eq_refl), drx_events_packed. cbv zeta.
  rewrite H. reflexivity.
Qed.

Lemma drx_x2_lt : forall k w, drx_x2 k w < 2 ^ 32.
Proof.
  intros k w. unfold drx_x2.
  assert (B : forall (q : N) (c : bool), (if c then bits w q 2 else 0) < 2 ^ 32).
  { intros q c. destruct c; [|reflexivity]. eapply N.lt_trans; [apply bits_lt | reflexivity]. }
  repeat apply lxor_lt_pow2; apply B.
Qed.

Lemma drx_stub_bounded : units_bounded drx_stub_units.
Proof.
  unfold units_bounded, W32. change 4294967296 with (2 ^ 32). cbn [u16_init u32_init u16_adv u32_adv drx_stub_units].
  repeat split; try reflexivity; intros; apply lxor_lt_pow2; try assumption; apply drx_x2_lt.
Qed.

Lemma drx_real_bounded : units_bounded drx_real_units.
Proof.
  unfold units_bounded, W32. cbn [u16_init u32_init u16_adv u32_adv drx_real_units]. repeat split; try reflexivity.
  - intros r w _. eapply N.lt_trans; [apply (bits2N_lt_len _ 16), crc_update_length, N2bits_length | reflexivity].
  - intros r k w _. apply (bits2N_lt_len _ 32), crc_update_length, N2bits_length.
Qed.

Lemma drx_lw_3 : 3 <= 16. Proof. discriminate. Qed.
Lemma drx_lw_4 : 4 <= 16. Proof. discriminate. Qed.
Lemma drx_lw_11 : 11 <= 16. Proof. discriminate. Qed.
