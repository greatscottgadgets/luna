(* C09 -- model and specification of luna/gateware/usb/usb2/descriptor.py: GetDescriptorHandlerMux, the multiplexer
   StandardRequestHandler puts in front of a block-ROM handler (fixed descriptors) and a distributed handler (runtime
   descriptors) when a device has runtime descriptors:

     stalled_i = handler_i.stall | stall_latch_i          mux.stall = all stalled_i
     stall_latch_i <= 1 when handler_i.stall & ~mux.stall;  <= 0 when start | mux.stall
     tx = one-hot mux of the handlers' streams: valid/first/last OR-ed, payload of the (single) valid handler

   This is the PROPERTY-SATISFYING behaviour: a latch is not looked at in the cycle of a new `start`
   (stalled_i = handler_i.stall | (stall_latch_i & ~start)).  /repo before 6bfe03c looked at it, so the latch the ROM
   handler set while a runtime descriptor was being served made the next request for a ROM descriptor STALL in its
   start cycle (findings/C09-mux-stall-latch.json, .diff).  Runtime descriptors are modelled as constant byte strings
   served by USBDescriptorStreamGenerator; arbitrary callables (generators whose data changes at run time, or that do
   not follow the ConstantStreamGenerator interface) are not.

   mx_step is a combinator over two handler machines, so that the same definition composes the code-shaped handler
   models (bk_step, ds_step) and their specification machines. Ports as in Model/DescSpec.v. *)
From Coq Require Import NArith List Bool.
Import ListNotations.
From LunaLib Require Import Netlist Bits Machine.
From LunaModel Require Import ConstGen DescSpec DescRom DescBlock DescDist.
Open Scope N_scope.

Definition o_stallb (o : N) : bool := N.testbit o 11.
Definition o_validb (o : N) : bool := N.testbit o 0.

(* tx of the mux: flags OR-ed; payload of handler 1 iff it alone is valid, else of handler 0 (Encoder output 0) *)
Definition mx_tx (o0 o1 : N) : N :=
  if o_validb o1 && negb (o_validb o0) then N.lor (bits o0 0 3) (trunc 11 o1) else N.lor (trunc 11 o0) (bits o1 0 3).

Definition mx_stalled (o : N) (l : bool) (i : N) : bool := o_stallb o || (l && negb (i_start i)).
Definition mx_stall (o0 o1 : N) (l0 l1 : bool) (i : N) : bool := mx_stalled o0 l0 i && mx_stalled o1 l1 i.
Definition mx_out (o0 o1 : N) (l0 l1 : bool) (i : N) : N :=
  mx_tx o0 o1 + (if mx_stall o0 o1 l0 l1 i then 2048 else 0).
Definition mx_latch (o : N) (l : bool) (ms : bool) (i : N) : bool :=
  if o_stallb o && negb ms then true else if i_start i || ms then false else l.

Section MuxComb.
  Context {A B : Type}.
  Variable stepA : A -> N -> A * N.        (* handler 0 *)
  Variable stepB : B -> N -> B * N.        (* handler 1 *)

  Definition mx_state : Type := (A * B * (bool * bool))%type.
  Definition mx_step (st : mx_state) (i : N) : mx_state * N :=
    let '(a, b, (l0, l1)) := st in
    let (a', o0) := stepA a i in
    let (b', o1) := stepB b i in
    let ms := mx_stall o0 o1 l0 l1 i in
    ((a', b', (mx_latch o0 l0 ms i, mx_latch o1 l1 ms i)), mx_out o0 o1 l0 l1 i).
End MuxComb.

(* ---- specification: the C09 specification machine for the union of the two collections ---- *)
Definition find2 (cF cR : dcoll) (ty ix : N) : option desc :=
  match find_desc cF ty ix with Some d => Some d | None => find_desc cR ty ix end.
Definition fd2 (cF cR : dcoll) (q : dreq) : option desc := find2 cF cR (v_type (q_value q)) (v_index (q_value q)).

Definition resp_mux (cF cR : dcoll) (mps : N) (q : dreq) : response :=
  match fd2 cF cR q with
  | None => RStall
  | Some d => RData (firstn (N.to_nat (N.min mps (q_wlen q - q_sp q))) (skipn (N.to_nat (q_sp q)) d))
  end.
Definition legal_mux (cF cR : dcoll) (q : dreq) : bool :=
  (q_sp q <? q_wlen q) && match fd2 cF cR q with Some d => q_sp q <=? nlen d | None => true end.
(* implementation-defined latency: that of the handler that owns the descriptor; the ROM handler's for absent ones *)
Definition mx_lat (cF cR : dcoll) (q : dreq) : N :=
  match find_desc cR (v_type (q_value q)) (v_index (q_value q)) with
  | Some _ => ds_lat cR q
  | None => bk_lat cF q
  end.
(* the (type, index) keys of the two parts are disjoint *)
Definition disjoint_keys (cF cR : dcoll) : Prop :=
  forall ty ix, find_desc cF ty ix <> None -> find_desc cR ty ix = None.

(* ---- the code-shaped model: block-ROM handler model + distributed handler model under the mux, plus a ghost
        register (the request of the last start strobe) used only to state the environment assumption of the
        lock-step obligation ---- *)
Record mux_cfg := { x_fixed : dcoll; x_runtime : dcoll; x_mps : N }.

Definition mxm_state : Type := (@mx_state bk_state ds_state * N)%type.
Definition mxm_step (c : mux_cfg) (st : mxm_state) (i : N) : mxm_state * N :=
  let (s, g) := st in
  let (s', o) := mx_step (bk_step (block_cfg (x_fixed c) (x_mps c))) (ds_step (dist_gens (x_runtime c)) (x_mps c)) s i in
  ((s', if i_start i then trunc 45 i else g), o).
Definition mxm_init (c : mux_cfg) : mxm_state := ((bk_init, ds_init (dist_gens (x_runtime c)), (false, false)), 0).

Definition gen_busy (s : bool * cg_state) : bool :=
  fst s || match g_fsm (snd s) with STREAMING => true | _ => false end.
Definition mxm_busy (st : mxm_state) : bool :=
  let '((a, b, _), _) := st in
  negb (fsm_code (b_fsm a) =? 0) || d_zlp b || existsb gen_busy (d_gens b).
(* one request at a time, made only while both handlers are idle; inputs held and start low until both are idle
   again; offsets legal for the union collection *)
Definition mxm_env (c : mux_cfg) (st : mxm_state) (i : N) : bool :=
  if mxm_busy st then
    (i_value i =? i_value (snd st)) && (i_wlen i =? i_wlen (snd st)) && (i_sp i =? i_sp (snd st)) && negb (i_start i)
  else if i_start i then legal_mux (x_fixed c) (x_runtime c) (req_of i) else true.

(* ---- packing for the lock-step obligation ---- *)
Definition mxm_enc (c : mux_cfg) (st : mxm_state) : N :=
  let '((a, b, (l0, l1)), g) := st in
  let gens := dist_gens (x_runtime c) in
  ConstGen.pair 47 (b2n l0 + 2 * b2n l1 + 4 * g)
    (ConstGen.pair (1 + 64 * nlen gens) (ds_enc gens b) (bk_enc (block_cfg (x_fixed c) (x_mps c)) a)).
Definition mxm_dec (c : mux_cfg) (m : N) : mxm_state :=
  let gens := dist_gens (x_runtime c) in
  let lo := trunc 47 m in let hi := N.shiftr m 47 in
  ((bk_dec (block_cfg (x_fixed c) (x_mps c)) (N.shiftr hi (1 + 64 * nlen gens)),
    ds_dec gens (trunc (1 + 64 * nlen gens) hi), (N.testbit lo 0, N.testbit lo 1)), N.shiftr lo 2).
Definition mxm_wf (c : mux_cfg) (st : mxm_state) : Prop :=
  let '((a, b, _), g) := st in
  bk_wf (block_cfg (x_fixed c) (x_mps c)) a /\ ds_wf (dist_gens (x_runtime c)) b /\ g < 2 ^ 45.
