(* C26 -- proofs about the stream arbiter model/specification of Model/Arbiter.v.  Readings of the specification
   (the owner is kept while it holds valid, lowest-numbered valid input next; sp_exactly_once, sp_no_interleave:
   every word accepted is delivered once, bursts are not interleaved), and arb_refines / arb_from_reset: the
   code-shaped model, whose register holds the owner's number, has the specification's outputs. *)
From Coq Require Import NArith Arith List Bool Lia.
Import ListNotations.
From LunaLib Require Import BitFacts Bits Machine.
From LunaModel Require Import Arbiter.
Open Scope N_scope.

(* "later assignments win": a fold over the reversed list picks the first element satisfying p *)
Lemma fold_rev_find : forall (A B : Type) (p : B -> bool) (f : B -> A) l d,
  fold_left (fun acc k => if p k then f k else acc) (rev l) d =
  match find p l with Some k => f k | None => d end.
Proof.
  induction l as [|a l IH]; intros d; simpl; [reflexivity|].
  rewrite fold_left_app. simpl. rewrite IH. destruct (p a); reflexivity.
Qed.

Lemma existsb_find : forall (B : Type) (p : B -> bool) l,
  existsb p l = match find p l with Some _ => true | None => false end.
Proof. induction l as [|a l IH]; simpl; [reflexivity|]. destruct (p a); simpl; auto. Qed.

Lemma find_seq_least : forall (p : nat -> bool) m a k,
  find p (seq a m) = Some k -> forall j, (a <= j < k)%nat -> p j = false.
Proof.
  induction m as [|m IH]; intros a k H j Hj; simpl in H; [discriminate|].
  destruct (p a) eqn:E.
  - inversion H; subst. lia.
  - destruct (Nat.eq_dec j a) as [->|Hne]; [exact E|]. apply (IH (S a) k H). lia.
Qed.

Lemma flat_map_seq_single : forall (B : Type) (f : nat -> list B) m j, (j < m)%nat ->
  (forall k, (k < m)%nat -> k <> j -> f k = []) -> flat_map f (seq 0 m) = f j.
Proof.
  intros B f m j Hj H.
  assert (E : forall a len, (a + len <= j \/ j < a)%nat -> (a + len <= m)%nat -> flat_map f (seq a len) = []).
  { intros a len Ha Hm. rewrite flat_map_concat_map. apply concat_nil_Forall, Forall_map, Forall_forall.
    intros k Hk. apply in_seq in Hk. apply H; lia. }
  replace m with (j + S (m - j - 1))%nat in * by lia.
  rewrite seq_app, flat_map_app. cbn [seq flat_map]. rewrite !E by lia. apply app_nil_r.
Qed.

Lemma testbit_bits2N : forall l k, N.testbit (bits2N l) (N.of_nat k) = nth k l false.
Proof.
  induction l as [|b t IH]; intros k; [destruct k; reflexivity|].
  cbn [bits2N]. rewrite N.add_comm. change (if b then 1 else 0) with (N.b2n b).
  destruct k as [|k]; [apply N.testbit_0_r|].
  rewrite Nat2N.inj_succ, N.testbit_succ_r. apply IH.
Qed.

Section Proofs.
  Variable n : nat.
  Variable bw : N.

  Lemma first_valid_spec : forall i,
    match first_valid n bw i with
    | Some k => (k < n)%nat /\ svalid bw i k = true /\ forall j, (j < k)%nat -> svalid bw i j = false
    | None => forall k, (k < n)%nat -> svalid bw i k = false
    end.
  Proof.
    intro i. unfold first_valid. destruct (find (svalid bw i) (seq 0 n)) as [k|] eqn:E.
    - destruct (find_some _ _ E) as [Hin Hv]. apply in_seq in Hin.
      split; [lia | split; [exact Hv|]]. intros j Hj. apply (find_seq_least _ _ _ _ E). lia.
    - intros k Hk. apply (find_none _ _ E), in_seq. lia.
  Qed.

  Lemma sp_next_lt : forall own i, (own < n)%nat -> (sp_next n bw own i < n)%nat.
  Proof.
    intros own i H. unfold sp_next. destruct (svalid bw i own); [exact H|].
    pose proof (first_valid_spec i) as S. destruct (first_valid n bw i); [apply S | exact H].
  Qed.

  Lemma sp_owner_lt : forall tr own, (own < n)%nat -> (run_state (sp_step n bw) own tr < n)%nat.
  Proof. apply (run_state_inv _ (fun own => (own < n)%nat)). intros own i. apply sp_next_lt. Qed.

  Lemma sp_hold : forall own i, svalid bw i own = true -> sp_next n bw own i = own.
  Proof. intros own i H. unfold sp_next. rewrite H. reflexivity. Qed.

  Lemma sp_priority : forall own i k, svalid bw i own = false ->
    (k < n)%nat -> svalid bw i k = true -> (forall j, (j < k)%nat -> svalid bw i j = false) ->
    sp_next n bw own i = k.
  Proof.
    intros own i k Hown Hk Hv Hlow. unfold sp_next. rewrite Hown.
    pose proof (first_valid_spec i) as S. destruct (first_valid n bw i) as [k'|].
    - (* two least valid inputs: neither is below the other *)
      destruct S as (_ & Hv' & Hlow'). destruct (Nat.lt_total k' k) as [Lt | [E | Lt]]; [|exact E|].
      + rewrite (Hlow k' Lt) in Hv'. discriminate.
      + rewrite (Hlow' k Lt) in Hv. discriminate.
    - rewrite (S k Hk) in Hv. discriminate.
  Qed.

  Lemma sp_stay : forall own i, (forall k, (k < n)%nat -> svalid bw i k = false) -> sp_next n bw own i = own.
  Proof.
    intros own i H. unfold sp_next. destruct (svalid bw i own); [reflexivity|].
    pose proof (first_valid_spec i) as S. destruct (first_valid n bw i) as [k|]; [|reflexivity].
    destruct S as (Hk & Hv & _). rewrite (H k Hk) in Hv. discriminate.
  Qed.

  Lemma sp_idle_iff : forall own i,
    o_idle (sp_view n bw own i) = true <-> (forall k, (k < n)%nat -> svalid bw i k = false).
  Proof.
    intros own i. cbn [sp_view o_idle]. rewrite existsb_find. fold (first_valid n bw i).
    pose proof (first_valid_spec i) as S. destruct (first_valid n bw i) as [k|].
    - destruct S as (Hk & Hv & _). split; [discriminate|]. intro H. rewrite (H k Hk) in Hv. discriminate.
    - split; [intros _; exact S | reflexivity].
  Qed.

  Lemma sp_ready : forall own i k, (k < n)%nat ->
    nth k (o_ready (sp_view n bw own i)) false = Nat.eqb k own && src_ready n bw i.
  Proof.
    intros own i k Hk. cbn [sp_view o_ready].
    rewrite (nth_indep _ false (Nat.eqb 0 own && src_ready n bw i)) by (rewrite map_length, seq_length; exact Hk).
    rewrite (map_nth (fun k => Nat.eqb k own && src_ready n bw i)), seq_nth by exact Hk. reflexivity.
  Qed.

  Lemma sp_forward : forall own i, o_src (sp_view n bw own i) = sink bw i own.
  Proof. reflexivity. Qed.

  Lemma sp_cycle_exactly_once : forall own i, (own < n)%nat ->
    accepted n bw (own, i, sp_view n bw own i) = delivered n bw (own, i, sp_view n bw own i).
  Proof.
    intros own i Hown. unfold accepted, delivered. rewrite (flat_map_seq_single _ _ n own Hown).
    - rewrite sp_ready, Nat.eqb_refl by exact Hown. reflexivity.
    - intros k Hk Hne. rewrite sp_ready by exact Hk. apply Nat.eqb_neq in Hne. rewrite Hne, andb_false_r. reflexivity.
  Qed.

  Theorem sp_exactly_once : forall tr own, (own < n)%nat ->
    flat_map (accepted n bw) (sp_cycles n bw own tr) = flat_map (delivered n bw) (sp_cycles n bw own tr).
  Proof.
    induction tr as [|i t IH]; intros own H; [reflexivity|].
    cbn [sp_cycles flat_map]. rewrite sp_cycle_exactly_once by exact H.
    rewrite IH by (apply sp_next_lt; exact H). reflexivity.
  Qed.

  (* bursts are never interleaved: every word delivered while the owner holds valid is its own *)
  Theorem sp_burst_owner : forall burst own,
    Forall (fun i => svalid bw i own = true) burst ->
    Forall (fun c => fst (fst c) = own) (sp_cycles n bw own burst) /\
    run_state (sp_step n bw) own burst = own.
  Proof.
    induction burst as [|i t IH]; intros own H; [split; [constructor | reflexivity]|].
    inversion H as [|? ? Hi Ht]; subst. cbn [sp_cycles run_state sp_step fst].
    rewrite (sp_hold own i Hi). destruct (IH own Ht) as [IH1 IH2].
    split; [constructor; [reflexivity | exact IH1] | exact IH2].
  Qed.

  Lemma delivered_tag : forall cs own, Forall (fun c : nat * N * arb_out => fst (fst c) = own) cs ->
    Forall (fun w => fst w = own) (flat_map (delivered n bw) cs).
  Proof.
    induction cs as [|[[o i] v] cs IH]; intros own H; [constructor|].
    apply Forall_cons_iff in H. destruct H as [Hc Hcs].
    cbn [flat_map]. apply Forall_app. split; [|apply IH; exact Hcs].
    unfold delivered. cbn [fst] in Hc. subst o.
    destruct (N.odd (o_src v) && src_ready n bw i); constructor; [reflexivity | constructor].
  Qed.

  Lemma sp_cycles_app : forall a b own,
    sp_cycles n bw own (a ++ b) = sp_cycles n bw own a ++ sp_cycles n bw (run_state (sp_step n bw) own a) b.
  Proof.
    induction a as [|i t IH]; intros b own; [reflexivity|].
    cbn [app sp_cycles run_state sp_step fst]. rewrite IH. reflexivity.
  Qed.

  Theorem sp_no_interleave : forall pre burst post own0 k,
    (own0 < n)%nat -> run_state (sp_step n bw) own0 pre = k ->
    Forall (fun i => svalid bw i k = true) burst ->
    sp_cycles n bw own0 (pre ++ burst ++ post) =
      sp_cycles n bw own0 pre ++ sp_cycles n bw k burst ++ sp_cycles n bw k post /\
    Forall (fun w => fst w = k) (flat_map (accepted n bw) (sp_cycles n bw k burst)) /\
    Forall (fun w => fst w = k) (flat_map (delivered n bw) (sp_cycles n bw k burst)).
  Proof.
    intros pre burst post own0 k H0 Hk Hb.
    destruct (sp_burst_owner burst k Hb) as [B1 B2].
    split; [|split].
    - rewrite sp_cycles_app, Hk, sp_cycles_app, B2. reflexivity.
    - rewrite sp_exactly_once by (subst k; apply sp_owner_lt; exact H0). apply delivered_tag. exact B1.
    - apply delivered_tag. exact B1.
  Qed.

  Lemma sp_run_cycles : forall tr own,
    run (sp_step n bw) own tr = map (fun c => pack_out n bw (snd c)) (sp_cycles n bw own tr).
  Proof.
    induction tr as [|i t IH]; intros own; [reflexivity|].
    cbn [run sp_step sp_cycles map snd]. rewrite IH. reflexivity.
  Qed.

  Lemma arb_src_rel : forall own i, (own < n)%nat -> arb_src n bw (N.of_nat own) i = sink bw i own.
  Proof.
    intros own i H. unfold arb_src. rewrite Nat2N.id.
    destruct (N.ltb_spec (N.of_nat own) (N.of_nat n)); [reflexivity | lia].
  Qed.

  Lemma arb_next_rel : forall own i, (own < n)%nat ->
    arb_next n bw (N.of_nat own) i = N.of_nat (sp_next n bw own i).
  Proof.
    intros own i H. unfold arb_next, sp_next. rewrite arb_src_rel by exact H.
    fold (svalid bw i own). destruct (svalid bw i own); [reflexivity|].
    rewrite (fold_rev_find _ _ (svalid bw i) N.of_nat). unfold first_valid.
    destruct (find (svalid bw i) (seq 0 n)); reflexivity.
  Qed.

  Lemma arb_idle_rel : forall own i, (own < n)%nat ->
    arb_idle n bw (N.of_nat own) i = negb (existsb (svalid bw i) (seq 0 n)).
  Proof.
    intros own i H. unfold arb_idle. rewrite arb_src_rel by exact H. fold (svalid bw i own).
    destruct (svalid bw i own) eqn:E.
    - symmetry. apply negb_false_iff, existsb_exists. exists own. split; [apply in_seq; lia | exact E].
    - rewrite (fold_rev_find _ _ (svalid bw i) (fun _ => false)), existsb_find.
      destruct (find (svalid bw i) (seq 0 n)); reflexivity.
  Qed.

  Lemma arb_view_rel : forall own i, (own < n)%nat ->
    arb_view n bw (N.of_nat own) i = sp_view n bw own i.
  Proof.
    intros own i H. unfold arb_view, sp_view. rewrite arb_src_rel, arb_idle_rel by exact H. f_equal.
    apply map_ext. intros k. f_equal.
    destruct (Nat.eqb_spec k own) as [->|Hne]; [apply N.eqb_refl | apply N.eqb_neq; lia].
  Qed.

  Theorem arb_refines : forall tr own, (own < n)%nat ->
    run (arb_step n bw) (N.of_nat own) tr = run (sp_step n bw) own tr.
  Proof.
    induction tr as [|i t IH]; intros own H; [reflexivity|].
    cbn [run arb_step sp_step]. rewrite arb_view_rel, arb_next_rel by exact H.
    f_equal. apply IH. apply sp_next_lt. exact H.
  Qed.

  Corollary arb_from_reset : (1 <= n)%nat -> forall tr,
    run (arb_step n bw) 0 tr = run (sp_step n bw) 0%nat tr.
  Proof. intros Hn tr. apply (arb_refines tr 0%nat). lia. Qed.

  (* the packed output word determines the structured view (so nothing is hidden by packing) *)
  Lemma unpack_out : forall o, o_src o < 2 ^ bw -> length (o_ready o) = n ->
    out_src bw (pack_out n bw o) = o_src o /\
    (forall k, (k < n)%nat -> out_ready bw (pack_out n bw o) k = nth k (o_ready o) false) /\
    out_idle n bw (pack_out n bw o) = o_idle o.
  Proof.
    intros o Hsrc Hlen. unfold pack_out.
    assert (Hhi : forall j, bw <= j -> N.testbit (o_src o) j = false).
    { intros j Hj. rewrite <- (N.mod_small _ _ Hsrc). apply N.mod_pow2_bits_high. exact Hj. }
    split; [|split].
    - unfold out_src. rewrite bits_0. apply N.bits_inj. intro j. destruct (N.lt_ge_cases j bw) as [Hj|Hj].
      + rewrite N.mod_pow2_bits_low, !N.lor_spec, !N.shiftl_spec_low by lia. apply orb_false_r.
      + rewrite N.mod_pow2_bits_high, Hhi by exact Hj. reflexivity.
    - intros k Hk. unfold out_ready. rewrite !N.lor_spec, Hhi by lia.
      rewrite N.shiftl_spec_high', (N.shiftl_spec_low _ (bw + N.of_nat n)) by lia.
      replace (bw + N.of_nat k - bw) with (N.of_nat k) by lia.
      rewrite testbit_bits2N. apply orb_false_r.
    - unfold out_idle. rewrite !N.lor_spec, Hhi, !N.shiftl_spec_high' by lia.
      replace (bw + N.of_nat n - bw) with (N.of_nat n) by lia.
      rewrite testbit_bits2N, nth_overflow, N.sub_diag by lia. destruct (o_idle o); reflexivity.
  Qed.

  Theorem unpack_view : forall own i, let o := pack_out n bw (sp_view n bw own i) in
    out_src bw o = sink bw i own /\
    (forall k, (k < n)%nat -> out_ready bw o k = Nat.eqb k own && src_ready n bw i) /\
    out_idle n bw o = o_idle (sp_view n bw own i).
  Proof.
    intros own i o. destruct (unpack_out (sp_view n bw own i)) as (Hs & Hr & Hi).
    - apply bits_lt.
    - cbn [sp_view o_ready]. rewrite map_length. apply seq_length.
    - split; [exact Hs | split; [|exact Hi]]. intros k Hk. rewrite <- sp_ready by exact Hk. apply Hr, Hk.
  Qed.

  Lemma unpack_valid : forall own i, 0 < bw ->
    out_valid (pack_out n bw (sp_view n bw own i)) = svalid bw i own.
  Proof.
    intros own i Hb. unfold out_valid, pack_out. rewrite !N.lor_spec.
    rewrite !N.shiftl_spec_low by lia. rewrite !orb_false_r. cbn [sp_view o_src].
    unfold svalid. apply N.bit0_odd.
  Qed.
End Proofs.
