(* C27 -- proofs about the StreamSerializer model/specification of Model/Serializer.v.  srel ties the model's
   position and sent counters to the beats the specification still has to send (ConstGen_proofs.at_beat, with one
   byte per word and the data taken from the request); ser_refines / ser_from_reset: the
   model's outputs are the specification's on every input history that respects ss_env. *)
From Coq Require Import NArith List Bool Lia.
Import ListNotations.
From LunaLib Require Import Machine BitFacts.
From LunaModel Require Import ConstGen ConstGen_proofs Serializer.
Open Scope N_scope.

Section SerRefine.
  Variable n : nat.
  Variables dw mlw posw : N.
  Hypothesis Hok : ser_okb n posw = true.

  Local Notation Nn := (N.of_nat n).

  Definition srel (st : ser_state) (s : ss_state) : Prop :=
    match s_fsm st, s with
    | S_IDLE, SsIdle => True
    | S_STREAMING, SsSend bs r =>
        at_beat 1 1 (r_ml n dw mlw posw r) (r_data n dw r) (r_sp n dw posw r) (s_pos st) (s_sent st) bs
    | S_DONE, SsDone => True
    | _, _ => False
    end.

  Lemma r_data_length : forall r, length (r_data n dw r) = n.
  Proof. intros. unfold r_data. rewrite map_length, seq_length. reflexivity. Qed.

  Lemma srel_step : forall st s i, srel st s -> ss_env n dw mlw posw s i = true ->
    srel (ser_next n dw mlw posw st i) (ss_next n dw mlw posw s i) /\ ser_out n dw mlw posw st i = ss_out dw s.
  Proof.
    intros st s i HR HE. unfold srel in HR. unfold ser_out, ser_next.
    destruct (s_fsm st) eqn:EF, s as [ | bs r | ]; try contradiction.
    - split; [|reflexivity]. cbn [ss_env ss_next] in *. set (r := s_req n dw mlw posw i) in *.
      destruct (s_start i && (0 <? r_ml n dw mlw posw r)) eqn:ES; [|exact I].
      assert (Heff : ser_sp_eff n dw posw r = r_sp n dw posw r)
        by (unfold ser_sp_eff; destruct (N.leb_spec Nn (r_sp n dw posw r)); lia).
      unfold srel, at_beat. cbn [s_fsm s_pos s_sent]. rewrite Heff, N.eqb_refl, r_data_length.
      repeat split; reflexivity || lia.
    - (* streaming: the request is held *)
      apply N.eqb_eq in HE. rewrite HE. pose proof HR as (_ & _ & Hlt & _).
      destruct (at_beat_step _ _ _ _ _ _ _ _ HR) as (rest & Hbs & Hrest). cbv zeta in Hbs, Hrest.
      rewrite r_data_length in Hbs, Hrest.
      (* (position == data_length - 1) | (bytes_sent == max_length - 1), read as the specification's test *)
      assert (E : (s_pos st =? Nn - 1) || (r_ml n dw mlw posw r <=? s_sent st + 1) = ser_last n dw mlw posw st r)
        by (unfold ser_last; f_equal; lia).
      rewrite E in Hbs, Hrest. rewrite Hbs. cbn [ss_out ss_next b_first b_last b_payload].
      split; [|reflexivity]. rewrite <- Hbs.
      destruct (s_ready n dw mlw posw i); [|unfold srel; rewrite EF; exact HR].
      destruct (ser_last n dw mlw posw st r); [rewrite Hrest; exact I|].
      (* not the final element *)
      destruct Hrest as [Hne Hat]. destruct rest as [|b' rest']; [congruence|].
      pose proof Hat as (Hpos1 & _). rewrite r_data_length in Hpos1. unfold ser_okb in Hok.
      pose proof (bits_lt r (Nn * dw + posw) mlw : r_ml n dw mlw posw r < 2 ^ mlw).
      unfold srel. cbn [s_fsm s_pos s_sent]. rewrite !trunc_small by lia. exact Hat.
    - split; [exact I | reflexivity].
  Qed.

  Theorem ser_refines : forall tr st s, srel st s ->
    env_ok ss_state (ss_step n dw mlw posw) (ss_env n dw mlw posw) s tr = true ->
    run (ser_step n dw mlw posw) st tr = run (ss_step n dw mlw posw) s tr.
  Proof. apply sim_run. exact srel_step. Qed.

  Corollary ser_from_reset : forall tr,
    env_ok ss_state (ss_step n dw mlw posw) (ss_env n dw mlw posw) SsIdle tr = true ->
    run (ser_step n dw mlw posw) ser_init tr = run (ss_step n dw mlw posw) SsIdle tr.
  Proof. intros tr HE. apply ser_refines; [exact I | exact HE]. Qed.
End SerRefine.

Lemma ser_dec_enc : forall posw st, ser_wf posw st -> ser_dec posw (ser_enc posw st) = st.
Proof.
  intros posw [f p s] Hp. unfold ser_wf in Hp. unfold ser_dec, ser_enc, pair. cbn [s_fsm s_pos s_sent] in *.
  set (fn := match f with S_IDLE => 0 | S_STREAMING => 1 | S_DONE => 2 end).
  assert (Hf : fn < 2 ^ 2) by (subst fn; destruct f; reflexivity).
  rewrite (unpair_lo 2 fn _ Hf), (unpair_hi 2 fn _ Hf).
  rewrite (unpair_lo _ p _ Hp), (unpair_hi _ p _ Hp).
  subst fn. destruct f; reflexivity.
Qed.

Lemma ser_wf_step : forall n dw mlw posw, ser_okb n posw = true ->
  forall st i, ser_wf posw st -> ser_wf posw (fst (ser_step n dw mlw posw st i)).
Proof.
  intros n dw mlw posw Hok st i H. unfold ser_wf in *. unfold ser_step, ser_next. cbn [fst].
  unfold ser_okb in Hok.
  destruct (s_fsm st); cbn [s_pos].
  - unfold ser_sp_eff. destruct (N.of_nat n <=? r_sp n dw posw (s_req n dw mlw posw i)); [lia | apply bits_lt].
  - destruct (s_ready n dw mlw posw i); [|exact H].
    destruct (ser_last n dw mlw posw st (s_req n dw mlw posw i)); cbn [s_pos]; [exact H | apply trunc_lt].
  - exact H.
Qed.

Lemma ser_wf_init : forall posw, ser_wf posw ser_init.
Proof. intros. apply pow2_pos. Qed.
