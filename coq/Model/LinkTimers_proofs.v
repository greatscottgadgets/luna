(* LinkMaintenanceTimers (LinkTimers.v), property C44: the two strobes are a function of the input history
   (tm_from_reset): each is raised exactly T cycles after the last event it watches, as long as the
   timer register has not wrapped. *)
From Coq Require Import NArith List Bool Lia.
Import ListNotations.
From LunaLib Require Import Netlist Machine BitFacts.
From LunaModel Require Import LinkTimers.
Open Scope N_scope.

Section Hist.
  Variables Tk Tr wk wr : N.

  Definition hist_state (hist : list N) : tm_state :=
    {| kt := N.of_nat (quiet i_tx hist) mod 2 ^ wk; rt := N.of_nat (quiet i_rx hist) mod 2 ^ wr |}.

  Lemma tick_quiet : forall w ev i hist,
    tick w (ev i) (i_enable i) (N.of_nat (quiet ev hist) mod 2 ^ w) = N.of_nat (quiet ev (i :: hist)) mod 2 ^ w.
  Proof.
    intros w ev i hist. unfold tick. cbn [quiet].
    destruct (ev i), (i_enable i); cbn [negb andb]; try (symmetry; apply N.mod_0_l, pow2_nz).
    rewrite Nat2N.inj_succ, <- N.add_1_r. apply N.add_mod_idemp_l, pow2_nz.
  Qed.

  Lemma hist_state_next : forall hist i, tm_next wk wr (hist_state hist) i = hist_state (i :: hist).
  Proof. intros. unfold tm_next, hist_state. cbn [kt rt]. f_equal; apply tick_quiet. Qed.

  (* spec_trace is the run of the machine whose state is the history *)
  Theorem tm_model_spec : forall ins hist,
    run (tm_step Tk Tr wk wr) (hist_state hist) ins = spec_trace Tk Tr wk wr hist ins.
  Proof.
    intros ins hist.
    apply (sim_run_all (tm_step Tk Tr wk wr) (fun h i => (i :: h, spec_out Tk Tr wk wr h))
             (fun st h => st = hist_state h)); [|reflexivity].
    intros _ h i ->. split; [apply hist_state_next | reflexivity].
  Qed.

  Corollary tm_from_reset : forall ins,
    run (tm_step Tk Tr wk wr) tm_init ins = spec_trace Tk Tr wk wr [] ins.
  Proof. intros. apply (tm_model_spec ins []). Qed.   (* hist_state [] computes to tm_init: 0 mod _ reduces to 0 *)

  Lemma o_bits : forall a b, o_keepalive (b2n a + 2 * b2n b) = a /\ o_recovery (b2n a + 2 * b2n b) = b.
  Proof. intros [] []; split; reflexivity. Qed.

  Lemma strobe_exact : forall w T q, q < 2 ^ w -> ((q mod 2 ^ w + 1 =? T) = true <-> q + 1 = T).
  Proof. intros w T q H. rewrite N.mod_small by exact H. apply N.eqb_eq. Qed.

  (* T - 1 quiet cycles lie behind: exactly T cycles after the cycle of the last event *)
  Theorem recovery_exact : forall hist, N.of_nat (quiet i_rx hist) < 2 ^ wr ->
    (o_recovery (spec_out Tk Tr wk wr hist) = true <-> N.of_nat (quiet i_rx hist) + 1 = Tr).
  Proof. intros hist H. unfold spec_out. rewrite (proj2 (o_bits _ _)). apply strobe_exact, H. Qed.

  Theorem keepalive_exact : forall hist, N.of_nat (quiet i_tx hist) < 2 ^ wk ->
    (o_keepalive (spec_out Tk Tr wk wr hist) = true <-> N.of_nat (quiet i_tx hist) + 1 = Tk).
  Proof. intros hist H. unfold spec_out. rewrite (proj1 (o_bits _ _)). apply strobe_exact, H. Qed.

  Hypothesis Hk : Tk <= 2 ^ wk.
  Hypothesis Hr : Tr <= 2 ^ wr.

  Corollary recovery_never_early : forall hist, N.of_nat (quiet i_rx hist) + 1 < Tr ->
    o_recovery (spec_out Tk Tr wk wr hist) = false.
  Proof.
    intros hist H. destruct (o_recovery (spec_out Tk Tr wk wr hist)) eqn:E; [|reflexivity].
    apply recovery_exact in E; lia.
  Qed.

  Corollary recovery_on_time : forall hist, N.of_nat (quiet i_rx hist) + 1 = Tr ->
    o_recovery (spec_out Tk Tr wk wr hist) = true.
  Proof. intros hist H. apply recovery_exact; lia. Qed.

  Corollary keepalive_never_early : forall hist, N.of_nat (quiet i_tx hist) + 1 < Tk ->
    o_keepalive (spec_out Tk Tr wk wr hist) = false.
  Proof.
    intros hist H. destruct (o_keepalive (spec_out Tk Tr wk wr hist)) eqn:E; [|reflexivity].
    apply keepalive_exact in E; lia.
  Qed.

  Corollary keepalive_on_time : forall hist, N.of_nat (quiet i_tx hist) + 1 = Tk ->
    o_keepalive (spec_out Tk Tr wk wr hist) = true.
  Proof. intros hist H. apply keepalive_exact; lia. Qed.
End Hist.

Lemma quiet_nth : forall ev hist k, (k < quiet ev hist)%nat ->
  exists j, nth_error hist k = Some j /\ i_enable j = true /\ ev j = false.
Proof.
  induction hist as [|j t IH]; intros k H; cbn [quiet] in H; [lia|].
  destruct (i_enable j && negb (ev j)) eqn:E; [|lia].
  apply andb_true_iff in E as [E1 E2]. apply negb_true_iff in E2.
  destruct k as [|k]; [exists j; repeat split; assumption|].
  cbn [nth_error]. apply IH. lia.
Qed.

Lemma quiet_stop : forall ev hist j, nth_error hist (quiet ev hist) = Some j ->
  i_enable j = false \/ ev j = true.
Proof.
  induction hist as [|a t IH]; intros j H; cbn [quiet] in H; [discriminate|].
  destruct (i_enable a && negb (ev a)) eqn:E.
  - cbn [nth_error] in H. apply IH. exact H.
  - cbn in H. inversion H; subst. apply andb_false_iff in E as [E|E]; [left; exact E|].
    right. apply negb_false_iff in E. exact E.
Qed.

(* used by the tie to the netlist (props/C44.py): packed states decode back, well-formedness is kept *)
Lemma tm_dec_enc : forall wk st, tm_wf wk st -> tm_dec wk (tm_enc wk st) = st.
Proof.
  intros wk [k r] H. unfold tm_dec, tm_enc. cbn [kt rt]. f_equal; [apply digit_mod | apply digit_div]; exact H.
Qed.

Lemma tm_wf_step : forall Tk Tr wk wr st i, tm_wf wk st -> tm_wf wk (fst (tm_step Tk Tr wk wr st i)).
Proof.
  intros. unfold tm_wf, tm_step, tm_next, tick. cbn [fst kt].
  destruct (i_tx i); [apply pow2_pos|]. destruct (i_enable i); [|apply pow2_pos].
  apply N.mod_lt, pow2_nz.
Qed.

Lemma tm_wf_init : forall wk, tm_wf wk tm_init.
Proof. intros. apply pow2_pos. Qed.
