(* IdleHandshakeHandler (IdleHs.v), property C44: the machine's outputs are a function of the input history
   (ih_from_reset), and what that function says in the words of the property (ih_complete_iff,
   ih_detected_iff); the code before a1fe79e, which ignores sink.valid, differs (ih_ignoring_valid_refuted). *)
From Coq Require Import NArith PeanoNat List Bool Lia.
Import ListNotations.
From LunaLib Require Import Netlist Machine BitFacts.
From LunaModel Require Import IdleHs.
Open Scope N_scope.

Section Hist.
  Variable n : N.

  Definition rel (st : ih_state) (hist : list N) : Prop :=
    idle_word (lv st) (lw st) (lc st) = prev_idle hist /\
    seen st = seen_spec hist /\
    cnt st = N.min n (N.of_nat (en_run hist)).

  Lemma rel_init : rel ih_init [].
  Proof. repeat split. symmetry. apply N.min_0_r. Qed.

  Lemma rel_out : forall st hist i, rel st hist -> ih_out n st i = spec_out n hist i.
  Proof.
    intros st hist i (H1 & H2 & H3). unfold ih_out, spec_out, ih_detected. rewrite H1, H2.
    replace (cnt st =? n) with (n <=? N.of_nat (en_run hist)); [reflexivity|].
    rewrite H3. destruct (N.leb_spec n (N.of_nat (en_run hist))) as [Le|Lt]; symmetry.
    - rewrite N.min_l by exact Le. apply N.eqb_refl.
    - rewrite N.min_r by apply N.lt_le_incl, Lt. apply N.eqb_neq, N.lt_neq, Lt.
  Qed.

  (* the enable counter stops at n *)
  Lemma sat_succ : forall x, (if N.min n x <? n then N.min n x + 1 else N.min n x) = N.min n (N.succ x).
  Proof. intros x. destruct (N.ltb_spec (N.min n x) n); lia. Qed.

  Lemma rel_next : forall st hist i, rel st hist -> rel (ih_next n st i) (i :: hist).
  Proof.
    intros st hist i (H1 & H2 & H3). unfold rel, ih_next, ih_detected. cbn [lv lw lc seen cnt].
    split; [reflexivity|]. split.
    - cbn [seen_spec]. rewrite H1, H2. destruct (i_enable i); cbn [andb]; [|reflexivity].
      rewrite (andb_comm (prev_idle hist)). reflexivity.
    - cbn [en_run]. destruct (i_enable i).
      + rewrite H3, Nat2N.inj_succ. apply sat_succ.
      + symmetry. apply N.min_0_r.
  Qed.

  (* spec_trace n is the run of the machine whose state is the history *)
  Theorem ih_model_spec : forall ins st hist, rel st hist ->
    run (ih_step n) st ins = spec_trace n hist ins.
  Proof.
    apply (sim_run_all (ih_step n) (fun h i => (i :: h, spec_out n h i)) rel).
    intros st hist i H. split; [apply rel_next | apply rel_out]; exact H.
  Qed.

  Corollary ih_from_reset : forall ins, run (ih_step n) ih_init ins = spec_trace n [] ins.
  Proof. intros. apply ih_model_spec, rel_init. Qed.
End Hist.

Lemma en_run_nth : forall hist k, (k < en_run hist)%nat ->
  exists j, nth_error hist k = Some j /\ i_enable j = true.
Proof.
  induction hist as [|j t IH]; intros k H; cbn [en_run] in H; [lia|].
  destruct (i_enable j) eqn:E; [|lia].
  destruct k as [|k]; [exists j; split; [reflexivity | exact E]|].
  cbn [nth_error]. apply IH. lia.
Qed.

Lemma seen_spec_iff : forall hist, seen_spec hist = true <->
  exists s j j', nth_error hist s = Some j /\ nth_error hist (S s) = Some j' /\
                 is_idle j = true /\ is_idle j' = true /\ (s < en_run hist)%nat.
Proof.
  induction hist as [|j t IH]; cbn [seen_spec en_run].
  - split; [discriminate|]. intros (s & a & b & H & _). destruct s; discriminate.
  - destruct (i_enable j); cbn [andb].
    2: { split; [discriminate|]. intros (s & _ & _ & _ & _ & _ & _ & L). inversion L. }
    rewrite orb_true_iff, IH, andb_true_iff. split.
    + intros [(s & a & b & A & B & C & D & L) | (I1 & I2)].
      * exists (S s), a, b. repeat split; try assumption. apply -> Nat.succ_lt_mono. exact L.
      * destruct t as [|j' t']; [discriminate|].
        exists O, j, j'. repeat split; try assumption. apply Nat.lt_0_succ.
    + intros ([|s] & a & b & A & B & C & D & L).
      * right. injection A as <-. destruct t as [|j' t']; [discriminate|]. injection B as <-.
        split; assumption.
      * left. exists s, a, b. repeat split; try assumption. apply Nat.succ_lt_mono. exact L.
Qed.

Lemma o_pack : forall b c, o_detected (b2n b + 2 * b2n c) = b /\ o_complete (b2n b + 2 * b2n c) = c.
Proof. intros [] []; split; reflexivity. Qed.

(* C44.  hist = the words received in earlier cycles, most recent first.  4 symbols are sent per cycle: enable high
   in the n previous cycles is at least 4n symbols sent (16 for LUNA's n = 4); two consecutive VALID logical-idle
   words are eight consecutive valid idle symbols. *)
Theorem ih_complete_iff : forall n hist i,
  o_complete (spec_out n hist i) = true <->
  i_enable i = true /\ (N.to_nat n <= en_run hist)%nat /\
  exists s j j', nth_error hist s = Some j /\ nth_error hist (S s) = Some j' /\
                 is_idle j = true /\ is_idle j' = true /\ (s < en_run hist)%nat.
Proof.
  intros n hist i. unfold spec_out. rewrite (proj2 (o_pack _ _)), <- seen_spec_iff.
  rewrite !andb_true_iff, N.leb_le. split; intros (A & B & C); repeat split; try assumption; lia.
Qed.

Theorem ih_detected_iff : forall n hist i,
  o_detected (spec_out n hist i) = true <-> prev_idle hist = true /\ is_idle i = true.
Proof. intros. unfold spec_out. rewrite (proj1 (o_pack _ _)). apply andb_true_iff. Qed.

(* the behaviour of the code before a1fe79e (a word counts as idle whatever sink.valid says, and so does the all-zero
   reset value of the capture register: lv = true in the start state below) does not satisfy the specification: *)
Definition ih_step_novalid (n : N) (st : ih_state) (i : N) : ih_state * N :=
  ih_step n st (N.lor i 2).     (* the handler before a1fe79e = this model with valid forced to 1 *)
Theorem ih_ignoring_valid_refuted : exists ins,
  run (ih_step_novalid 4) {| lv := true; lw := 0; lc := 0; seen := false; cnt := 0 |} ins <> spec_trace 4 [] ins.
Proof. exists [mk_in true false 0 0; mk_in true false 0 0]. vm_compute. discriminate. Qed.

(* used by the tie to the netlist (props/C44.py): packed states decode back, well-formedness is kept *)
Lemma ih_dec_enc : forall st, ih_wf st -> ih_dec (ih_enc st) = st.
Proof.
  intros [v w c s k] (Hk & Hc). cbn [cnt lc] in *. unfold ih_dec, ih_enc. cbn [lv lw lc seen cnt].
  set (L := [(3, k); (1, b2n s); (1, b2n v); (4, c)]).
  assert (HL : fields_ok L) by (repeat constructor; try apply b2n_lt2; assumption).
  change (k + 8 * _) with (fields_under L w). f_equal.
  - exact (fields_under_flag L w 2 v HL eq_refl).
  - exact (fields_under_rest L w HL).
  - exact (fields_under_digit L w 3 HL).
  - exact (fields_under_flag L w 1 s HL eq_refl).
  - apply digit_mod, Hk.
Qed.

Lemma ih_wf_step : forall n, n <= 7 -> forall st i, ih_wf st -> ih_wf (fst (ih_step n st i)).
Proof.
  intros n Hn st i (Hk & Hc). unfold ih_wf, ih_step, ih_next. cbn [fst cnt lc]. split; [|apply bits_lt].
  destruct (i_enable i); [|reflexivity]. destruct (N.ltb_spec (cnt st) n); lia.
Qed.

Lemma ih_wf_init : ih_wf ih_init.
Proof. split; reflexivity. Qed.
