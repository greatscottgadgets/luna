(* C48, setup decoder -- proofs about Model/SsSetupDec.v: under the packet-delivery environment the fixed decoder
   model (sd_step true) is output-equal to the word-accumulating specification (sd_refines, by the relation sd_rel);
   the witnesses against the decoder without the two fixes (sd_step false) are in Properties/C48.v. *)
From Coq Require Import NArith List Bool.
Import ListNotations.
From LunaLib Require Import Machine BitFacts.
From LunaModel Require Import SsSetupDec.
Open Scope N_scope.

(* can the packet accumulated so far still turn out to be a setup packet? *)
Definition viable (f : bool) (ws : list (N * N)) (e : sd_est) : bool :=
  f && match ws, e with
       | [(_, v0)], EIn => v0 =? 15
       | [(_, v0); (_, v1)], EAwait => (v0 =? 15) && (v1 =? 15)
       | _, _ => false
       end.

(* the decoder is in WaitFirst exactly when the packet being delivered, if any, is no longer viable; otherwise its two
   capture registers hold the full words delivered so far *)
Definition sd_rel (st : sd_st) (s : ssd_st) (e : sd_est) : Prop :=
  d_out st = s_out s /\ d_rcv st = s_rcv s /\
  match d_fsm st with
  | WaitFirst => match s_cur s with
                 | None => e = E0
                 | Some (f, ws) => e <> E0 /\ ws <> [] /\ viable f ws e = false
                 end
  | ParseSecond => s_cur s = Some (true, [(d_w0 st, 15)]) /\ e = EIn
  | WaitValid => s_cur s = Some (true, [(d_w0 st, 15); (d_w1 st, 15)]) /\ e = EAwait
  end.

Lemma sd_rel_init : sd_rel sd_init ssd_init E0.
Proof. repeat split. Qed.

Lemma not_viable_not_setup : forall f ws, viable f ws EAwait = false -> is_setup_packet f ws = None.
Proof.
  intros f ws H. unfold viable in H. unfold is_setup_packet.
  destruct ws as [|[d0 v0] [|[d1 v1] [|x r]]]; try reflexivity.
  destruct f; cbn [andb] in *; [rewrite H; reflexivity | reflexivity].
Qed.

Lemma viable_app : forall f ws x e', ws <> [] -> viable f ws EIn = false -> viable f (ws ++ [x]) e' = false.
Proof.
  intros f ws x e' Hne H. unfold viable in *. destruct f; [|reflexivity]. cbn [andb] in *.
  destruct ws as [|[d0 v0] [|[d1 v1] r]]; [contradiction | |].
  - cbn [app]. destruct x as [d1 v1]. destruct e'; try reflexivity. rewrite H. reflexivity.
  - cbn [app]. destruct (r ++ [x]) eqn:E; [destruct r; discriminate|]. destruct e'; reflexivity.
Qed.

Lemma full_v : forall i, sd_full i = true -> sd_v i = 15.
Proof. intros i H. apply N.eqb_eq, H. Qed.

Lemma no_word_not_full : forall i, sd_word i = false -> sd_full i = false.
Proof. intros i H. unfold sd_full, sd_word in *. apply negb_false_iff, N.eqb_eq in H. rewrite H. reflexivity. Qed.

Lemma sd_rel_step_plain : forall st s e i e', sd_rel st s e -> sd_env_plain e i = Some e' ->
  sd_rel (sd_next true st i) (ssd_next s i) e'.
Proof.
  intros [fsm w0 w1 out rcv] [cur sout srcv] e i e' (Ho & Hr & H) Henv.
  cbn [d_fsm d_w0 d_w1 d_out d_rcv s_cur s_out s_rcv] in *. subst sout srcv.
  unfold sd_env_plain, sd_env_core in Henv.
  (* four cases: WaitFirst with a packet under way, WaitFirst between packets, ParseSecond, WaitValid *)
  destruct fsm; [destruct cur as [[f ws]|]; [destruct H as (Hne & Hws & Hv) | subst e] | destruct H as [-> ->] ..];
    unfold sd_rel, sd_next, ssd_next; cbn [d_fsm d_w0 d_w1 d_out d_rcv s_cur s_out s_rcv].
  - destruct (sd_word i) eqn:Ew.
    + destruct (sd_good i), (sd_bad i); try discriminate. cbn [andb orb] in *.
      destruct e; [congruence | | discriminate]. destruct (sd_first i); [discriminate|].
      rewrite andb_false_r. cbn [andb d_fsm d_out d_rcv s_cur s_out s_rcv].
      assert (e' <> E0) by (destruct (sd_last i), (sd_full i); try discriminate; injection Henv as <-; discriminate).
      repeat split; [assumption | destruct ws; discriminate | apply viable_app; assumption].
    + rewrite (no_word_not_full i Ew). cbn [andb orb] in *.
      destruct (sd_good i), (sd_bad i); try discriminate; cbn [andb orb] in *;
        (destruct e; [congruence | ..]); try discriminate; injection Henv as <-;
        rewrite ?(not_viable_not_setup _ _ Hv); repeat split; assumption || discriminate.
  - destruct (sd_word i) eqn:Ew.
    + destruct (sd_good i), (sd_bad i); try discriminate. cbn [andb orb negb] in *.
      destruct (sd_first i); [|discriminate]. destruct (sd_last i); cbn [andb negb].
      * injection Henv as <-. rewrite andb_false_r. repeat split; try discriminate. apply andb_false_r.
      * destruct (sd_full i) eqn:Ef; [|discriminate]. injection Henv as <-.
        rewrite (full_v i Ef). destruct (sd_setup i); repeat split; discriminate.
    + rewrite (no_word_not_full i Ew). cbn [andb orb] in *.
      destruct (sd_good i), (sd_bad i); try discriminate; injection Henv as <-; repeat split.
  - destruct (sd_word i) eqn:Ew.
    + destruct (sd_good i), (sd_bad i); try discriminate. cbn [andb orb] in *.
      destruct (sd_first i); [discriminate|]. unfold viable. cbn [app andb].
      destruct (sd_last i), (sd_full i) eqn:Ef; try discriminate; injection Henv as <-; cbn [andb d_fsm d_w0 d_w1 s_cur];
        rewrite ?(full_v i Ef); repeat split; try discriminate; exact Ef.
    + rewrite (no_word_not_full i Ew). cbn [andb orb] in *.
      destruct (sd_good i), (sd_bad i); try discriminate; injection Henv as <-; repeat split.
  - destruct (sd_word i); destruct (sd_good i), (sd_bad i); try discriminate; injection Henv as <-; repeat split.
Qed.

Lemma sd_rel_step_abort : forall st s e i e', sd_rel st s e -> sd_word i = true -> sd_bad i = true ->
  sd_env_next e i = Some e' -> sd_rel (sd_next true st i) (ssd_next s i) e'.
Proof.
  intros [fsm w0 w1 out rcv] [cur sout srcv] e i e' (Ho & Hr & H) Ew Eb Henv.
  cbn [d_fsm d_w0 d_w1 d_out d_rcv s_cur s_out s_rcv] in *. subst sout srcv.
  unfold sd_env_next, sd_env_core in Henv. rewrite Ew, Eb in Henv.
  destruct (sd_good i) eqn:Eg; [discriminate|]. cbn [andb orb] in Henv.
  unfold sd_rel, sd_next, ssd_next. cbn [d_fsm d_w0 d_w1 d_out d_rcv s_cur s_out s_rcv].
  rewrite Ew, Eb, Eg. cbn [negb andb orb].
  destruct fsm.
  - rewrite !andb_false_r. destruct e; [..|discriminate]; (destruct (if sd_first i then _ else _); [|discriminate]); injection Henv as <-; repeat split.
  - destruct H as [_ ->]. (destruct (if sd_first i then _ else _); [|discriminate]); injection Henv as <-; repeat split.
  - destruct H as [_ ->]. discriminate.
Qed.

Lemma sd_env_next_plain : forall e i, sd_word i && sd_bad i = false -> sd_env_next e i = sd_env_plain e i.
Proof.
  intros e i H. unfold sd_env_next, sd_env_plain. rewrite H.
  destruct (sd_word i), (sd_good i), (sd_bad i); try discriminate; reflexivity.
Qed.

Lemma sd_rel_step : forall st s e i e', sd_rel st s e -> sd_env_next e i = Some e' ->
  sd_rel (sd_next true st i) (ssd_next s i) e'.
Proof.
  intros st s e i e' R Henv. destruct (sd_word i && sd_bad i) eqn:Ea.
  - apply andb_true_iff in Ea as [Ew Eb]. apply (sd_rel_step_abort st s e); assumption.
  - rewrite (sd_env_next_plain e i Ea) in Henv. apply (sd_rel_step_plain st s e); assumption.
Qed.

Theorem sd_refines : forall tr st s e, sd_rel st s e -> sd_env_ok e tr = true ->
  run (sd_step true) st tr = run ssd_step s tr.
Proof.
  induction tr as [|i t IH]; intros st s e R Henv; [reflexivity|].
  cbn [sd_env_ok] in Henv. destruct (sd_env_next e i) as [e'|] eqn:E; [|discriminate].
  cbn [run]. unfold sd_step at 1, ssd_step at 1.
  pose proof R as (Ho & Hr & _). rewrite Ho, Hr. f_equal.
  apply (IH _ _ e'); [apply (sd_rel_step _ _ e); assumption | exact Henv].
Qed.

Corollary sd_refines_from_reset : forall tr, sd_env_ok E0 tr = true ->
  run (sd_step true) sd_init tr = run ssd_step ssd_init tr.
Proof. intros. apply (sd_refines tr sd_init ssd_init E0); [apply sd_rel_init | assumption]. Qed.

Lemma sd_dec_enc : forall st, sd_wf st -> sd_dec (sd_enc st) = st.
Proof.
  intros [f w0 w1 out rcv] [H0 H1]. cbn [d_w0 d_w1] in *. unfold sd_dec, sd_enc.
  cbn [d_fsm d_w0 d_w1 d_out d_rcv]. cbv zeta.
  set (t := match f with WaitFirst => 0 | ParseSecond => 1 | WaitValid => 2 end).
  assert (Ht : t < 2 ^ 2) by (destruct f; reflexivity).
  change 3 with (N.ones 2). change 4 with (2 ^ 2).
  rewrite !N.shiftr_div_pow2, !N.land_ones. change (2 ^ 1) with 2.
  rewrite digit_mod, !(digit_div (2 ^ 2)) by exact Ht.
  rewrite odd_b2n_add_2, !(digit_div 2) by apply b2n_lt2.
  rewrite (digit_mod (2 ^ 32)), !(digit_div (2 ^ 32) w0) by exact H0.
  rewrite digit_mod, digit_div by exact H1. subst t. destruct f; reflexivity.
Qed.

Lemma sd_wf_step : forall fixed st i, sd_wf st -> sd_wf (fst (sd_step fixed st i)).
Proof.
  intros fixed [f w0 w1 out rcv] i [H0 H1]. pose proof (bits_lt i 6 32 : sd_data i < 2 ^ 32) as Hd.
  unfold sd_step, sd_next, sd_wf in *. cbn [fst d_fsm d_w0 d_w1] in *.
  destruct f; [destruct (_ && _) | | destruct (sd_good i)]; cbn [d_w0 d_w1]; try (split; assumption).
  split; [assumption | destruct (_ && _); assumption].
Qed.

Lemma sd_wf_init : sd_wf sd_init.
Proof. split; reflexivity. Qed.

Lemma sde_dec_enc : forall s, sde_wf s -> sde_dec (sde_enc s) = s.
Proof.
  intros [st e] H. unfold sde_dec, sde_enc, sde_wf in *. cbn [fst snd] in *.
  assert (Hc : sd_est_code e < 2 ^ 2) by (destruct e; reflexivity).
  change 3 with (N.ones 2). change 4 with (2 ^ 2). rewrite N.shiftr_div_pow2, N.land_ones, digit_mod, digit_div by exact Hc.
  rewrite sd_dec_enc by exact H. destruct e; reflexivity.
Qed.

Lemma sde_wf_step : forall fixed s i, sde_wf s -> sde_wf (fst (sde_step fixed s i)).
Proof. intros fixed [st e] i H. exact (sd_wf_step fixed st i H). Qed.

Lemma sde_run : forall fixed tr st e, run (sde_step fixed) (st, e) tr = run (sd_step fixed) st tr.
Proof.
  induction tr as [|i t IH]; intros st e; [reflexivity|]. cbn [run]. unfold sde_step at 1, sd_step at 1.
  cbn [fst snd]. rewrite IH. reflexivity.
Qed.

Lemma sde_env_ok : forall fixed tr st e,
  env_ok sde_st (sde_step fixed) sde_env (st, e) tr = sd_env_ok e tr.
Proof.
  induction tr as [|i t IH]; intros st e; [reflexivity|]. cbn [env_ok sd_env_ok].
  replace (fst (sde_step fixed (st, e) i))
    with (sd_next fixed st i, match sd_env_next e i with Some e' => e' | None => e end) by reflexivity.
  unfold sde_env at 1. cbn [snd].
  destruct (sd_env_next e i) as [e'|]; cbn [andb]; [apply IH | reflexivity].
Qed.
