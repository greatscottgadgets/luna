(* C56 -- proofs about the IntegratedLogicAnalyzer model (Model/Ila.v): the code-shaped model has the outputs
   of the history-based specification machine; what that machine does during a capture and while idle; the
   two combined on the model's outputs from reset; packing for the lock-step obligation. *)
From Coq Require Import NArith List Arith Lia.
Import ListNotations.
From LunaLib Require Import Machine SymWord PackN ListMem ListFacts.
From LunaModel Require Import Ila.
Open Scope nat_scope.

Section Refine.
  Variables depth pw pre : nat.
  Hypothesis Hdepth : 1 <= depth.
  Hypothesis Hpw : depth <= 2 ^ pw.

  Definition rel (st : ila_state) (s : ispec) : Prop :=
    il_pipe st = lpad 0%N pre (sp_past s) /\
    il_mem st = sp_buf s /\ il_rdata st = sp_shown s /\ il_complete st = sp_done s /\
    match sp_phase s with
    | None => il_sampling st = false /\ il_en st = false
    | Some k => il_sampling st = true /\ il_en st = true /\ il_pos st = k /\ k < depth
    end.

  Lemma rel_init : rel (ila_init depth pre) (sp_init depth).
  Proof. unfold rel, ila_init, sp_init. cbn. rewrite lpad_nil. repeat split. Qed.

  Lemma rel_out : forall st s, rel st s -> ila_out_of st = sp_out s.
  Proof.
    intros st s (_ & _ & Hr & Hc & Hp). unfold ila_out_of, sp_out. rewrite Hr, Hc.
    destruct (sp_phase s) as [k|]; [destruct Hp as (-> & _) | destruct Hp as (-> & _)]; reflexivity.
  Qed.

  Lemma rel_delayed : forall st s i, rel st s -> ila_delayed pre st i = sp_sample pre s i.
  Proof.
    intros st s i (Hl & _). unfold ila_delayed, sp_sample. destruct pre as [|p]; [reflexivity|].
    rewrite Hl. exact (nth_lpad 0%N (S p) (sp_past s) p (Nat.lt_succ_diag_r p)).
  Qed.

  Lemma rel_next : forall st s i, rel st s -> rel (ila_next depth pw pre st i) (sp_next depth pre s i).
  Proof.
    intros st s i H. pose proof (rel_delayed st s i H) as Hd.
    destruct H as (Hl & Hm & Hr & Hc & Hp).
    assert (Hl' : firstn pre (ii_probe i :: il_pipe st) = lpad 0%N pre (ii_probe i :: sp_past s))
      by (rewrite Hl; apply lpad_cons).
    unfold rel, ila_next, sp_next. destruct (sp_phase s) as [k|].
    - destruct Hp as (Hs & He & Hk & Hlt). rewrite Hs, He, Hk, Hd, Hm, Hc.
      destruct (Nat.eqb_spec (S k) depth) as [E|E]; cbn.
      + repeat split; assumption.
      + assert (HH : S k < 2 ^ pw) by (clear - Hpw Hlt E; lia).
        repeat split; try assumption; [apply Nat.mod_small; exact HH | lia].
    - destruct Hp as (Hs & He). rewrite Hs, He, Hm, Hc.
      destruct (ii_trigger i); cbn; repeat split; try assumption; clear - Hdepth; lia.
  Qed.

  Theorem ila_refines : forall ins st s, rel st s -> ila_run depth pw pre st ins = sp_run depth pre s ins.
  Proof.
    induction ins as [|i t IH]; intros st s H; [reflexivity|].
    cbn [ila_run sp_run]. rewrite (rel_out st s H). f_equal. apply IH. apply rel_next. exact H.
  Qed.

  Corollary ila_from_reset : forall ins,
    ila_run depth pw pre (ila_init depth pre) ins = sp_run depth pre (sp_init depth) ins.
  Proof. intros. apply ila_refines. apply rel_init. Qed.
End Refine.

Section Capture.
  Variables depth pre : nat.
  Notation sp_next := (sp_next depth pre).
  Notation sp_run := (sp_run depth pre).
  Notation sp_run_state := (sp_run_state depth pre).

  (* sp_run and sp_run_state are the typed run of this step function *)
  Notation sp_step := (fun s i => (sp_next s i, sp_out s)).

  Lemma sp_run_app : forall a b s, sp_run s (a ++ b) = sp_run s a ++ sp_run (sp_run_state s a) b.
  Proof. exact (trun_app sp_step). Qed.

  Lemma sp_run_state_app : forall a b s, sp_run_state s (a ++ b) = sp_run_state (sp_run_state s a) b.
  Proof. exact (tstate_app sp_step). Qed.

  Lemma sp_run_length : forall a s, length (sp_run s a) = length a.
  Proof. exact (trun_length sp_step). Qed.

  Lemma sp_past_run : forall a s, sp_past (sp_run_state s a) = rev (map ii_probe a) ++ sp_past s.
  Proof.
    induction a as [|i t IH]; intros s; [reflexivity|]. cbn [sp_run_state map rev]. rewrite IH.
    cbn [Ila.sp_next sp_past]. rewrite <- app_assoc. reflexivity.
  Qed.

  Lemma sp_buf_length : forall s i, length (sp_buf (sp_next s i)) = length (sp_buf s).
  Proof. intros. cbn. destruct (sp_phase s); [apply upd_length | reflexivity]. Qed.

  Lemma sp_buf_length_run : forall a s, length (sp_buf (sp_run_state s a)) = length (sp_buf s).
  Proof. induction a as [|i t IH]; intros s; [reflexivity|]. cbn [sp_run_state]. rewrite IH. apply sp_buf_length. Qed.

  Lemma sp_next_idle : forall s i, sp_phase s = None ->
    sp_next s i =
    {| sp_past := ii_probe i :: sp_past s; sp_phase := if ii_trigger i then Some 0 else None;
       sp_buf := sp_buf s; sp_done := if ii_trigger i then false else sp_done s;
       sp_shown := nth (ii_number i) (sp_buf s) 0%N |}.
  Proof. intros s i H. unfold Ila.sp_next. rewrite H. reflexivity. Qed.

  Lemma sp_next_capturing : forall s i k, sp_phase s = Some k ->
    sp_next s i =
    {| sp_past := ii_probe i :: sp_past s; sp_phase := if S k =? depth then None else Some (S k);
       sp_buf := upd k (sp_sample pre s i) (sp_buf s); sp_done := if S k =? depth then true else sp_done s;
       sp_shown := nth (ii_number i) (sp_buf s) 0%N |}.
  Proof. intros s i k H. unfold Ila.sp_next. rewrite H. reflexivity. Qed.

  Lemma sp_capture_from : forall body s k, sp_phase s = Some k -> k + length body = depth -> body <> [] ->
    length (sp_buf s) = depth ->
    let s' := sp_run_state s body in
    sp_phase s' = None /\ sp_done s' = true /\
    (forall n, n < k -> nth n (sp_buf s') 0%N = nth n (sp_buf s) 0%N) /\
    (forall j, j < length body ->
       nth (k + j) (sp_buf s') 0%N = nth pre (rev (map ii_probe (firstn (S j) body)) ++ sp_past s) 0%N) /\
    Forall (fun o => io_sampling o = true /\ io_complete o = sp_done s) (sp_run s body).
  Proof.
    induction body as [|i rest IH]; intros s k Hph Hlen Hne Hbl; [contradiction|].
    assert (Ho : io_sampling (sp_out s) = true /\ io_complete (sp_out s) = sp_done s)
      by (unfold sp_out; rewrite Hph; split; reflexivity).
    cbn [sp_run_state Ila.sp_run length] in *.
    pose proof (sp_next_capturing s i k Hph) as E1.
    destruct (Nat.eqb_spec (S k) depth) as [E|NE].
    - (* last sample *)
      destruct rest; [|cbn [length] in Hlen; lia]. cbn [sp_run_state Ila.sp_run]. rewrite E1.
      cbn [sp_phase sp_done sp_buf]. repeat split; auto.
      + intros n Hn. apply nth_upd_other. lia.
      + intros j Hj. replace (k + j) with k by lia. replace j with 0 by lia. apply nth_upd_same. lia.
    - (* more samples follow *)
      destruct (IH (sp_next s i) (S k)) as (R1 & R2 & R4 & R5 & R6);
        [rewrite E1; reflexivity | lia | intros ->; cbn [length] in Hlen; lia
        | rewrite E1; cbn [sp_buf]; rewrite upd_length; exact Hbl |].
      rewrite E1 in *. cbn [sp_buf sp_past sp_done] in R4, R5, R6. repeat split; auto.
      + intros n Hn. rewrite R4 by lia. apply nth_upd_other. lia.
      + intros [|j] Hj.
        * rewrite Nat.add_0_r, R4 by lia. apply nth_upd_same. lia.
        * rewrite <- Nat.add_succ_comm, (R5 j) by lia. cbn [firstn map rev]. rewrite <- !app_assoc. reflexivity.
  Qed.

  (* C56: a trigger cycle, then `depth` cycles of ARBITRARY inputs: sample n is the probe `pre` cycles before body cycle n *)
  Theorem sp_capture : forall s i0 body, 1 <= depth ->
    sp_phase s = None -> ii_trigger i0 = true -> length body = depth -> length (sp_buf s) = depth ->
    let s' := sp_run_state s (i0 :: body) in
    sp_phase s' = None /\ sp_done s' = true /\ length (sp_buf s') = depth /\
    (forall n, n < depth ->
       nth n (sp_buf s') 0%N = nth pre (rev (map ii_probe (firstn (S n) body)) ++ ii_probe i0 :: sp_past s) 0%N) /\
    Forall (fun o => io_sampling o = true /\ io_complete o = false) (sp_run (sp_next s i0) body).
  Proof.
    intros s i0 body Hd Hph Htr Hlen Hbl. cbn [sp_run_state].
    pose proof (sp_next_idle s i0 Hph) as E1. rewrite Htr in E1.
    destruct (sp_capture_from body (sp_next s i0) 0) as (R1 & R2 & _ & R5 & R6);
      [rewrite E1; reflexivity | exact Hlen | intros ->; cbn [length] in Hlen; lia | rewrite E1; exact Hbl |].
    rewrite sp_buf_length_run, E1, Hlen in *. repeat split; auto.
  Qed.

  (* idle without trigger: nothing moves, reads are answered one cycle later *)
  Fixpoint expect_reads (buf : list N) (shown : N) (reads : list ila_in) : list ila_out :=
    match reads with
    | [] => []
    | r :: t => {| io_sampling := false; io_complete := true; io_captured := shown |}
                :: expect_reads buf (nth (ii_number r) buf 0%N) t
    end.

  Theorem sp_idle_reads : forall reads s, sp_phase s = None -> sp_done s = true ->
    Forall (fun r => ii_trigger r = false) reads ->
    sp_run s reads = expect_reads (sp_buf s) (sp_shown s) reads /\
    sp_buf (sp_run_state s reads) = sp_buf s /\ sp_phase (sp_run_state s reads) = None.
  Proof.
    induction reads as [|r t IH]; intros s Hph Hdn Hall; [repeat split; assumption|].
    inversion Hall as [|? ? Hr Ht]; subst. cbn [Ila.sp_run expect_reads sp_run_state].
    pose proof (sp_next_idle s r Hph) as E1. rewrite Hr in E1.
    destruct (IH (sp_next s r)) as (-> & -> & ->); [rewrite E1; reflexivity | rewrite E1; exact Hdn | exact Ht |].
    rewrite E1. unfold sp_out. rewrite Hph, Hdn. repeat split.
  Qed.
End Capture.

(* C56, on the model's outputs from reset: a `prefix` that ends idle, a trigger cycle, `depth` arbitrary cycles, then reads *)
Theorem ila_capture_readback : forall depth pw pre prefix i0 body reads,
  1 <= depth -> depth <= 2 ^ pw ->
  sp_phase (sp_run_state depth pre (sp_init depth) prefix) = None ->
  ii_trigger i0 = true -> length body = depth -> Forall (fun r => ii_trigger r = false) reads ->
  exists samples shown, length samples = depth /\
    (forall n, n < depth ->
       nth n samples 0%N = nth pre (rev (map ii_probe (firstn (S n) body)) ++ ii_probe i0 :: rev (map ii_probe prefix)) 0%N) /\
    skipn (length prefix + 1 + depth) (ila_run depth pw pre (ila_init depth pre) (prefix ++ i0 :: body ++ reads))
      = expect_reads samples shown reads /\
    Forall (fun o => io_sampling o = true /\ io_complete o = false)
      (firstn depth (skipn (length prefix + 1) (ila_run depth pw pre (ila_init depth pre) (prefix ++ i0 :: body ++ reads)))).
Proof.
  intros depth pw pre prefix i0 body reads Hd Hpw Hidle Htr Hlen Hreads.
  rewrite (ila_from_reset depth pw pre Hd Hpw).
  set (s := sp_run_state depth pre (sp_init depth) prefix) in *.
  assert (Hbl : length (sp_buf s) = depth).
  { unfold s. rewrite sp_buf_length_run. cbn [sp_init sp_buf]. apply repeat_length. }
  destruct (sp_capture depth pre s i0 body Hd Hidle Htr Hlen Hbl) as (R1 & R2 & R3 & R4 & R5).
  set (s' := sp_run_state depth pre s (i0 :: body)) in *.
  destruct (sp_idle_reads depth pre reads s' R1 R2 Hreads) as (E1 & _ & _).
  exists (sp_buf s'), (sp_shown s'). split; [exact R3|]. split.
  - intros n Hn. rewrite (R4 n Hn). unfold s. rewrite sp_past_run. cbn [sp_init sp_past]. rewrite app_nil_r. reflexivity.
  - rewrite sp_run_app. fold s. cbn [Ila.sp_run]. rewrite sp_run_app. fold s'. split.
    + rewrite app_comm_cons, app_assoc, skipn_app_l; [exact E1|].
      rewrite app_length. cbn [length]. rewrite !sp_run_length. lia.
    + change (sp_out s :: ?X) with ([sp_out s] ++ X).
      rewrite app_assoc, skipn_app_l by (rewrite app_length, sp_run_length; reflexivity).
      rewrite firstn_app_l by (rewrite sp_run_length; exact Hlen). exact R5.
Qed.

Open Scope N_scope.   (* the packing lemmas are about N *)

Lemma ila_dec_enc : forall depth pw pre width st, ila_wf depth pw pre width st ->
  ila_dec depth pw pre width (ila_enc depth pw pre width st) = st.
Proof.
  intros depth pw pre width [sa pos en co pipe mem rd] (H1 & H2 & H3 & H4 & H5 & H6).
  cbn [il_sampling il_pos il_en il_complete il_pipe il_mem il_rdata] in *.
  unfold ila_dec, ila_enc. cbn [il_sampling il_pos il_en il_complete il_pipe il_mem il_rdata]. cbv zeta.
  pose proof (pow2_pos width) as HB.
  assert (Hpos : N.of_nat pos < N.of_nat (2 ^ pw)) by lia.
  assert (Hpipe : pack (2 ^ width) pipe < (2 ^ width) ^ N.of_nat pre)
    by (rewrite <- H3; apply pack_lt; assumption).
  (* dec peels the digits off in the order enc stacked them *)
  rewrite !pk_div, !pk_mod, !b2n_eqb1 by (assumption || apply b2n_lt2).
  rewrite Nat2N.id. rewrite <- H3 at 1. rewrite <- H5 at 1. rewrite !unpack_pack by assumption. reflexivity.
Qed.

Lemma ila_wf_step : forall depth pw pre width st i, ila_wf depth pw pre width st ->
  ila_wf depth pw pre width (fst (ila_mstep depth pw pre width st i)).
Proof.
  intros depth pw pre width st i (H1 & H2 & H3 & H4 & H5 & H6).
  unfold ila_mstep. cbn [fst]. set (ii := ila_decode pw width i).
  assert (Hpr : ii_probe ii < 2 ^ width) by apply bits_lt.
  assert (Hdel : ila_delayed pre st ii < 2 ^ width).
  { unfold ila_delayed. destruct pre; [exact Hpr | apply Forall_nth_lt; [apply pow2_pos | assumption]]. }
  assert (Hmod : (S (il_pos st) mod 2 ^ pw < 2 ^ pw)%nat) by (apply Nat.mod_upper_bound, Nat.pow_nonzero; discriminate).
  assert (Hwf : forall sa pos en co, (pos < 2 ^ pw)%nat -> ila_wf depth pw pre width
    {| il_sampling := sa; il_pos := pos; il_en := en; il_complete := co;
       il_pipe := firstn pre (ii_probe ii :: il_pipe st);
       il_mem := if il_en st then upd (il_pos st) (ila_delayed pre st ii) (il_mem st) else il_mem st;
       il_rdata := nth (ii_number ii) (il_mem st) 0 |}).
  { intros sa pos en co Hp. unfold ila_wf. cbn [il_pos il_pipe il_mem il_rdata]. repeat split.
    - exact Hp.
    - apply Forall_nth_lt; [apply pow2_pos | assumption].
    - rewrite firstn_length. cbn [length]. lia.
    - apply Forall_firstn. constructor; assumption.
    - destruct (il_en st); [rewrite upd_length|]; assumption.
    - destruct (il_en st); [apply upd_Forall|]; assumption. }
  unfold ila_next. destruct (il_sampling st); [|destruct (ii_trigger ii)]; apply Hwf; try assumption.
  apply Nat.neq_0_lt_0, Nat.pow_nonzero. discriminate.
Qed.

Lemma ila_wf_init : forall depth pw pre width, ila_wf depth pw pre width (ila_init depth pre).
Proof.
  intros. unfold ila_wf, ila_init. cbn [il_sampling il_pos il_en il_complete il_pipe il_mem il_rdata].
  pose proof (pow2_pos width). rewrite !repeat_length.
  repeat split; try apply Forall_repeat; auto. apply Nat.neq_0_lt_0, Nat.pow_nonzero. discriminate.
Qed.

Lemma ila_mrun : forall depth pw pre width tr st,
  run (ila_mstep depth pw pre width) st tr =
  map ila_pack_out (ila_run depth pw pre st (map (ila_decode pw width) tr)).
Proof. intros depth pw pre width. exact (run_packed (fun st i => (ila_next depth pw pre st i, ila_out_of st)) _ _). Qed.
