(* C29 -- proofs about the byte serialiser of USBMultibyteStreamInEndpoint (Model/MultiIn.v).
   On the specification machine: every accepted word leaves as its little-endian bytes, in order, exactly once, and
   at most one word is in flight (`ms_from_reset`).  The code-shaped model refines it (`mi_from_reset`): in
   mid-word the shift register holds the bytes still to be sent in its low bits and bytes_to_send says how many
   follow the one on the wire, which `ser_from` and `queue_of` turn into the specification's queue. *)
From Coq Require Import NArith Arith List Bool Lia.
Import ListNotations.
From LunaLib Require Import Netlist Machine BitFacts.
From LunaModel Require Import MultiIn.
Open Scope N_scope.

Section Spec.
  Variable bw : nat.

  Lemma ms_cycle_conservation : forall s i,
    pending s ++ word_taken bw (s, i, ms_view bw s i) =
    byte_taken bw (s, i, ms_view bw s i) ++ pending (ms_next bw s i).
  Proof.
    intros s i. unfold word_taken, byte_taken.
    destruct s as [stale | [|b rest]]; cbn [ms_view ms_next pending m_bvalid m_wready m_bfirst m_blast m_bpayload].
    1, 2: cbn [andb]; rewrite andb_true_r; unfold ms_load; destruct (w_valid i); reflexivity.
    destruct (b_ready bw i); cbn [andb].
    - destruct b as [by_ bf bl]. cbn [y_byte y_first y_last].
      destruct rest as [|b2 rest'].
      + rewrite andb_true_r. unfold ms_load. destruct (w_valid i); reflexivity.
      + rewrite andb_false_r. rewrite app_nil_r. reflexivity.
    - rewrite andb_false_r. rewrite app_nil_r. reflexivity.
  Qed.

  Theorem ms_conservation : forall tr s,
    pending s ++ flat_map (word_taken bw) (ms_cycles bw s tr) =
    flat_map (byte_taken bw) (ms_cycles bw s tr) ++ pending (run_state (ms_step bw) s tr).
  Proof.
    induction tr as [|i t IH]; intros s.
    - cbn [ms_cycles flat_map run_state]. rewrite app_nil_r. reflexivity.
    - cbn [ms_cycles flat_map run_state ms_step fst].
      rewrite app_assoc, ms_cycle_conservation, <- !app_assoc. f_equal. apply IH.
  Qed.

  Lemma ser_word_length : forall w f l, length (ser_word bw w f l) = bw.
  Proof. intros. unfold ser_word. rewrite map_length, seq_length. reflexivity. Qed.

  Lemma ms_pending_bound : forall tr s, (length (pending s) <= bw)%nat ->
    (length (pending (run_state (ms_step bw) s tr)) <= bw)%nat.
  Proof.
    apply (run_state_inv (ms_step bw) (fun s => (length (pending s) <= bw)%nat)). intros s i H. cbn [ms_step fst].
    assert (HLd : forall stale, (length (pending (ms_load bw i (MIdle stale))) <= bw)%nat).
    { intro stale. unfold ms_load. destruct (w_valid i); cbn [pending]; [rewrite ser_word_length|]; cbn; lia. }
    destruct s as [stale | [|b rest]]; cbn [ms_next]; try apply HLd.
    destruct (b_ready bw i); [|exact H]. destruct rest as [|b2 rest']; [apply HLd|].
    cbn [pending length] in *. lia.
  Qed.

  Corollary ms_from_reset : forall tr,
    flat_map (word_taken bw) (ms_cycles bw ms_init tr) =
      flat_map (byte_taken bw) (ms_cycles bw ms_init tr) ++ pending (run_state (ms_step bw) ms_init tr) /\
    (length (pending (run_state (ms_step bw) ms_init tr)) <= bw)%nat.
  Proof.
    intros tr. split.
    - apply (ms_conservation tr ms_init).
    - apply ms_pending_bound. cbn. lia.
  Qed.

  Lemma ms_run_cycles : forall tr s,
    run (ms_step bw) s tr = map (fun c => mi_pack (snd c)) (ms_cycles bw s tr).
  Proof.
    induction tr as [|i t IH]; intros s; [reflexivity|].
    cbn [run ms_step ms_cycles map snd]. rewrite IH. reflexivity.
  Qed.

  (* the tail of a serialised word: n bytes from position k on, w holding byte k in its low bits (what the
     shift register holds in mid-word); ser_word bw w f l is ser_from 0 w f l bw *)
  Definition ser_from (k : nat) (w : N) (f l : bool) (n : nat) : list ybeat :=
    map (fun j => {| y_byte := bits w (8 * N.of_nat j) 8;
                     y_first := f && Nat.eqb (k + j) 0; y_last := l && Nat.eqb (S (k + j)) bw |}) (seq 0 n).

  Lemma ser_from_cons : forall k w f l n,
    ser_from k w f l (S n) =
    {| y_byte := bits w 0 8; y_first := f && Nat.eqb k 0; y_last := l && Nat.eqb (S k) bw |}
      :: ser_from (S k) (N.shiftr w 8) f l n.
  Proof.
    intros. unfold ser_from. cbn [seq map]. rewrite Nat.add_0_r. f_equal.
    rewrite <- seq_shift, map_map. apply map_ext. intro j.
    rewrite bits_shiftr, Nat.add_succ_r. f_equal. f_equal. lia.
  Qed.
End Spec.

Fixpoint le_value (bs : list N) : N := match bs with [] => 0 | b :: t => b + 256 * le_value t end.

Lemma ser_from_le : forall bw f l n k w, w < 2 ^ (8 * N.of_nat n) ->
  le_value (map y_byte (ser_from bw k w f l n)) = w.
Proof.
  induction n as [|n IH]; intros k w Hw.
  - cbn in Hw. cbn. lia.
  - rewrite ser_from_cons. cbn [map le_value y_byte]. rewrite IH.
    + rewrite bits_0, N.shiftr_div_pow2. change (2 ^ 8) with 256. pose proof (N.div_mod w 256). lia.
    + rewrite N.shiftr_div_pow2. apply N.div_lt_upper_bound; [discriminate|].
      rewrite <- N.pow_add_r. replace (8 + 8 * N.of_nat n) with (8 * N.of_nat (S n)) by lia. exact Hw.
Qed.

Lemma ser_word_le : forall bw w f l, w < 2 ^ (8 * N.of_nat bw) ->
  le_value (map y_byte (ser_word bw w f l)) = w.
Proof. intros bw w f l. exact (ser_from_le bw f l bw 0%nat w). Qed.

Lemma ser_word_flags : forall bw w f l j, (j < bw)%nat ->
  y_first (nth j (ser_word bw w f l) {| y_byte := 0; y_first := false; y_last := false |}) = f && Nat.eqb j 0 /\
  y_last (nth j (ser_word bw w f l) {| y_byte := 0; y_first := false; y_last := false |}) = l && Nat.eqb (S j) bw.
Proof.
  intros bw w f l j Hj. unfold ser_word.
  set (g := fun j0 : nat => {| y_byte := bits w (8 * N.of_nat j0) 8; y_first := f && Nat.eqb j0 0; y_last := l && Nat.eqb (S j0) bw |}).
  rewrite (nth_indep _ _ (g 0%nat)) by (rewrite map_length, seq_length; exact Hj).
  rewrite map_nth, seq_nth by exact Hj. split; reflexivity.
Qed.

Section Refine.
  Variable bw : nat.

  (* bytes_to_send counts the bytes after the one on the wire *)
  Definition queue_of (st : mi_state) : list ybeat :=
    let b := N.to_nat (f_bts st) in
    ser_from bw (bw - 1 - b) (f_shift st) (f_first st) (f_last st) (S b).

  Definition mrel (st : mi_state) (s : mi_spec) : Prop :=
    match f_fsm st, s with
    | M_IDLE, MIdle stale => stale = bits (f_shift st) 0 8
    | M_TRANSMIT, MTx q => f_bts st < N.of_nat bw /\ q = queue_of st
    | _, _ => False
    end.

  Lemma queue_of_cons : forall f sh fl ll bts, bts < N.of_nat bw ->
    queue_of {| f_fsm := f; f_shift := sh; f_first := fl; f_last := ll; f_bts := bts |} =
    {| y_byte := bits sh 0 8; y_first := fl && (bts =? N.of_nat bw - 1); y_last := ll && (bts =? 0) |}
      :: if 0 <? bts
         then queue_of {| f_fsm := M_TRANSMIT; f_shift := N.shiftr sh 8; f_first := fl; f_last := ll; f_bts := bts - 1 |}
         else [].
  Proof.
    intros f sh fl ll bts Hb. unfold queue_of. cbn [f_shift f_first f_last f_bts].
    rewrite ser_from_cons. f_equal.
    - f_equal; f_equal.
      + destruct (N.eqb_spec bts (N.of_nat bw - 1)), (Nat.eqb_spec (bw - 1 - N.to_nat bts) 0); try reflexivity; lia.
      + destruct (N.eqb_spec bts 0), (Nat.eqb_spec (S (bw - 1 - N.to_nat bts)) bw); try reflexivity; lia.
    - destruct (N.ltb_spec 0 bts).
      + replace (N.to_nat bts) with (S (N.to_nat (bts - 1))) by lia. f_equal. lia.
      + replace (N.to_nat bts) with 0%nat by lia. reflexivity.
  Qed.

  Hypothesis Hbw : (1 <= bw)%nat.

  Lemma load_rel : forall i, mrel (mi_load bw i) (MTx (ser_word bw (w_payload bw i) (w_first i) (w_last i))).
  Proof.
    intros i. unfold mrel, mi_load, queue_of. cbn [f_fsm f_bts f_shift f_first f_last].
    rewrite trunc_small by (unfold btsw; pose proof (N.size_gt (N.of_nat bw)); lia).
    split; [lia|].
    replace (N.to_nat (N.of_nat bw - 1)) with (bw - 1)%nat by lia.
    replace (bw - 1 - (bw - 1))%nat with 0%nat by lia.
    replace (S (bw - 1)) with bw by lia. reflexivity.
  Qed.

  Lemma mrel_step : forall st s i, mrel st s ->
    mi_view bw st i = ms_view bw s i /\ mrel (mi_next bw st i) (ms_next bw s i).
  Proof.
    intros [f sh fl ll bts] s i HR. unfold mrel in HR. cbn [f_fsm f_shift f_bts] in HR.
    unfold mi_view, mi_next. cbn [f_fsm f_shift f_first f_last f_bts].
    destruct f, s as [stale | q]; try contradiction.
    - (* IDLE *)
      subst stale. split; [reflexivity|]. cbn [ms_next]. unfold ms_load.
      destruct (w_valid i); [apply load_rel | reflexivity].
    - (* TRANSMIT *)
      destruct HR as [Hb ->]. pose proof (queue_of_cons M_TRANSMIT sh fl ll bts Hb) as Q.
      (* folded back for the not-ready branch, which keeps the whole queue *)
      rewrite Q. cbn [ms_view ms_next y_byte y_first y_last]. rewrite <- Q.
      destruct (b_ready bw i).
      + destruct (N.ltb_spec 0 bts) as [Hlt|Hle]; (split; [reflexivity|]).
        * split; [cbn [f_bts]; lia | reflexivity].
        * unfold ms_load. destruct (w_valid i); [apply load_rel | reflexivity].
      + split; [reflexivity | split; [exact Hb | reflexivity]].
  Qed.

  Theorem mi_refines : forall tr st s, mrel st s -> run (mi_step bw) st tr = run (ms_step bw) s tr.
  Proof.
    apply sim_run_all. intros st s i HR. destruct (mrel_step st s i HR) as [Ho Hn].
    split; [exact Hn | cbn [mi_step ms_step snd]; rewrite Ho; reflexivity].
  Qed.

  Corollary mi_from_reset : forall tr, run (mi_step bw) mi_init tr = run (ms_step bw) ms_init tr.
  Proof. intros. apply mi_refines. reflexivity. Qed.
End Refine.

Lemma mi_dec_enc : forall bw st, mi_wf bw st -> mi_dec bw (mi_enc bw st) = st.
Proof.
  intros bw [f sh fl ll bts] H. unfold mi_wf in H. cbn [f_bts] in H.
  unfold mi_dec, mi_enc. cbn [f_fsm f_shift f_first f_last f_bts].
  set (fn := match f with M_IDLE => 0 | M_TRANSMIT => 1 end).
  assert (Hfn : fn < 2) by (destruct f; reflexivity).
  rewrite N.odd_add_mul_2, (digit_div 2 fn) by exact Hfn.
  rewrite odd_b2n_add_2, (digit_div 2) by apply b2n_lt2.
  rewrite odd_b2n_add_2, (digit_div 2) by apply b2n_lt2.
  rewrite digit_mod, digit_div by exact H.
  destruct f; reflexivity.
Qed.

Lemma mi_wf_step : forall bw st i, mi_wf bw st -> mi_wf bw (fst (mi_step bw st i)).
Proof.
  intros bw st i H. unfold mi_wf in *. unfold mi_step, mi_next. cbn [fst].
  assert (HL : f_bts (mi_load bw i) < 2 ^ btsw bw) by apply trunc_lt.
  destruct (f_fsm st).
  - destruct (w_valid i); [exact HL | exact H].
  - destruct (b_ready bw i); [|exact H].
    destruct (0 <? f_bts st); [cbn [f_bts]; lia|].
    destruct (w_valid i); [exact HL | exact H].
Qed.

Lemma mi_wf_init : forall bw, mi_wf bw mi_init.
Proof. intros. apply pow2_pos. Qed.
