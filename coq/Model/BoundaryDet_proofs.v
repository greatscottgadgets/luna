(* C28 -- proofs about the USBOutStreamBoundaryDetector model (Model/BoundaryDet.v): on every history that keeps
   the environment assumption the processed side shows exactly the events the packet-level specification expects
   (bd_flushed, bd_prefix).  The induction over the history is bd_main: from every model state, the events still to
   come are those the specification still expects (todo).  At the end, the packing facts for the lock-step tie. *)
From Coq Require Import NArith List Bool Lia.
Import ListNotations.
From LunaLib Require Import Netlist Machine BitFacts ListFacts.
From LunaModel Require Import BoundaryDet.
Open Scope N_scope.

(* the events of bytes that are known not to be the last of their packet *)
Definition nonlast (first : bool) (pre : list N) : list event :=
  match pre with
  | [] => []
  | b :: t => Byte b first false :: map (fun x => Byte x false false) t
  end.

Lemma nonlast_false : forall pre, nonlast false pre = map (fun x => Byte x false false) pre.
Proof. destruct pre; reflexivity. Qed.

Lemma byte_events_cons2 : forall f a l, l <> [] ->
  byte_events f (a :: l) = Byte a f false :: byte_events false l.
Proof. intros f a [|b t] H; [contradiction | reflexivity]. Qed.

Lemma byte_events_app : forall pre f b fut,
  byte_events f (pre ++ b :: fut) = nonlast f pre ++ byte_events (f && is_nil pre) (b :: fut).
Proof.
  induction pre as [|a pre IH]; intros f b fut.
  - cbn [app nonlast is_nil]. rewrite andb_true_r. reflexivity.
  - change ((a :: pre) ++ b :: fut) with (a :: (pre ++ b :: fut)).
    rewrite byte_events_cons2 by (destruct pre; discriminate).
    rewrite IH. cbn [nonlast is_nil]. rewrite andb_false_r, nonlast_false. cbn [andb]. reflexivity.
Qed.

Lemma nonlast_snoc : forall pre b,
  nonlast true (pre ++ [b]) = nonlast true pre ++ [Byte b (is_nil pre) false].
Proof.
  destruct pre as [|a pre]; intros b; [reflexivity|].
  cbn [app nonlast is_nil]. rewrite map_app. reflexivity.
Qed.

Lemma events_cons : forall o l, events (o :: l) = events_of o ++ events l.
Proof. reflexivity. Qed.

Lemma events_app : forall a b, events (a ++ b) = events a ++ events b.
Proof. intros. unfold events. apply flat_map_app. Qed.

Lemma bd_run_app : forall a b s,
  bd_run s (a ++ b) = bd_run s a ++ bd_run (fold_left bd_next a s) b.
Proof. induction a as [|i t IH]; intros b s; cbn [app bd_run fold_left]; [reflexivity|]. rewrite IH. reflexivity. Qed.

Lemma bd_run_length : forall ins s, length (bd_run s ins) = length ins.
Proof. induction ins as [|i t IH]; intros s; cbn [bd_run length]; [reflexivity | rewrite IH; reflexivity]. Qed.

(* What is still to be shown for an open packet whose latest byte b is held back: packets_of,
   read forward from that packet. *)
Fixpoint open_events (first : bool) (b : N) (c v : bool) (ins : list bd_in) : list event :=
  match ins with
  | [] => Byte b first true :: strobe_events c v
  | i :: t =>
      let c' := c || i_cin i in
      let v' := v || i_iin i in
      if negb (i_valid i) then Byte b first true :: strobe_events c' v' ++ expected t
      else if i_next i then Byte b first false :: open_events false (i_payload i) c' v' t
      else open_events first b c' v' t
  end.

Lemma open_events_spec : forall ins pre b c v,
  flat_map packet_events (packets_of (Some {| bytes := pre ++ [b]; complete := c; invalid := v |}) ins) =
  nonlast true pre ++ open_events (is_nil pre) b c v ins.
Proof.
  induction ins as [|i t IH]; intros pre b c v; cbn [packets_of open_events bytes complete invalid].
  - cbn [flat_map]. unfold packet_events. cbn [bytes complete invalid].
    rewrite app_nil_r, byte_events_app, <- app_assoc. reflexivity.
  - destruct (negb (i_valid i)); [|destruct (i_next i)].
    + cbn [flat_map]. unfold packet_events at 1. cbn [bytes complete invalid].
      rewrite byte_events_app, <- !app_assoc. reflexivity.
    + rewrite IH, nonlast_snoc, <- app_assoc. destruct pre; reflexivity.
    + apply IH.
Qed.

(* the phase of the environment assumption (env_from) that an FSM state stands for *)
Definition phase_of (f : bd_fsm) : phase :=
  match f with WAIT_FOR_FIRST_BYTE => Idle | RECEIVE_AND_TRANSMIT => InPacket | OUTPUT_STROBES => JustEnded end.

Lemma env_from_step : forall s i t,
  env_from (phase_of (fsm s)) (i :: t) =
  match fsm s with OUTPUT_STROBES => negb (i_valid i && i_next i) | _ => true end
  && env_from (phase_of (fsm (bd_next s i))) t.
Proof.
  intros s i t. unfold bd_next. destruct (fsm s); cbn [fsm phase_of env_from andb].
  - destruct (i_valid i && i_next i); reflexivity.
  - destruct (negb (i_valid i)); [|destruct (i_next i)]; reflexivity.
  - reflexivity.
Qed.

(* what the specification still expects, seen from a model state *)
Definition todo (s : bd_state) (ins : list bd_in) : list event :=
  match fsm s with
  | WAIT_FOR_FIRST_BYTE => expected ins
  | RECEIVE_AND_TRANSMIT => open_events (is_first s) (buf s) (buf_c s) (buf_i s) ins
  | OUTPUT_STROBES => strobe_events (buf_c s) (buf_i s) ++ expected ins
  end.

(* While it stays in RECEIVE_AND_TRANSMIT the state assigns none of last / complete / invalid (last := 1 only on leaving,
   when valid falls): bd_next carries the old outputs over.  They are 0
   on entry (WAIT_FOR_FIRST_BYTE clears them) and so stay 0; were they not, events_of would show a stale strobe report
   in every cycle of the packet and `last` on every byte. *)
Definition rx_inv (s : bd_state) : Prop :=
  fsm s = RECEIVE_AND_TRANSMIT ->
  o_last (out s) = false /\ o_complete (out s) = false /\ o_invalid (out s) = false.

Lemma strobe_events_ff : strobe_events false false = [].
Proof. reflexivity. Qed.

Lemma todo_step : forall s i t, rx_inv s -> env_from (phase_of (fsm s)) (i :: t) = true ->
  rx_inv (bd_next s i) /\ todo s (i :: t) = events_of (out (bd_next s i)) ++ todo (bd_next s i) t.
Proof.
  intros [f [ov on ofi ol oc oi op] b isf bc bi] i t I He.
  unfold rx_inv, todo, bd_next in *.
  destruct f; cbn [fsm out phase_of env_from o_last o_complete o_invalid o_payload o_first] in *.
  - (* WAIT_FOR_FIRST_BYTE *)
    unfold expected. cbn [packets_of].
    destruct (i_valid i && i_next i); cbn [fsm out buf is_first buf_c buf_i].
    + change [i_payload i] with ([] ++ [i_payload i]). rewrite open_events_spec. repeat split; trivial.
    + split; [discriminate | reflexivity].
  - (* RECEIVE_AND_TRANSMIT *)
    destruct (I eq_refl) as (-> & -> & ->). cbn [open_events].
    destruct (negb (i_valid i)); [|destruct (i_next i)]; cbn [fsm out buf is_first buf_c buf_i].
    + (* valid fell *)
      split; [discriminate | reflexivity].
    + (* a further byte *) repeat split; trivial.
    + (* a gap between bytes *) repeat split; trivial.
  - (* OUTPUT_STROBES *)
    apply andb_true_iff in He as [E _]. apply negb_true_iff in E.
    unfold expected. cbn [packets_of]. rewrite E. unfold events_of. cbn [o_valid o_next o_complete o_invalid].
    rewrite andb_false_r, app_nil_r. split; [discriminate | reflexivity].
Qed.

Lemma bd_main : forall ins s, rx_inv s -> env_from (phase_of (fsm s)) ins = true ->
  events (bd_run s (ins ++ flush)) = events_of (out s) ++ todo s ins.
Proof.
  induction ins as [|i t IH]; intros s I He.
  - (* the history is over: three idle cycles flush everything *)
    destruct s as [f [ov on ofi ol oc oi op] b isf bc bi]. unfold rx_inv, todo in *.
    destruct f; cbn [fsm out o_last o_complete o_invalid] in *; [|destruct (I eq_refl) as (-> & -> & ->)|];
      cbn; unfold events_of; cbn [o_valid o_next o_first o_last o_complete o_invalid o_payload andb app];
      rewrite ?orb_false_r, ?andb_false_r, ?app_nil_r; reflexivity.
  - destruct (todo_step s i t I He) as (I' & ->).
    rewrite env_from_step in He. apply andb_true_iff in He as [_ He].
    cbn [app bd_run]. rewrite events_cons, (IH _ I' He). reflexivity.
Qed.

(* once the history is followed by three idle cycles, the processed side has shown exactly the expected events *)
Theorem bd_flushed : forall ins, bd_env ins = true ->
  events (bd_run bd_init (ins ++ flush)) = expected ins.
Proof. intros ins He. apply (bd_main ins bd_init); [discriminate | exact He]. Qed.

(* every cut of a history: what has been shown so far is a prefix of what is expected *)
Theorem bd_prefix : forall ins, bd_env ins = true ->
  exists rest, expected ins = events (bd_run bd_init ins) ++ rest.
Proof.
  intros ins He. rewrite <- (bd_flushed ins He), bd_run_app, events_app. eexists. reflexivity.
Qed.

Theorem bd_next_valid : forall ins s,
  (o_next (out s) = true -> o_valid (out s) = true) ->
  Forall (fun o => o_next o = true -> o_valid o = true) (bd_run s ins).
Proof.
  induction ins as [|i t IH]; intros s H; cbn [bd_run]; constructor; [exact H|].
  apply IH. unfold bd_next. destruct (fsm s); cbn [fsm out o_next o_valid].
  - destruct (i_valid i && i_next i); cbn; discriminate.
  - destruct (negb (i_valid i)); [|destruct (i_next i)]; cbn; reflexivity.
  - cbn. discriminate.
Qed.

Lemma nb_b2n : forall b, nb (b2n b) = b.
Proof. destruct b; reflexivity. Qed.

Lemma fsm_code_lt : forall f, fsm_code f < 4.
Proof. destruct f; cbn; lia. Qed.

Lemma fsm_of_code : forall f, fsm_of (fsm_code f) = f.
Proof. destruct f; reflexivity. Qed.

Definition bd_wf (s : bd_state) : Prop := o_payload (out s) < 256 /\ buf s < 256.

Lemma bd_dec_enc : forall s, bd_wf s -> bd_dec (bd_enc s) = s.
Proof.
  intros [f o b isf bc bi] [Hp Hb]. destruct o as [v n fi la co iv pl]. cbn [out o_payload buf] in *.
  unfold bd_dec, bd_enc. cbv zeta. cbn [fsm out buf is_first buf_c buf_i
    o_valid o_next o_first o_last o_complete o_invalid o_payload].
  (* pk is BoundaryDet.pk, the model file's own copy of PackN.pk; digit_div / digit_mod are PackN.pk_div / pk_mod unfolded *)
  unfold pk. rewrite !digit_div, !digit_mod by first [apply b2n_lt2 | apply fsm_code_lt | assumption].
  rewrite !nb_b2n, fsm_of_code. reflexivity.
Qed.

Lemma bd_out_of_pack : forall o, o_payload o < 256 -> bd_out_of (bd_out_pack o) = o.
Proof.
  intros o Hp. destruct o as [v n fi la co iv pl]. cbn [o_payload] in Hp.
  unfold bd_out_of, bd_out_pack. cbv zeta.
  cbn [o_valid o_next o_first o_last o_complete o_invalid o_payload].
  unfold pk. rewrite !digit_div, !digit_mod by apply b2n_lt2.
  rewrite !nb_b2n, N.mod_small by exact Hp. reflexivity.
Qed.

Lemma bd_in_of_payload : forall w, i_payload (bd_in_of w) < 256.
Proof. intro w. cbn [bd_in_of i_payload]. apply (bits_lt w 4 8). Qed.

Lemma bd_wf_next : forall s i, bd_wf s -> i_payload i < 256 -> bd_wf (bd_next s i).
Proof.
  intros [f o b isf bc bi] i [Hp Hb] Hi. cbn [out buf] in *. unfold bd_wf, bd_next.
  cbn [fsm out buf is_first buf_c buf_i].
  destruct f; [destruct (i_valid i && i_next i) | destruct (negb (i_valid i)); [|destruct (i_next i)] |];
    cbn [out buf o_payload]; split; assumption.
Qed.

Lemma bd_wf_step : forall s w, bd_wf s -> bd_wf (fst (bd_mstep s w)).
Proof. intros s w H. cbn [bd_mstep fst]. apply bd_wf_next; [exact H | apply bd_in_of_payload]. Qed.

Lemma bd_wf_init : bd_wf bd_init.
Proof. split; cbn; lia. Qed.

Lemma bd_mrun : forall ws s,
  run bd_mstep s ws = map bd_out_pack (bd_run s (map bd_in_of ws)).
Proof. induction ws as [|w t IH]; intros s; cbn [run bd_mstep map bd_run]; [reflexivity | rewrite IH; reflexivity]. Qed.

Lemma bd_run_payloads : forall ins s, bd_wf s -> Forall (fun i => i_payload i < 256) ins ->
  Forall (fun o => o_payload o < 256) (bd_run s ins).
Proof.
  induction ins as [|i t IH]; intros s Hs Hi; cbn [bd_run]; constructor.
  - exact (proj1 Hs).
  - inversion Hi; subst. apply IH; [apply bd_wf_next|]; assumption.
Qed.

(* What the lock-step tie needs to turn "netlist = model" into "netlist meets the specification" *)
Theorem bd_packed_flushed : forall ws, bd_env (map bd_in_of ws) = true ->
  events (map bd_out_of (run bd_mstep bd_init (ws ++ [0; 0; 0]))) = expected (map bd_in_of ws).
Proof.
  intros ws He. rewrite bd_mrun, map_map, (map_ext_in _ (fun o => o)), map_id.
  - rewrite map_app. change (map bd_in_of [0; 0; 0]) with flush. apply bd_flushed. exact He.
  - apply Forall_forall, (Forall_impl _ bd_out_of_pack), bd_run_payloads; [exact bd_wf_init|].
    apply Forall_map, Forall_forall. intros w _. apply bd_in_of_payload.
Qed.

Lemma bd_env_ok : forall ws s, env_from (phase_of (fsm s)) (map bd_in_of ws) = true ->
  env_ok bd_state bd_mstep bd_menv s ws = true.
Proof.
  induction ws as [|w t IH]; intros s H; [reflexivity|].
  cbn [map] in H. rewrite env_from_step in H. apply andb_true_iff in H as [H1 H2].
  cbn [env_ok bd_mstep fst]. unfold bd_menv. rewrite H1. apply IH, H2.
Qed.

Lemma bd_env_flush : forall ins ph, env_from ph ins = true -> env_from ph (ins ++ flush) = true.
Proof.
  induction ins as [|i t IH]; intros ph H; [destruct ph; reflexivity|].
  cbn [app env_from] in *. destruct ph; try exact (IH _ H).
  apply andb_true_iff in H as [-> H]. exact (IH _ H).
Qed.
