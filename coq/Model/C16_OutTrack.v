(* C16 / C13 -- definitions shared by the models of the two OUT stream endpoints
     luna/gateware/usb/usb2/endpoints/isochronous_stream_out.py : USBIsochronousStreamOutEndpoint   (C16, Model/IsoOut.v)
     luna/gateware/usb/usb2/endpoints/stream.py                 : USBStreamOutEndpoint              (C13, Model/StreamOut.v)

   Both endpoints are  USBOutStreamBoundaryDetector (Model/BoundaryDet.v, C28)  -->  a little glue logic  -->
   TransactionalizedFIFO (Model/TxFifo.v, C18).  This file contains what the two specifications have in common:

     rx_in            the raw receive side of an EndpointInterface, one record per clock cycle
     phase / trk_next the PACKET TRACKER: a readable, list-based account of where the receive side is
                      (no packet / packet open with the bytes seen so far / packet just ended / outcome reported)
     fwd, strobes     what reaches the endpoint's buffer logic in a cycle, as a function of the tracker:
                      the boundary detector holds back one byte (it must know which byte is the last one), so a
                      byte is FORWARDED one cycle after the following byte -- or the end of the packet -- was seen,
                      and the packet's complete/invalid report follows one cycle after the last byte
     entry / frame    entries of the output stream (payload byte, first, last) and the framing of a payload
     bd_rel           the relation between the registers of the boundary-detector model and the tracker
                      (proved to be an invariant, with no environment assumption, in C16_OutTrack_proofs.v)

   Receive convention (the one of C28 / Model/BoundaryDet.v, comment on `packet`): a packet begins with a byte (valid &
   next) seen while no packet is open, every later cycle with valid & next adds a byte, the first cycle with valid low
   ends it; the complete / invalid strobes of a packet are those seen after the cycle of its first byte up to and
   including the cycle in which valid falls.  Packets without bytes (zero-length data packets) never open the tracker. *)
From Coq Require Import NArith List Bool Arith.
Import ListNotations.
From LunaLib Require Import Netlist Machine.
From LunaLib Require Import PackN.
From LunaModel Require Import BoundaryDet TxFifo.
Open Scope nat_scope.

(* ------------------------------------------------------------------------------------------ *)
(* raw receive side                                                                            *)
Record rx_in := { r_valid : bool; r_next : bool; r_cin : bool; r_iin : bool; r_pay : N }.

Definition rx_bd (r : rx_in) : bd_in :=
  {| i_valid := r_valid r; i_next := r_next r; i_cin := r_cin r; i_iin := r_iin r; i_payload := r_pay r |}.

(* ------------------------------------------------------------------------------------------ *)
(* the packet tracker                                                                          *)
Inductive phase :=
| PIdle                                                (* no packet *)
| POpen (bs : list N) (c v : bool) (fresh : bool)      (* packet open: bytes so far, strobes seen so far;
                                                          fresh = a byte arrived in the previous cycle *)
| PEnded (bs : list N) (c v : bool)                    (* valid fell in the previous cycle *)
| PReport (bs : list N) (c v : bool).                  (* two cycles after the end: the outcome is acted upon *)

Definition trk_start (r : rx_in) : phase :=
  if r_valid r && r_next r then POpen [r_pay r] false false false else PIdle.

Definition trk_next (ph : phase) (r : rx_in) : phase :=
  match ph with
  | PIdle => trk_start r
  | POpen bs c v _ =>
      let c' := c || r_cin r in
      let v' := v || r_iin r in
      if negb (r_valid r) then PEnded bs c' v'
      else if r_next r then POpen (bs ++ [r_pay r]) c' v' true
      else POpen bs c' v' false
  | PEnded bs c v => PReport bs c v      (* a byte presented in this cycle would be lost: excluded by the environment *)
  | PReport _ _ _ => trk_start r
  end.

(* number of bytes of the current packet that were forwarded in EARLIER cycles
   (= index of the byte forwarded in this cycle, if one is) *)
Definition n_fwd (ph : phase) : nat :=
  match ph with
  | PIdle => 0
  | POpen bs _ _ fresh => length bs - (if fresh then 2 else 1)
  | PEnded bs _ _ => length bs - 1
  | PReport bs _ _ => length bs
  end.

(* the byte forwarded to the buffer logic in this cycle: (payload, first of its packet, last of its packet) *)
Definition fwd (ph : phase) : option (N * bool * bool) :=
  match ph with
  | POpen bs _ _ true => Some (nth (length bs - 2) bs 0%N, length bs =? 2, false)
  | PEnded bs _ _ => Some (last bs 0%N, length bs =? 1, true)
  | _ => None
  end.

(* the delayed complete / invalid report *)
Definition strobes (ph : phase) : bool * bool :=
  match ph with PReport _ c v => (c, v) | _ => (false, false) end.

Definition ph_bytes (ph : phase) : list N :=
  match ph with PIdle => [] | POpen bs _ _ _ => bs | PEnded bs _ _ => bs | PReport bs _ _ => bs end.

Definition ph_idle (ph : phase) : bool := match ph with PIdle => true | _ => false end.

(* ------------------------------------------------------------------------------------------ *)
(* output stream entries                                                                       *)
Record entry := { e_data : N; e_first : bool; e_last : bool }.

(* the 10-bit FIFO word of an entry: data[0:8], last = bit 8, first = bit 9 *)
Definition enc_entry (e : entry) : N := (e_data e + 256 * b2n (e_last e) + 512 * b2n (e_first e))%N.

(* a payload as it must appear on the output stream: `f` on its first byte, `l` on its final byte *)
Fixpoint frame (f l : bool) (bs : list N) : list entry :=
  match bs with
  | [] => []
  | [b] => [{| e_data := b; e_first := f; e_last := l |}]
  | b :: t => {| e_data := b; e_first := f; e_last := false |} :: frame false l t
  end.

(* bytes that are known not to be the final one *)
Definition inner (f : bool) (bs : list N) : list entry :=
  match bs with
  | [] => []
  | b :: t => {| e_data := b; e_first := f; e_last := false |}
              :: map (fun x => {| e_data := x; e_first := false; e_last := false |}) t
  end.

(* ------------------------------------------------------------------------------------------ *)
(* boundary-detector registers vs tracker                                                      *)
Definition bd_rel (s : bd_state) (ph : phase) : Prop :=
  let o := out s in
  match ph with
  | PIdle =>
      fsm s = WAIT_FOR_FIRST_BYTE /\ o_valid o = false /\ o_next o = false /\
      o_complete o = false /\ o_invalid o = false
  | PReport bs c v =>
      fsm s = WAIT_FOR_FIRST_BYTE /\ o_valid o = true /\ o_next o = false /\
      o_complete o = c /\ o_invalid o = v
  | POpen bs c v fresh =>
      fsm s = RECEIVE_AND_TRANSMIT /\ bs <> [] /\ buf s = last bs 0%N /\ is_first s = (length bs =? 1) /\
      buf_c s = c /\ buf_i s = v /\ o_complete o = false /\ o_invalid o = false /\ o_last o = false /\
      o_next o = fresh /\ (2 <= length bs -> o_valid o = true) /\
      (o_valid o = false -> fresh = false) /\
      (fresh = true -> 2 <= length bs /\ o_payload o = nth (length bs - 2) bs 0%N /\ o_first o = (length bs =? 2))
  | PEnded bs c v =>
      fsm s = OUTPUT_STROBES /\ bs <> [] /\ buf_c s = c /\ buf_i s = v /\
      o_complete o = false /\ o_invalid o = false /\ o_valid o = true /\ o_next o = true /\ o_last o = true /\
      o_payload o = last bs 0%N /\ o_first o = (length bs =? 1)
  end.

(* what the glue logic reads from the boundary detector, as seen through the tracker *)
Definition bd_fwd (s : bd_state) : option (N * bool * bool) :=
  let o := out s in
  if o_next o && o_valid o then Some (o_payload o, o_first o, o_last o) else None.

(* radix of a packed FIFO state (Model/TxFifo.v: tf_enc), to stack further components above it *)
Definition tf_radix (depth : nat) (width : N) : N :=
  let B := N.of_nat (S depth) in (B * (B * (B * (B * (2 ^ width * (2 ^ width) ^ N.of_nat (S depth))))))%N.

(* ------------------------------------------------------------------------------------------ *)
(* Fast packing for lock-step ties: every radix is a power of two, so decoding is shifting and
   masking (the certified reachability check decodes the model state twice per transition).    *)
Open Scope N_scope.

Definition ptr_bits (depth : nat) : N := N.size (N.of_nat depth).

(* FIFO state: four pointers of ptr_bits each, the 10-bit read register, depth+1 cells of 10 bits *)
Definition tf_enc2 (depth : nat) (st : tf_state) : N :=
  let B := 2 ^ ptr_bits depth in
  PackN.pk B (N.of_nat (tf_cw st)) (PackN.pk B (N.of_nat (tf_w st)) (PackN.pk B (N.of_nat (tf_cr st))
    (PackN.pk B (N.of_nat (tf_r st)) (PackN.pk (2 ^ 10) (tf_rdata st) (pack (2 ^ 10) (tf_mem st)))))).

Definition tf_bits2 (depth : nat) : N := 4 * ptr_bits depth + 10 + 10 * N.of_nat (S depth).

Fixpoint unpack2 (w : N) (k : nat) (n : N) : list N :=
  match k with
  | O => []
  | S k' => N.land n (N.ones w) :: unpack2 w k' (N.shiftr n w)
  end.

Definition tf_dec2 (depth : nat) (x : N) : tf_state :=
  let pw := ptr_bits depth in
  let x1 := N.shiftr x pw in let x2 := N.shiftr x1 pw in let x3 := N.shiftr x2 pw in let x4 := N.shiftr x3 pw in
  {| tf_cw := N.to_nat (N.land x (N.ones pw)); tf_w := N.to_nat (N.land x1 (N.ones pw));
     tf_cr := N.to_nat (N.land x2 (N.ones pw)); tf_r := N.to_nat (N.land x3 (N.ones pw));
     tf_rdata := N.land x4 (N.ones 10);
     tf_mem := unpack2 10 (S depth) (N.shiftr x4 10) |}.

(* boundary-detector state: BoundaryDet.bd_dec with shifts and masks *)
Definition bd_dec2 (m : N) : bd_state :=
  let f := N.land m (N.ones 2) in let m := N.shiftr m 2 in
  let v := N.land m (N.ones 1) in let m := N.shiftr m 1 in
  let n := N.land m (N.ones 1) in let m := N.shiftr m 1 in
  let fi := N.land m (N.ones 1) in let m := N.shiftr m 1 in
  let la := N.land m (N.ones 1) in let m := N.shiftr m 1 in
  let co := N.land m (N.ones 1) in let m := N.shiftr m 1 in
  let iv := N.land m (N.ones 1) in let m := N.shiftr m 1 in
  let isf := N.land m (N.ones 1) in let m := N.shiftr m 1 in
  let bc := N.land m (N.ones 1) in let m := N.shiftr m 1 in
  let bi := N.land m (N.ones 1) in let m := N.shiftr m 1 in
  let pl := N.land m (N.ones 8) in let m := N.shiftr m 8 in
  {| fsm := fsm_of f;
     out := {| o_valid := nb v; o_next := nb n; o_first := nb fi; o_last := nb la;
               o_complete := nb co; o_invalid := nb iv; o_payload := pl |};
     buf := m; is_first := nb isf; buf_c := nb bc; buf_i := nb bi |}.
