(* C11 / C14 -- proofs about the USBStreamInEndpoint / USBInTransferManager model (Model/InXfer.v).
   The model refines the specification monitor c11_mon.  `abs` maps a model state to a monitor state: the pending
   stream is the content of the read buffer followed by that of the write buffer, and what the module does not hold
   comes in as ghost bits (has the host already taken the packet in the read buffer, has that packet timed out, did
   the host receive its latest transmission, has flush been asserted).  `step_ok`: the monitor, fed the model's own
   outputs, accepts the cycle and moves to the abstraction of the model's next state; hence `refines`.  `logs_ok`,
   about the monitor alone, gives `exactly_once`; `packed_refines` is what the lock-step ties use. *)
From Coq Require Import NArith List Bool Arith Lia ZifyBool.
Import ListNotations.
From LunaLib Require Import Netlist Machine ListFacts PackN ListMem.
From LunaModel Require Import InXfer.

(* a packet's bytes with their `last` markers: only the final byte can carry one *)
Fixpoint flag (l : list N) (e : bool) : list (N * bool) :=
  match l with
  | [] => []
  | x :: t => (x, match t with [] => e | _ => false end) :: flag t e
  end.

Lemma flag_app1 : forall l x e, flag (l ++ [x]) e = flag l false ++ [(x, e)].
Proof.
  induction l as [|a t IH]; intros x e; [reflexivity|].
  cbn [app flag]. rewrite IH. destruct t; reflexivity.
Qed.

Lemma map_fst_flag : forall l e, map fst (flag l e) = l.
Proof. induction l as [|a t IH]; intro e; [reflexivity|]. cbn [flag map fst]. rewrite IH. reflexivity. Qed.

Lemma length_flag : forall l e, length (flag l e) = length l.
Proof. intros. rewrite <- (map_fst_flag l e) at 2. rewrite map_length. reflexivity. Qed.

Lemma existsb_snd_flag : forall l e, existsb snd (flag l e) = e && negb (length l =? 0)%nat.
Proof.
  induction l as [|a t IH]; intro e; [destruct e; reflexivity|].
  cbn [flag existsb snd]. rewrite IH. destruct t, e; reflexivity.
Qed.

(* flag (a :: b :: t) e is (a, false) :: flag (b :: t) e, and both predicates step over an unmarked byte that has a
   successor: the inductive steps hold by conversion *)
Lemma last_only_flag : forall l e, last_only_at_end (flag l e) = true.
Proof. induction l as [|a [|b t] IH]; intro e; try reflexivity. exact (IH e). Qed.

Lemma ends_with_last_flag : forall l e, l <> [] -> ends_with_last (flag l e) = e.
Proof.
  unfold ends_with_last. induction l as [|a [|b t] IH]; intros e H; [contradiction | reflexivity |].
  exact (IH e ltac:(discriminate)).
Qed.

Lemma if_same : forall (A : Type) (b : bool) (x : A), (if b then x else x) = x.
Proof. intros A [] x; reflexivity. Qed.

(* bytes_eqb is Machine.list_eqb written out once more *)
Lemma bytes_eqb_eq : forall a b, bytes_eqb a b = true -> a = b.
Proof. exact (fun a b => proj1 (list_eqb_eq a b)). Qed.

Lemma bytes_eqb_refl : forall l, bytes_eqb l l = true.
Proof. intro l. apply (list_eqb_eq l l). reflexivity. Qed.

Lemma firstn_upd_same : forall (m : list N) n k v, (k <= n)%nat -> firstn k (upd n v m) = firstn k m.
Proof.
  induction m as [|x t IH]; intros n k v H; [destruct n, k; reflexivity|].
  destruct k as [|k]; [reflexivity|]. destruct n as [|n]; [lia|].
  change (x :: firstn k (upd n v t) = x :: firstn k t). f_equal. apply IH. lia.
Qed.

Lemma firstn_nil_iff : forall (l : list N) n, (n < length l)%nat ->
  match firstn n l with [] => true | _ => false end = (n =? 0)%nat.
Proof. intros l n H. destruct n; [reflexivity|]. destruct l; [cbn in H; lia | reflexivity]. Qed.

Definition content (b : ix_buf) : list N := firstn (b_fill b) (b_mem b).
Definition pend_of (b : ix_buf) : list (N * bool) := flag (content b) (b_end b).

Lemma content_length : forall b, (b_fill b <= length (b_mem b))%nat -> length (content b) = b_fill b.
Proof. intros b H. apply firstn_length_le, H. Qed.

Lemma content_snoc : forall b n, (n < b_fill b)%nat -> (b_fill b <= length (b_mem b))%nat ->
  firstn n (content b) ++ [nth n (b_mem b) 0%N] = firstn (S n) (content b).
Proof.
  intros b n H1 H2. unfold content. rewrite !firstn_firstn, !Nat.min_l by lia. symmetry. apply firstn_succ. lia.
Qed.

Lemma pend_new : forall (b : bool) (P : list (N * bool)) x, (if b then P ++ [x] else P) = P ++ (if b then [x] else []).
Proof. intros [] P x; [reflexivity | rewrite app_nil_r; reflexivity]. Qed.

(* Whatever branch a cycle takes, the next state's buffers are this cycle's w_bg and r_bg, possibly with their roles
   swapped, the one that was sent possibly emptied or with its end marker cleared. *)
Lemma ix_next_bufs : forall fa fr mps ep st i (P : ix_buf -> ix_buf -> Prop),
  let w1 := w_bg mps st i in
  let r1 := r_bg fa mps st i in
  P w1 r1 -> P (clr_end r1) w1 -> P w1 (clr_end r1) -> P w1 (set_fill r1 0) -> P (clr_end (set_fill r1 0)) w1 ->
  P (x_w (ix_next fa fr mps ep st i)) (x_r (ix_next fa fr mps ep st i)).
Proof.
  intros fa fr mps ep st i P w1 r1 H1 H2 H3 H4 H5. unfold ix_next.
  destruct (x_fsm st);
    [ destruct (packet_ready mps st i)
    | destruct (clr ep i); [|destruct (tok ep i); [destruct (negb _)|]]
    | destruct (i_txrdy i)
    | destruct (i_ack i); [destruct (follow_up mps st); [|destruct (negb (w_ready mps st) || packet_ready mps st i)]|] ];
    assumption.
Qed.

Section Refine.
  Variable mps : nat.
  Variable ep : N.

  (* last clause: an ended write buffer is not empty, so its marker shows in pend_of (V6, rdy_ok) and a buffer swapped
     in holds a byte (swap_facts); x_r can break it: after follow_up it is emptied in place and keeps its marker *)
  Definition wfm (st : ix_state) : Prop :=
    length (b_mem (x_w st)) = mps /\ length (b_mem (x_r st)) = mps /\
    (b_fill (x_w st) <= mps)%nat /\ (b_fill (x_r st) <= mps)%nat /\
    (b_end (x_w st) = true -> (1 <= b_fill (x_w st))%nat).

  (* a packet that is not a retry is full, or empty (the owed ZLP), or ends the transfer, or was queued by a flush *)
  Definition shape_ok (b : ix_buf) (rt fl : bool) : Prop :=
    rt = false -> (b_fill b =? mps)%nat || (b_fill b =? 0)%nat || b_end b || fl = true.

  (* Ghost bits: acc = the host has already taken the packet in the read buffer; rt = that packet has timed out and
     is to be sent again; got = the host received its latest transmission; fl = flush has been asserted since the
     previous packet completed.  What holds of them, and of the registers, in each FSM state: *)
  Definition ghost (st : ix_state) (acc rt got fl : bool) : Prop :=
    match x_fsm st with
    | WFD => acc = true /\ b_fill (x_r st) = 0%nat /\ w_ready mps st = true /\ x_first st = false
    (* acc -> rt: a packet already taken is sent only as a retry *)
    | WTS => (acc = true -> rt = true) /\ x_first st = false /\ shape_ok (x_r st) rt fl
    | SEND => (acc = true -> rt = true) /\ (x_pos st < b_fill (x_r st))%nat /\
              x_first st = (x_pos st =? 0)%nat /\ b_rd (x_r st) = nth (x_pos st) (b_mem (x_r st)) 0%N /\
              shape_ok (x_r st) rt fl
    (* got -> acc: what the host received it has taken, at that transmission or an earlier one *)
    | WFA => (got = true -> acc = true) /\ x_first st = false
    end.

  (* s_zlp: a taken packet leaves a ZLP owed iff it was full and ended the transfer (follow_up); ix_next then empties
     the read buffer in place (set_fill r1 0), so the owed ZLP, untaken, is an empty read buffer (one swapped in never
     is: swap_facts) *)
  Definition abs (st : ix_state) (acc rt got : bool) (lin lhost : list N) (fl : bool) : sp_state :=
    let r := x_r st in
    {| s_pend := (if acc then [] else pend_of r) ++ pend_of (x_w st);
       s_h := xorb (x_pid st) acc;
       s_cur := match x_fsm st with SEND => Some (firstn (x_pos st) (content r)) | _ => None end;
       s_wait := match x_fsm st with WFA => Some (b2n (x_pid st), content r, got) | _ => None end;
       s_retry := match x_fsm st with
                  | WTS | SEND => if rt then Some (b2n (x_pid st), content r) else None
                  | _ => None
                  end;
       s_zlp := if acc then (b_fill r =? mps)%nat && b_end r else (b_fill r =? 0)%nat;
       s_in := lin; s_host := lhost; s_fl := fl |}.

  Lemma pend_of_length : forall b, (b_fill b <= length (b_mem b))%nat -> length (pend_of b) = b_fill b.
  Proof. intros b H. unfold pend_of. rewrite length_flag. apply content_length, H. Qed.

  Lemma pend_of_empty : forall b, b_fill b = 0%nat -> pend_of b = [].
  Proof. intros b H. unfold pend_of, content. rewrite H. reflexivity. Qed.

  Lemma pend_of_last : forall b, (b_fill b <= length (b_mem b))%nat ->
    existsb snd (pend_of b) = b_end b && negb (b_fill b =? 0)%nat.
  Proof. intros b H. unfold pend_of. rewrite existsb_snd_flag, content_length by exact H. reflexivity. Qed.

  Lemma pend_of_ends : forall b, (b_fill b <= length (b_mem b))%nat -> (b_fill b =? 0)%nat = false ->
    ends_with_last (pend_of b) = b_end b.
  Proof.
    intros b H E0. apply ends_with_last_flag. intro C. rewrite <- (content_length b H), C in E0. discriminate E0.
  Qed.

  Lemma pend_of_bytes : forall b, map fst (pend_of b) = content b.
  Proof. intro b. apply map_fst_flag. Qed.

  Lemma pend_of_marks : forall b, last_only_at_end (pend_of b) = true.
  Proof. intro b. apply last_only_flag. Qed.

  Definition lin_new (st : ix_state) (i : ix_in) (lin : list N) : list N :=
    if w_en mps st i then lin ++ [i_payload i] else lin.

  Lemma pend_bg : forall st i, wfm st ->
    pend_of (w_bg mps st i) = pend_of (x_w st) ++ (if w_en mps st i then [(i_payload i, i_last i)] else []).
  Proof.
    intros st i (Hlw & _ & Hfw & _). unfold pend_of, content, w_bg. cbn [b_fill b_end b_mem].
    destruct (w_en mps st i) eqn:E.
    - unfold w_en, w_ready in E.
      assert (Hf : (b_fill (x_w st) < mps)%nat) by lia.
      assert (He : b_end (x_w st) = false) by lia.
      rewrite He, Nat.add_1_r, firstn_upd_snoc, flag_app1, andb_true_r by lia. reflexivity.
    - rewrite andb_false_r, orb_false_r, app_nil_r. reflexivity.
  Qed.

  Lemma wfm_bg : forall st i, wfm st ->
    length (b_mem (w_bg mps st i)) = mps /\ (b_fill (w_bg mps st i) <= mps)%nat /\
    (b_end (w_bg mps st i) = true -> (1 <= b_fill (w_bg mps st i))%nat).
  Proof.
    intros st i (Hlw & _ & Hfw & _ & Hew). unfold w_bg. cbn [b_fill b_end b_mem].
    destruct (w_en mps st i) eqn:E; unfold w_en, w_ready in E; rewrite ?upd_length; lia.
  Qed.

  Lemma ready_next : forall st i, w_ready mps st = true -> packet_ready mps st i = false ->
    negb (b_fill (w_bg mps st i) =? mps)%nat && negb (b_end (w_bg mps st i)) = true.
  Proof.
    intros st i H Hp.
    unfold w_bg. cbn [b_fill b_end]. destruct (w_en mps st i) eqn:E;
      unfold w_en, w_ready, packet_ready, packet_completing, packet_to_flush in *; lia.
  Qed.

  Lemma not_due : forall st, wfm st -> w_ready mps st = true -> packet_due mps (pend_of (x_w st)) = false.
  Proof.
    intros st (Hlw & _ & Hfw & _) H. unfold packet_due. rewrite pend_of_length, pend_of_last by lia.
    unfold w_ready in H. lia.
  Qed.

  Lemma add_stream_bg : forall st i A h c w r z lin lh f, wfm st ->
    add_stream (w_en mps st i) i (Build_sp_state (A ++ pend_of (x_w st)) h c w r z lin lh f) =
    Build_sp_state (A ++ pend_of (w_bg mps st i)) h c w r z (lin_new st i lin) lh f.
  Proof.
    intros. unfold add_stream. cbn [s_pend s_h s_cur s_wait s_retry s_zlp s_in s_host s_fl].
    rewrite pend_new, <- app_assoc, pend_bg by assumption. reflexivity.
  Qed.

  (* V6: the module is ready whenever the pending stream cannot even fill its write buffer *)
  Lemma rdy_ok : forall st acc rt got lin lhost fl i, wfm st ->
    ready_ok mps (abs st acc rt got lin lhost fl) (ix_outf mps ep st i) = true.
  Proof.
    intros st acc rt got lin lhost fl i (Hlw & _ & Hfw & _ & Hew).
    unfold ready_ok, packet_due, abs, ix_outf, w_ready. cbn [s_pend o_ready].
    rewrite app_length, existsb_app, pend_of_length, pend_of_last by lia. lia.
  Qed.

  Lemma env_facts : forall s i, c11_env ep s i = true ->
    clr ep i = false /\
    (i_ack i = true -> i_newtok i = false /\ match s_wait s with Some (_, _, got) => got | None => false end = true).
  Proof.
    intros s i H. unfold c11_env in H. change (s_clr ep i) with (clr ep i) in H.
    destruct (clr ep i); [discriminate|]. split; [reflexivity|]. intro Ea. rewrite Ea in H.
    destruct (i_newtok i); [discriminate|]. split; [reflexivity | exact H].
  Qed.

  Notation nxt := (ix_next true true mps ep).

  Lemma wfm_next : forall st i, wfm st -> wfm (nxt st i).
  Proof.
    intros st i Hw. destruct (wfm_bg st i Hw) as (Bl & Bf & Be). destruct Hw as (_ & Hlr & _ & Hfr & _).
    unfold wfm. pattern (x_w (nxt st i)), (x_r (nxt st i)).
    apply ix_next_bufs; cbn [clr_end set_fill r_bg b_fill b_end b_mem];
      repeat split; try assumption; try apply Nat.le_0_l; discriminate.
  Qed.

  Lemma wfm_init : wfm (ix_init mps).
  Proof. unfold wfm, ix_init, buf0. cbn [x_w x_r b_mem b_fill b_end]. rewrite repeat_length. repeat split; try lia. Qed.

  Lemma abs_backlog : forall st acc rt got lin lhost fl, wfm st ->
    (length (s_pend (abs st acc rt got lin lhost fl)) <= 2 * mps)%nat.
  Proof.
    intros st acc rt got lin lhost fl (Hlw & Hlr & Hfw & Hfr & _). unfold abs. cbn [s_pend].
    rewrite app_length, pend_of_length by lia.
    destruct acc; [cbn [length]; lia|]. rewrite pend_of_length by lia. lia.
  Qed.

  Lemma shape_mono : forall b rt fl f, shape_ok b rt fl -> shape_ok b rt (fl || f).
  Proof. intros b rt fl f H Hr. specialize (H Hr). rewrite orb_assoc, H. reflexivity. Qed.

  Lemma shape_r_bg : forall st i rt fl, shape_ok (x_r st) rt fl -> shape_ok (r_bg true mps st i) rt fl.
  Proof. intros st i rt fl H. exact H. Qed.

  Lemma rd_mem_lt : forall m a, (a < mps)%nat -> rd_mem mps m a = nth a m 0%N.
  Proof.
    intros m a H. unfold rd_mem.
    assert (E : (N.of_nat a mod 2 ^ ix_aw mps = N.of_nat a)%N).
    { apply N.mod_small. unfold ix_aw. pose proof (N.size_gt (N.of_nat mps - 1)). lia. }
    rewrite E, Nat2N.id. apply Nat.ltb_lt in H. rewrite H. reflexivity.
  Qed.

  Hypothesis Hmps : (1 <= mps)%nat.

  Lemma mps_ne0 : (0 =? mps)%nat = false.
  Proof. destruct mps; [lia | reflexivity]. Qed.

  Lemma swap_facts : forall st i, wfm st -> negb (w_ready mps st) || packet_ready mps st i = true ->
    (b_fill (w_bg mps st i) =? 0)%nat = false /\ forall rt fl, shape_ok (w_bg mps st i) rt (fl || i_flush i).
  Proof.
    intros st i (_ & _ & Hfw & _ & Hew) H. split.
    (* fl plays no part *)
    2: intros rt fl _; rewrite (orb_comm fl), orb_assoc; apply orb_true_iff; left.
    all: unfold w_bg; cbn [b_fill b_end]; destruct (w_en mps st i) eqn:E;
      unfold w_en, w_ready, packet_ready, packet_completing, packet_to_flush in *; lia.
  Qed.

  Lemma complete_abs : forall (X : list (N * bool)) (pid acc rt rcv fl : bool) (b : ix_buf)
      (cur : option (list N)) (wt : option (N * list N * bool)) (lin lhost : list N),
    (b_fill b <= length (b_mem b))%nat -> (b_fill b <= mps)%nat -> (acc = true -> rt = true) -> shape_ok b rt fl ->
    complete mps
      {| s_pend := (if acc then [] else pend_of b) ++ X; s_h := xorb pid acc; s_cur := cur; s_wait := wt;
         s_retry := if rt then Some (b2n pid, content b) else None;
         s_zlp := if acc then (b_fill b =? mps)%nat && b_end b else (b_fill b =? 0)%nat;
         s_in := lin; s_host := lhost; s_fl := fl |}
      (if rt then Some (b2n pid, content b) else None) (b2n pid) (content b) rcv =
    ({| s_pend := (if acc || rcv then [] else pend_of b) ++ X; s_h := xorb pid (acc || rcv); s_cur := None;
        s_wait := Some (b2n pid, content b, rcv); s_retry := None;
        s_zlp := if acc || rcv then (b_fill b =? mps)%nat && b_end b else (b_fill b =? 0)%nat;
        s_in := lin; s_host := if rcv && negb acc then lhost ++ content b else lhost; s_fl := false |}, true).
  Proof.
    intros X pid acc rt rcv fl b cur wt lin lhost Hm HL Hrt Hsh.
    unfold complete. cbn [s_pend s_h s_zlp s_in s_host s_fl].
    rewrite (content_length b Hm), (proj2 (Nat.leb_le _ _) HL).
    replace (b2n pid =? b2n (xorb pid acc))%N with (negb acc) by (destruct pid, acc; reflexivity).
    assert (Vp : match (if rt then Some (b2n pid, content b) else None) with
                 | Some (p0, bs0) => (b2n pid =? p0)%N && bytes_eqb (content b) bs0
                 | None => negb acc end = true).
    { destruct rt; [rewrite N.eqb_refl, bytes_eqb_refl; reflexivity|]. destruct acc; [discriminate (Hrt eq_refl) | reflexivity]. }
    rewrite Vp.
    destruct acc; cbn [negb andb orb xorb app].
    - (* already taken: whatever arrives now is a duplicate *)
      rewrite (Hrt eq_refl), ?andb_false_r. reflexivity.
    - (* not taken yet: the pending stream begins with pend_of b, this packet, so v_take holds; v_shape is Hsh *)
      rewrite firstn_app_l, skipn_app_l by apply pend_of_length, Hm.
      rewrite app_length, pend_of_length, (proj2 (Nat.leb_le _ _) (Nat.le_add_r _ _)) by exact Hm.
      rewrite pend_of_bytes, bytes_eqb_refl, pend_of_marks, xorb_false_r, andb_true_r.
      destruct (b_fill b =? 0)%nat eqn:E0.
      + apply Nat.eqb_eq in E0. rewrite E0, mps_ne0. destruct rt, rcv, pid; reflexivity.
      + rewrite (pend_of_ends b Hm E0). destruct rt; [destruct rcv, pid; reflexivity|].
        specialize (Hsh eq_refl). rewrite E0, orb_false_r, <- orb_assoc in Hsh. rewrite Hsh.
        destruct rcv, pid; reflexivity.
  Qed.

  Lemma step_ok : forall st acc rt got lin lhost fl i, wfm st -> ghost st acc rt got fl ->
    c11_env ep (abs st acc rt got lin lhost fl) i = true ->
    exists acc' rt' got' lhost' fl',
      c11_mon mps ep (abs st acc rt got lin lhost fl) i (ix_outf mps ep st i)
      = Some (abs (nxt st i) acc' rt' got' (lin_new st i lin) lhost' fl', true)
      /\ ghost (nxt st i) acc' rt' got' fl'.
  Proof.
    intros st acc rt got lin lhost fl i Hw Hg He.
    destruct (env_facts _ _ He) as (Hclr & Hack).
    pose proof Hw as (_ & Hlr & _ & Hfr & _).
    assert (Hm : (b_fill (x_r st) <= length (b_mem (x_r st)))%nat) by (rewrite Hlr; exact Hfr).
    pose proof (content_length _ Hm) as Hn.
    unfold c11_mon. rewrite He, rdy_ok by exact Hw. cbn [negb]. clear He.
    change (i_valid i && o_ready (ix_outf mps ep st i)) with (w_en mps st i).
    (* T keeps the abstraction of the next state folded while the monitor runs on the unfolded one *)
    set (T := abs (nxt st i)).
    unfold ghost in Hg. destruct (x_fsm st) eqn:Hf.

    - (* WAIT_FOR_DATA *)
      destruct Hg as (-> & Hr0 & Hrdy & Hfirst).
      (* a token is NAKed, which V1 allows: WFD has no retry, the read buffer is taken and empty (no ZLP owed), and the
         write buffer, still accepting, is no packet yet (not_due) *)
      assert (Et : forall s1, s_retry s1 = None ->
                tx_phase mps ep (abs st true rt got lin lhost fl) s1 i (ix_outf mps ep st i) = (s1, true)).
      { intros s1 H1. unfold tx_phase, abs, ix_outf. rewrite Hf, Hr0, mps_ne0, H1.
        cbn [s_pend s_cur s_wait s_zlp o_valid o_nak app andb]. change (s_tok ep i) with (tok ep i).
        rewrite (not_due st Hw Hrdy). destruct (tok ep i); reflexivity. }
      rewrite Et by (unfold hs_phase, abs; rewrite Hf; reflexivity). clear Et.
      unfold hs_phase, abs. rewrite Hf, Hr0, mps_ne0. cbn [s_pend s_h s_cur s_wait s_retry s_zlp s_in s_host s_fl andb].
      rewrite if_same.
      rewrite add_stream_bg by exact Hw. subst T. unfold ix_next. rewrite Hf, Hclr.
      exists (negb (packet_ready mps st i)), false, false, lhost, (fl || i_flush i).
      destruct (packet_ready mps st i) eqn:Hpr; cbn [negb andb]; split.
      + do 2 f_equal. unfold abs. cbn [x_fsm x_pid x_w x_r x_pos]. f_equal.
        * rewrite (pend_of_empty (clr_end _)) by exact Hr0. apply eq_sym, app_nil_r.
        * destruct (x_pid st); reflexivity.
        * symmetry. apply swap_facts; [exact Hw | rewrite Hpr; apply orb_true_r].
      + unfold ghost. cbn [x_fsm x_r x_first]. split; [discriminate | split; [exact Hfirst|]].
        apply swap_facts; [exact Hw | rewrite Hpr; apply orb_true_r].
      + do 2 f_equal. unfold abs. cbn [x_fsm x_pid x_w x_r x_pos r_bg b_fill b_end]. rewrite Hr0, mps_ne0. reflexivity.
      + unfold ghost, w_ready. cbn [x_fsm x_w x_r x_first r_bg b_fill]. repeat split; try assumption.
        apply ready_next; assumption.

    - (* WAIT_TO_SEND *)
      destruct Hg as (Hrt & Hfirst & Hsh).
      unfold abs, ix_outf, zlp_now. rewrite Hf, Hclr, Hfirst. unfold tx_phase, hs_phase.
      cbn [s_pend s_h s_cur s_wait s_retry s_zlp s_in s_host s_fl o_valid o_first o_last o_nak o_pid andb negb].
      rewrite if_same. change (s_tok ep i) with (tok ep i).
      subst T. unfold ix_next. rewrite Hf, Hclr.
      destruct (tok ep i) eqn:Etok; cbn [andb]; [destruct (b_fill (x_r st) =? 0)%nat eqn:E0; cbn [negb]|].
      + (* the zero-length packet: complete_abs, read at b_fill (x_r st) = 0, where content (x_r st) is the monitor's [] *)
        apply Nat.eqb_eq in E0.
        assert (Ec : content (x_r st) = []) by (unfold content; rewrite E0; reflexivity).
        pose proof (complete_abs (pend_of (x_w st)) (x_pid st) acc rt (i_rcv i) (fl || i_flush i) (x_r st) None None lin lhost
                      Hm Hfr Hrt (shape_mono _ _ _ _ Hsh)) as HC.
        rewrite Ec, E0 in *. change (0 =? 0)%nat with true in HC. rewrite HC. clear HC. cbn [andb]. rewrite add_stream_bg by exact Hw.
        exists (acc || i_rcv i), false, (i_rcv i), (if i_rcv i && negb acc then lhost ++ [] else lhost), false.
        split.
        * do 2 f_equal. unfold abs. cbn [x_fsm x_pid x_w x_r x_pos].
          change (content (clr_end (r_bg true mps st i))) with (content (x_r st)).
          rewrite (pend_of_empty (x_r st)), (pend_of_empty (clr_end _)), Ec by exact E0.
          cbn [clr_end r_bg b_fill b_end]. rewrite E0, mps_ne0. destruct (acc || i_rcv i); reflexivity.
        * unfold ghost. cbn [x_fsm x_first]. split; [|exact Hfirst]. intros ->. apply orb_true_r.
      + unfold set_cur. cbn [s_pend s_h s_cur s_wait s_retry s_zlp s_in s_host s_fl]. rewrite add_stream_bg by exact Hw.
        exists acc, rt, false, lhost, (fl || i_flush i). split.
        * do 2 f_equal. unfold abs. cbn [x_fsm x_pid x_w x_r x_pos r_bg b_fill b_end]. rewrite E0. reflexivity.
        * apply Nat.eqb_neq in E0. unfold ghost. cbn [x_fsm x_first x_pos x_r r_bg b_fill b_rd b_mem]. unfold r_addr. rewrite Hf.
          repeat split; [exact Hrt | clear - E0; lia | apply rd_mem_lt, Hmps | apply shape_mono, Hsh].
      + rewrite add_stream_bg by exact Hw.
        exists acc, rt, false, lhost, (fl || i_flush i). split; [reflexivity|].
        unfold ghost. cbn [x_fsm x_first x_r]. repeat split; [exact Hrt | exact Hfirst | apply shape_mono, Hsh].

    - (* SEND_PACKET *)
      destruct Hg as (Hrt & Hpos & Hfirst & Hrd & Hsh).
      unfold abs, ix_outf. rewrite Hf. unfold tx_phase, hs_phase.
      cbn [s_pend s_h s_cur s_wait s_retry s_zlp s_in s_host s_fl o_valid o_first o_last o_nak o_pid o_payload andb negb].
      (* V2: the bytes handed over so far are empty iff x_pos = 0, as tx.first says (Hfirst); the byte on offer is the
         next of the content (Hrd), which makes the packet so far firstn (S x_pos) *)
      rewrite if_same, firstn_nil_iff, Hfirst, eqb_reflx, Hrd, content_snoc by (rewrite ?Hn; assumption).
      subst T. unfold ix_next. rewrite Hf, Hclr.
      destruct (i_txrdy i) eqn:Erdy; cbn [andb];
        [unfold last_byte; destruct (x_pos st + 1 =? b_fill (x_r st))%nat eqn:El|].
      + apply Nat.eqb_eq in El.
        rewrite (firstn_all2 (n := S (x_pos st))) by (rewrite Hn, <- El, Nat.add_1_r; apply le_n).
        rewrite complete_abs; [|exact Hm | exact Hfr | exact Hrt | apply shape_mono, Hsh].
        cbn [andb]. rewrite add_stream_bg by exact Hw.
        exists (acc || i_rcv i), false, (i_rcv i),
               (if i_rcv i && negb acc then lhost ++ content (x_r st) else lhost), false.
        split; [reflexivity|].
        unfold ghost. cbn [x_fsm x_first]. split; [|reflexivity]. intros ->. apply orb_true_r.
      + apply Nat.eqb_neq in El.
        assert (Hpos' : (x_pos st + 1 < b_fill (x_r st))%nat) by (clear - Hpos El; lia).
        unfold set_cur. cbn [s_pend s_h s_cur s_wait s_retry s_zlp s_in s_host s_fl]. rewrite add_stream_bg by exact Hw.
        rewrite (proj2 (Nat.ltb_lt _ _)) by (rewrite firstn_length, Hn; clear - Hpos' Hfr; lia).
        exists acc, rt, false, lhost, (fl || i_flush i). split.
        * do 2 f_equal. unfold abs. cbn [x_fsm x_pid x_w x_r x_pos]. rewrite Nat.add_1_r. reflexivity.
        * unfold ghost. cbn [x_fsm x_first x_pos x_r r_bg b_fill b_rd b_mem]. unfold r_addr. rewrite Hf, Erdy.
          repeat split; [exact Hrt | exact Hpos' | rewrite Nat.add_1_r; reflexivity | | apply shape_mono, Hsh].
          apply rd_mem_lt. clear - Hpos' Hfr. lia.
      + rewrite add_stream_bg by exact Hw.
        exists acc, rt, false, lhost, (fl || i_flush i). split; [reflexivity|].
        unfold ghost. cbn [x_fsm x_first x_pos x_r r_bg b_fill b_rd b_mem]. unfold r_addr. rewrite Hf, Erdy.
        repeat split; [exact Hrt | exact Hpos | exact Hfirst | | apply shape_mono, Hsh].
        apply rd_mem_lt. clear - Hpos Hfr. lia.

    - (* WAIT_FOR_ACK *)
      destruct Hg as (Hgot & Hfirst).
      unfold abs in Hack. cbn [s_wait] in Hack. rewrite Hf in Hack.
      unfold abs, ix_outf. rewrite Hf. unfold tx_phase, hs_phase.
      cbn [s_pend s_h s_cur s_wait s_retry s_zlp s_in s_host s_fl o_valid o_nak andb negb].
      rewrite andb_false_r, add_stream_bg by exact Hw.
      subst T. unfold ix_next. rewrite Hf, Hclr.
      destruct (i_ack i) eqn:Eack.
      + (* the environment lets an ACK in only for a packet the host received, and that it has taken (Hgot) *)
        destruct (Hack eq_refl) as [-> ->]. rewrite (Hgot eq_refl).
        cbn [orb andb negb].
        change ((b_fill (x_r st) =? mps)%nat && b_end (x_r st)) with (follow_up mps st).
        destruct (follow_up mps st) eqn:Efu; [|destruct (negb (w_ready mps st) || packet_ready mps st i) eqn:Esw].
        * exists false, false, false, lhost, (fl || i_flush i). split.
          -- do 2 f_equal. unfold abs. cbn [x_fsm x_pid x_w x_r x_pos]. f_equal. destruct (x_pid st); reflexivity.
          -- unfold ghost. cbn [x_fsm x_first x_r]. split; [discriminate | split; [exact Hfirst|]].
             intros _. cbn [set_fill b_fill Nat.eqb]. rewrite orb_true_r. reflexivity.
        * destruct (swap_facts st i Hw Esw) as [Hf1 Hsh].
          exists false, false, false, lhost, (fl || i_flush i). split.
          -- do 2 f_equal. unfold abs. cbn [x_fsm x_pid x_w x_r x_pos]. f_equal.
             ++ apply eq_sym, app_nil_r.
             ++ destruct (x_pid st); reflexivity.
             ++ symmetry. exact Hf1.
          -- unfold ghost. cbn [x_fsm x_first x_r]. split; [discriminate | split; [exact Hfirst | apply Hsh]].
        * apply orb_false_iff in Esw as [Erdy Epr]. apply negb_false_iff in Erdy.
          exists true, false, false, lhost, (fl || i_flush i). split.
          -- do 2 f_equal. unfold abs. cbn [x_fsm x_pid x_w x_r x_pos set_fill b_fill]. rewrite mps_ne0. reflexivity.
          -- unfold ghost, w_ready. cbn [x_fsm x_first x_w x_r set_fill b_fill]. repeat split; [|exact Hfirst].
             apply ready_next; assumption.
      + cbn [orb andb negb]. rewrite andb_true_r. destruct (i_newtok i).
        * (* time-out: the host moved on without ACK; the packet will be sent again *)
          exists acc, true, false, lhost, (fl || i_flush i). split; [reflexivity|].
          unfold ghost. cbn [x_fsm x_first x_r]. split; [reflexivity | split; [exact Hfirst | discriminate]].
        * exists acc, false, got, lhost, (fl || i_flush i). split; [reflexivity|].
          unfold ghost. cbn [x_fsm x_first]. split; assumption.
  Qed.

  Lemma mon_env_false : forall s i o, c11_env ep s i = false -> c11_mon mps ep s i o = None.
  Proof. intros s i o H. unfold c11_mon. rewrite H. reflexivity. Qed.

  Lemma run_abs : forall ins st acc rt got lin lhost fl, wfm st -> ghost st acc rt got fl ->
    c11_check mps ep (abs st acc rt got lin lhost fl) (combine ins (ix_run true true mps ep st ins)) = true /\
    exists st' acc' rt' got' lin' lhost' fl',
      c11_state mps ep (abs st acc rt got lin lhost fl) (combine ins (ix_run true true mps ep st ins))
      = abs st' acc' rt' got' lin' lhost' fl' /\ wfm st'.
  Proof.
    induction ins as [|i t IH]; intros st acc rt got lin lhost fl Hw Hg; cbn [ix_run combine c11_check c11_state].
    - split; [reflexivity | eauto 10].
    - destruct (c11_env ep (abs st acc rt got lin lhost fl) i) eqn:He.
      + destruct (step_ok st acc rt got lin lhost fl i Hw Hg He) as (a' & r' & g' & h' & f' & E & Hg').
        rewrite E. apply IH; [apply wfm_next, Hw | exact Hg'].
      + rewrite mon_env_false by exact He. split; [reflexivity | eauto 10].
  Qed.

  Lemma ghost_init : ghost (ix_init mps) true false false false.
  Proof. unfold ghost, ix_init, w_ready, buf0. cbn [x_fsm x_w x_r x_first b_fill b_end]. rewrite mps_ne0. repeat split. Qed.

  Lemma abs_init : abs (ix_init mps) true false false [] [] false = sp_init.
  Proof. unfold abs, ix_init, sp_init, buf0. cbn [x_fsm x_pid x_w x_r b_fill b_end]. rewrite mps_ne0. reflexivity. Qed.

  Theorem refines : forall ins,
    c11_check mps ep sp_init (combine ins (ix_run true true mps ep (ix_init mps) ins)) = true.
  Proof. intro ins. rewrite <- abs_init. apply run_abs; [apply wfm_init | apply ghost_init]. Qed.

  Theorem backlog_bounded : forall ins,
    (length (s_pend (c11_state mps ep sp_init (combine ins (ix_run true true mps ep (ix_init mps) ins)))) <= 2 * mps)%nat.
  Proof.
    intro ins. rewrite <- abs_init.
    destruct (run_abs ins (ix_init mps) true false false [] [] false wfm_init ghost_init)
      as (_ & st' & a' & r' & g' & l' & h' & f' & E & Hw').
    rewrite E. apply abs_backlog. exact Hw'.
  Qed.
End Refine.

(* The specification monitor itself, whatever drives it: as long as it reports no violation, what the host has
   taken, followed by what is still pending, is what the stream handed over. *)
Definition logs_ok (s : sp_state) : Prop := s_in s = s_host s ++ map fst (s_pend s).

Lemma complete_logs : forall mps s retry pid bs rcv s' ok,
  complete mps s retry pid bs rcv = (s', ok) -> ok = true -> logs_ok s -> logs_ok s'.
Proof.
  intros mps s retry pid bs rcv s' ok H Hok L. unfold complete in H.
  injection H as <- <-. unfold logs_ok in *. cbn [s_in s_host s_pend].
  destruct (rcv && (pid =? b2n (s_h s))) eqn:Et; [|exact L].
  (* taken: the verdict says that the packet is a prefix of the pending stream *)
  cbn [negb orb] in Hok. apply andb_true_iff in Hok as [_ Hok].
  apply andb_true_iff in Hok as [Hok _]. apply andb_true_iff in Hok as [Hok _].
  apply andb_true_iff in Hok as [_ Hb]. apply bytes_eqb_eq in Hb.
  rewrite L, <- app_assoc. f_equal.
  rewrite <- (firstn_skipn (length bs) (s_pend s)) at 1. rewrite map_app, <- Hb. reflexivity.
Qed.

Lemma tx_phase_cases : forall mps ep s s1 i o s2 ok, tx_phase mps ep s s1 i o = (s2, ok) ->
  s2 = s1 \/ (exists c, s2 = set_cur s1 c) \/
  exists pid bs v, complete mps s1 (s_retry s1) pid bs (i_rcv i) = (s2, v) /\ (ok = true -> v = true).
Proof.
  intros mps ep s s1 i o s2 ok H. unfold tx_phase in H.
  destruct (s_cur s) as [bs|];
    [ destruct (o_valid o && i_txrdy i); [destruct (o_last o)|]
    | destruct (s_tok ep i && _); [destruct (o_nak o); [|destruct (o_valid o)]|] ];
    try (injection H as <- _; solve [eauto]).
  all: destruct (complete _ _ _ _ _ _) as [s3 v3] eqn:Ec; injection H as <- <-.
  all: right; right; eexists _, _, v3; split; [exact Ec | intro Hv].
  all: repeat (apply andb_true_iff in Hv as [Hv ?]); assumption.
Qed.

Lemma mon_cases : forall mps ep s i o s' ok, c11_mon mps ep s i o = Some (s', ok) ->
  (s' = s /\ ok = false /\ o_ready o = false) \/
  exists s2, tx_phase mps ep s (hs_phase s i) i o = (s2, ok) /\ s' = add_stream (i_valid i && o_ready o) i s2.
Proof.
  intros mps ep s i o s' ok H. unfold c11_mon in H.
  destruct (negb (c11_env ep s i)); [discriminate|].
  destruct (negb (ready_ok mps s o)) eqn:Er.
  - injection H as <- <-. apply negb_true_iff, orb_false_iff in Er. left. repeat split. apply Er.
  - destruct (tx_phase mps ep s (hs_phase s i) i o) as [s2 ok2]. injection H as <- <-. right. eauto.
Qed.

Lemma mon_logs : forall mps ep s i o s', c11_mon mps ep s i o = Some (s', true) -> logs_ok s -> logs_ok s'.
Proof.
  intros mps ep s i o s' H L.
  destruct (mon_cases _ _ _ _ _ _ _ H) as [(_ & E & _) | (s2 & Et & ->)]; [discriminate|].
  assert (L2 : logs_ok s2).
  { destruct (tx_phase_cases _ _ _ _ _ _ _ _ Et) as [-> | [[c ->] | (pid & bs & v & Ec & Hv)]]; try exact L.
    exact (complete_logs _ _ _ _ _ _ _ _ Ec (Hv eq_refl) L). }
  unfold logs_ok in *. unfold add_stream. cbn [s_in s_host s_pend].
  destruct (i_valid i && o_ready o); [|exact L2].
  rewrite L2, map_app, app_assoc. reflexivity.
Qed.

Lemma mon_in_log : forall mps ep s i o s' ok, c11_mon mps ep s i o = Some (s', ok) ->
  s_in s' = s_in s ++ (if i_valid i && o_ready o then [i_payload i] else []).
Proof.
  intros mps ep s i o s' ok H.
  destruct (mon_cases _ _ _ _ _ _ _ H) as [(-> & _ & Er) | (s2 & Et & ->)].
  { rewrite Er, andb_false_r, app_nil_r. reflexivity. }
  assert (E : s_in s2 = s_in s).
  { destruct (tx_phase_cases _ _ _ _ _ _ _ _ Et) as [-> | [[c ->] | (pid & bs & v & Ec & _)]]; try reflexivity.
    unfold complete in Ec. injection Ec as <- _. reflexivity. }
  unfold add_stream. cbn [s_in]. rewrite E.
  destruct (i_valid i && o_ready o); [reflexivity | rewrite app_nil_r; reflexivity].
Qed.

Lemma check_logs : forall mps ep ios s, c11_check mps ep s ios = true -> logs_ok s ->
  logs_ok (c11_state mps ep s ios).
Proof.
  induction ios as [|[i o] t IH]; intros s H L; [exact L|].
  cbn [c11_check c11_state] in *. destruct (c11_mon mps ep s i o) as [[s' ok]|] eqn:E; [|exact L].
  apply andb_true_iff in H as [-> H]. apply IH; [exact H|]. eapply mon_logs; eassumption.
Qed.

Lemma state_in_log : forall mps ep ios s, c11_env_all mps ep s ios = true ->
  s_in (c11_state mps ep s ios) = s_in s ++ accepted_bytes ios.
Proof.
  induction ios as [|[i o] t IH]; intros s H; [cbn; rewrite app_nil_r; reflexivity|].
  cbn [c11_env_all c11_state] in *. destruct (c11_mon mps ep s i o) as [[s' ok]|] eqn:E; [|discriminate].
  rewrite IH by exact H. rewrite (mon_in_log _ _ _ _ _ _ _ E). rewrite <- app_assoc. reflexivity.
Qed.

(* C11, for runs of the model from reset. *)
Theorem exactly_once : forall mps ep, (1 <= mps)%nat -> forall ins,
  let ios := combine ins (ix_run true true mps ep (ix_init mps) ins) in
  let s := c11_state mps ep sp_init ios in
  s_in s = s_host s ++ map fst (s_pend s) /\
  (length (s_pend s) <= 2 * mps)%nat /\
  (c11_env_all mps ep sp_init ios = true -> accepted_bytes ios = s_host s ++ map fst (s_pend s)).
Proof.
  intros mps ep Hm ins. cbv zeta.
  assert (L : logs_ok (c11_state mps ep sp_init (combine ins (ix_run true true mps ep (ix_init mps) ins)))).
  { apply check_logs; [apply refines; exact Hm | reflexivity]. }
  split; [exact L|]. split; [apply backlog_bounded; exact Hm|].
  intro He. rewrite <- L. rewrite state_in_log by exact He. reflexivity.
Qed.

(* C20, where the request discipline of the transmit path comes from: the endpoint's handshake request (o_nak) and its
   data request (o_valid = tx.valid) never coincide, and each is made only in answer to `tok`,
   tokenizer.ready_for_response for this endpoint *)
Lemma inxfer_requests_exclusive : forall mps ep st i,
  let o := ix_outf mps ep st i in o_nak o && o_valid o = false.
Proof. intros. unfold o, ix_outf. cbn [o_nak o_valid]. destruct (x_fsm st); rewrite ?andb_false_r; reflexivity. Qed.

Lemma inxfer_nak_trigger : forall mps ep st i, o_nak (ix_outf mps ep st i) = true -> tok ep i = true.
Proof. intros mps ep st i. unfold ix_outf. cbn [o_nak]. destruct (x_fsm st); intro H; try discriminate; exact H. Qed.

Lemma inxfer_zlp_trigger : forall mps ep st i, x_fsm st <> SEND -> o_valid (ix_outf mps ep st i) = true -> tok ep i = true.
Proof.
  intros mps ep st i Hn. unfold ix_outf. cbn [o_valid]. destruct (x_fsm st); try discriminate; try contradiction.
  unfold zlp_now. intro H. apply andb_true_iff in H as [H _]. apply andb_true_iff in H as [_ H]. exact H.
Qed.

Lemma inxfer_data_trigger : forall fa fr mps ep st i,
  x_fsm st <> SEND -> x_fsm (ix_next fa fr mps ep st i) = SEND -> tok ep i = true.
Proof.
  intros fa fr mps ep st i Hn. unfold ix_next. destruct (x_fsm st) eqn:E; try contradiction.
  - destruct (packet_ready mps st i); cbn [x_fsm]; discriminate.
  - destruct (clr ep i); cbn [x_fsm]; [discriminate|]. destruct (tok ep i); [reflexivity|]. cbn [x_fsm]. discriminate.
  - destruct (i_ack i).
    + destruct (follow_up mps st); cbn [x_fsm]; [discriminate|].
      destruct (negb (w_ready mps st) || packet_ready mps st i); cbn [x_fsm]; [discriminate|]. destruct (i_newtok i); discriminate.
    + cbn [x_fsm]. destruct (i_newtok i); discriminate.
Qed.

Lemma nb_b2n : forall b, nb (b2n b) = b.
Proof. destruct b; reflexivity. Qed.

(* beside wfm, for the packing: ix_dec_enc needs the bytes and b_rd below 256, which the refinement does not, and has
   no use for wfm's "an end marker only in a non-empty buffer" *)
Definition buf_wf (mps : nat) (b : ix_buf) : Prop :=
  (b_fill b <= mps)%nat /\ b_rd b < 256 /\ length (b_mem b) = mps /\ Forall (fun x => x < 256) (b_mem b).
Definition ix_wf (mps : nat) (st : ix_state) : Prop := buf_wf mps (x_w st) /\ buf_wf mps (x_r st).

(* the decoders peel one digit after the other off the word, lowest first *)
Lemma buf_dec_enc : forall mps b rest, buf_wf mps b -> buf_dec mps (buf_enc mps b rest) = (b, rest).
Proof.
  intros mps [f e r m] rest (Hf & Hr & Hl & Hm). cbn [b_fill b_end b_rd b_mem] in *.
  unfold buf_dec, buf_enc. cbv zeta. cbn [b_fill b_end b_rd b_mem].
  rewrite pk_mod, pk_div by (unfold FB; lia).
  rewrite pk_mod, pk_div by apply b2n_lt2.
  rewrite pk_mod, pk_div by exact Hr.
  rewrite pk_mod, pk_div by (unfold MB; rewrite <- Hl; apply pack_lt, Hm).
  rewrite Nat2N.id, nb_b2n. rewrite <- Hl at 1. rewrite unpack_pack by exact Hm. reflexivity.
Qed.

Lemma fsm_of_code : forall f, fsm_of (fsm_code f) = f.
Proof. destruct f; reflexivity. Qed.
Lemma fsm_code_lt : forall f, fsm_code f < 4.
Proof. destruct f; reflexivity. Qed.

Lemma ix_dec_enc : forall mps st, ix_wf mps st -> ix_dec mps (ix_enc mps st) = st.
Proof.
  intros mps [f p t fi w r ps] [Hw Hr]. cbn [x_w x_r] in *.
  unfold ix_dec, ix_enc. cbv zeta. cbn [x_fsm x_pid x_tog x_first x_w x_r x_pos].
  rewrite pk_mod, pk_div by apply fsm_code_lt.
  do 3 rewrite pk_mod, pk_div by apply b2n_lt2.
  rewrite (buf_dec_enc _ _ _ Hw), (buf_dec_enc _ _ _ Hr).
  rewrite fsm_of_code, !nb_b2n, Nat2N.id. reflexivity.
Qed.

Lemma rd_mem_lt256 : forall mps m a, Forall (fun x => x < 256) m -> rd_mem mps m a < 256.
Proof.
  intros mps m a H. unfold rd_mem. destruct (_ <? mps)%nat; [|reflexivity]. apply Forall_nth_lt; [reflexivity | exact H].
Qed.

Lemma ix_wf_next : forall fa fr mps ep st i, i_payload i < 256 -> ix_wf mps st -> ix_wf mps (ix_next fa fr mps ep st i).
Proof.
  intros fa fr mps ep st i Hp [(Hwf & Hwr & Hwl & Hwm) (Hrf & Hrr & Hrl & Hrm)].
  assert (W1 : buf_wf mps (w_bg mps st i)).
  { unfold buf_wf, w_bg. cbn [b_fill b_rd b_mem].
    destruct (w_en mps st i) eqn:E; unfold w_en, w_ready in E; rewrite ?upd_length;
      repeat split; try assumption; [lia | apply rd_mem_lt256, Hwm | apply upd_Forall; assumption | apply rd_mem_lt256, Hwm]. }
  assert (R1 : buf_wf mps (r_bg fa mps st i)) by (repeat split; try assumption; apply rd_mem_lt256, Hrm).
  assert (S0 : buf_wf mps (set_fill (r_bg fa mps st i) 0)) by (repeat split; try apply R1; apply Nat.le_0_l).
  apply (ix_next_bufs fa fr mps ep st i (fun w r => buf_wf mps w /\ buf_wf mps r)); split; assumption.
Qed.

(* the input word's payload field is a byte *)
Lemma ix_wf_next_word : forall fa fr mps ep st w, ix_wf mps st -> ix_wf mps (ix_next fa fr mps ep st (ix_in_of w)).
Proof. intros. apply ix_wf_next; [apply (bits_lt w 19 8) | assumption]. Qed.

Lemma ix_wf_step : forall mps ep st w, ix_wf mps st -> ix_wf mps (fst (ix_mstep_n true true mps ep st w)).
Proof. intros. apply ix_wf_next_word. assumption. Qed.

Lemma ix_wf_init : forall mps, ix_wf mps (ix_init mps).
Proof.
  intro mps. assert (B : buf_wf mps (buf0 mps)); [|split; exact B].
  unfold buf_wf, buf0. cbn [b_fill b_rd b_mem]. rewrite repeat_length. repeat split; try apply Nat.le_0_l.
  apply Forall_repeat. reflexivity.
Qed.

Lemma ix_out_of_pack : forall o, o_pid o < 4 -> o_payload o < 256 -> ix_out_of (ix_out_pack o) = o.
Proof.
  intros [r v f l k p pl] Hp Hpl. cbn [o_pid o_payload] in *.
  unfold ix_out_of, ix_out_pack. cbv zeta. cbn [o_ready o_valid o_first o_last o_nak o_pid o_payload].
  do 5 rewrite pk_mod, pk_div by apply b2n_lt2.
  rewrite pk_mod, pk_div by exact Hp.
  rewrite !nb_b2n, N.mod_small by exact Hpl. reflexivity.
Qed.

Lemma mon_norm : forall mps ep s i o, c11_mon mps ep s i (out_norm o) = c11_mon mps ep s i o.
Proof.
  intros mps ep s i [r v f l k p pl]. unfold out_norm. cbn [o_ready o_valid o_first o_last o_nak o_pid o_payload].
  destruct v; [reflexivity|].
  unfold c11_mon, tx_phase. cbn [o_ready o_valid o_first o_last o_nak o_pid o_payload andb].
  destruct (s_cur s); reflexivity.
Qed.

Lemma check_norm : forall mps ep ios s,
  c11_check mps ep s (map (fun io => (fst io, out_norm (snd io))) ios) = c11_check mps ep s ios.
Proof.
  induction ios as [|[i o] t IH]; intro s; [reflexivity|].
  cbn [map c11_check fst snd]. rewrite mon_norm. destruct (c11_mon mps ep s i o) as [[s' ok]|]; [|reflexivity].
  rewrite IH. reflexivity.
Qed.

(* The packed machines of the ties are the typed model with a filter g on its outputs (tx.payload masked or
   dropped): their runs, decoded, are the typed run with g applied. *)
Lemma decode_run_with : forall (g : ix_out -> ix_out) mps ep,
  (forall st i, ix_wf mps st ->
     o_pid (g (ix_outf mps ep st i)) < 4 /\ o_payload (g (ix_outf mps ep st i)) < 256) ->
  forall ws st, ix_wf mps st ->
  combine (map ix_in_of ws)
    (map ix_out_of (run (fun st w => (ix_next true true mps ep st (ix_in_of w),
                                      ix_out_pack (g (ix_outf mps ep st (ix_in_of w))))) st ws))
  = map (fun io => (fst io, g (snd io)))
        (combine (map ix_in_of ws) (ix_run true true mps ep st (map ix_in_of ws))).
Proof.
  intros g mps ep Hg. induction ws as [|w t IH]; intros st Hs; [reflexivity|].
  cbn [run map combine ix_run fst snd].
  rewrite ix_out_of_pack by apply Hg, Hs. f_equal. apply IH, ix_wf_next_word, Hs.
Qed.

Lemma decode_run : forall mps ep ws st, ix_wf mps st ->
  combine (map ix_in_of ws) (map ix_out_of (run (ix_mstep_n true true mps ep) st ws))
  = map (fun io => (fst io, out_norm (snd io)))
        (combine (map ix_in_of ws) (ix_run true true mps ep st (map ix_in_of ws))).
Proof.
  intros mps ep. apply (decode_run_with out_norm). intros st i [_ (_ & Hr & _)].
  unfold out_norm, ix_outf. cbn [o_pid o_payload o_valid]. split.
  - destruct (x_pid st); reflexivity.
  - destruct (match x_fsm st with SEND => true | WTS => zlp_now ep st i | _ => false end); [exact Hr | reflexivity].
Qed.

(* What the lock-step ties use. *)
Theorem packed_refines : forall mps ep, (1 <= mps)%nat -> forall ws,
  c11_check mps ep sp_init
    (combine (map ix_in_of ws) (map ix_out_of (run (ix_mstep_n true true mps ep) (ix_init mps) ws))) = true.
Proof.
  intros mps ep Hm ws. rewrite decode_run by apply ix_wf_init. rewrite check_norm. apply refines. exact Hm.
Qed.
