(* C03 -- proofs about Model/Usb2DataTx.v: the generator + CRC16 model equals the transaction-level
   specification machine on every input history; reading theorems of the specification (bytes accepted by the
   PHY = framed packets, bytes consumed = payloads, tx.valid = busy); packing lemmas for the lock-step tie. *)
From Coq Require Import NArith List Bool Lia.
Import ListNotations.
From LunaLib Require Import Netlist Bits Machine PackN.
From LunaModel Require Import Crc Crc_proofs Usb2DataTx.
Open Scope N_scope.

Lemma tx_payload_lt : forall i, tx_payload i < 256.
Proof. intro i. apply (bits_lt i 5 8). Qed.

Lemma tx_pid_byte_lt : forall d, tx_pid_byte d < 256.
Proof. intros d. unfold tx_pid_byte. destruct (N.to_nat d) as [|[|[|[|[|n]]]]]; reflexivity. Qed.

Definition tx_rel (s : tx_state) (q : txs_state) : Prop :=
  match q with
  | S_IDLE => g_fsm (t_core s) = TX_IDLE
  | S_PID p z => g_fsm (t_core s) = TX_PID /\ g_pidb (t_core s) = p /\ g_zlp (t_core s) = z
  | S_PAYLOAD p sent => g_fsm (t_core s) = TX_PAYLOAD /\ t_crc s = crc16_reg sent
  | S_CRC1 p sent => g_fsm (t_core s) = TX_CRC1 /\ t_crc s = crc16_reg sent
  | S_CRC2 p sent => g_fsm (t_core s) = TX_CRC2 /\ g_rem (t_core s) = crc16_usb sent / 256
  end.

Lemma tx_rel_init : tx_rel tx_init txs_init.
Proof. reflexivity. Qed.

Ltac tx_crunch :=
  cbn [t_core t_crc g_fsm g_pidb g_rem g_zlp fst snd negb andb orb crc_reg_next tx_rel] in *.

Lemma tx_rel_step : forall s q i, tx_rel s q ->
  tx_rel (fst (tx_step s i)) (fst (txs_step q i)) /\ snd (tx_step s i) = snd (txs_step q i).
Proof.
  intros [[f pidb rem zlp] crc] q i H.
  unfold tx_step, txo_core, txs_step. tx_crunch.
  destruct q as [|p z|p sent|p sent|p sent]; tx_crunch.
  - (* IDLE *)
    subst f. rewrite (andb_comm (tx_first i)), (andb_comm (tx_last i)).
    destruct (tx_svalid i && tx_first i); tx_crunch; [auto|].
    destruct (tx_svalid i && tx_last i); tx_crunch; auto.
  - (* PID *)
    destruct H as (-> & -> & ->). tx_crunch.
    destruct (tx_ready i); tx_crunch; [|auto].
    destruct z; tx_crunch; auto.
  - (* PAYLOAD *)
    destruct H as (-> & ->). tx_crunch.
    destruct (tx_ready i); tx_crunch.
    + destruct (tx_svalid i); tx_crunch.
      * rewrite orb_false_r. destruct (tx_last i); tx_crunch; (split; [split; [reflexivity | symmetry; apply crc16_reg_snoc] | reflexivity]).
      * rewrite orb_true_r. auto.
    + rewrite andb_false_r. tx_crunch. auto.
  - (* CRC1 *)
    destruct H as (-> & ->). tx_crunch. rewrite <- crc16_usb_reg, bits_0.
    destruct (tx_ready i); tx_crunch; [|auto].
    split; [split; [reflexivity|] | reflexivity].
    (* bits 8..15 of a 16-bit value are its quotient by 256 *)
    rewrite bits_spec. apply N.mod_small, N.div_lt_upper_bound; [discriminate | apply crc16_usb_lt].
  - (* CRC2 *)
    destruct H as (-> & ->). tx_crunch.
    destruct (tx_ready i); tx_crunch; auto.
Qed.

Theorem tx_refines : forall tr s q, tx_rel s q -> run tx_step s tr = run txs_step q tr.
Proof. exact (sim_run_all _ _ tx_rel tx_rel_step). Qed.

Corollary tx_from_reset : forall tr, run tx_step tx_init tr = run txs_step txs_init tr.
Proof. intros. apply tx_refines. apply tx_rel_init. Qed.

Lemma tx_out_decode : forall v d r, d < 256 ->
  to_txvalid (tx_out_word v d r) = v /\ to_txdata (tx_out_word v d r) = d /\ to_sready (tx_out_word v d r) = r.
Proof.
  intros v d r Hd.
  set (L := [(1, b2n v); (8, d); (1, b2n r)]).
  assert (HL : fields_ok L) by (repeat constructor; try apply b2n_lt2; assumption).
  assert (E : tx_out_word v d r = fields_word L) by (unfold tx_out_word, L; cbn [fields_word]; lia).
  rewrite E. repeat split.
  - exact (testbit_fields_word L 0 v HL eq_refl).
  - exact (bits_fields_word L 1 HL).
  - exact (testbit_fields_word L 2 r HL eq_refl).
Qed.

Definition txs_wf (q : txs_state) : Prop :=
  match q with S_IDLE => True | S_PID p _ | S_PAYLOAD p _ | S_CRC1 p _ | S_CRC2 p _ => p < 256 end.

Lemma txs_wf_step : forall q i, txs_wf q -> txs_wf (fst (txs_step q i)).
Proof.
  intros q i H. pose proof (tx_pid_byte_lt (tx_dpid i)) as Hp.
  destruct q; cbn [txs_step fst txs_wf] in *.
  - destruct (tx_svalid i && tx_first i); [exact Hp|]. destruct (tx_svalid i && tx_last i); [exact Hp | exact I].
  - destruct (tx_ready i); [destruct zlp|]; exact H.
  - destruct (tx_ready i && tx_svalid i); [destruct (tx_last i); exact H|]. destruct (tx_ready i); exact H.
  - destruct (tx_ready i); exact H.
  - destruct (tx_ready i); [exact I | exact H].
Qed.

Lemma txs_out_fields : forall q i, txs_wf q ->
  let o := snd (txs_step q i) in
  to_txvalid o = (match q with S_IDLE => false | S_PAYLOAD _ _ => tx_svalid i | _ => true end) /\
  to_txdata o = (match q with
                 | S_IDLE => 0 | S_PID p _ => p | S_PAYLOAD _ _ => tx_payload i
                 | S_CRC1 _ sent => crc16_usb sent mod 256 | S_CRC2 _ sent => crc16_usb sent / 256 end) /\
  to_sready o = (match q with S_PAYLOAD _ _ => tx_ready i | _ => false end).
Proof.
  intros q i H. pose proof (tx_payload_lt i).
  destruct q as [|p z|p sent|p sent|p sent]; cbn [txs_step snd txs_wf] in *; apply tx_out_decode;
    try assumption; [reflexivity | apply N.mod_lt; discriminate |].
  apply N.div_lt_upper_bound; [discriminate | apply crc16_usb_lt].
Qed.

(* tx.valid is high exactly while a packet is in progress (given the producer contract) *)
Theorem txs_valid_iff_busy : forall q i, txs_wf q -> txs_env q i = true ->
  to_txvalid (snd (txs_step q i)) = txs_busy q.
Proof.
  intros q i H He. destruct (txs_out_fields q i H) as [Hv _]. rewrite Hv.
  destruct q; cbn [txs_env txs_busy] in *; auto.
Qed.

(* a packet ends in the idle state: its tx.valid run is followed by at least one cycle with tx.valid low *)
Theorem txs_idle_after_packet : forall q i p, txs_done q i = Some p -> fst (txs_step q i) = S_IDLE.
Proof.
  intros q i p H. destruct q; cbn [txs_done] in H; try discriminate.
  cbn [txs_step fst]. destruct (tx_ready i); [reflexivity | discriminate].
Qed.

Definition tx_wire_of (p : N * list N) : list N := tx_wire (fst p) (snd p).

(* Observing the cycles selected by `sel` through `val`: if in every cycle what `acc` holds plus what is observed
   equals what a completed packet contributes (through f) plus what `acc` holds afterwards, then over a history
   the observations are the contributions of the packets logged, up to `acc` at both ends. *)
Lemma txs_log_observed : forall (acc : txs_state -> list N) (f : N * list N -> list N)
    (sel : N * N -> bool) (val : N * N -> N),
  (forall q i, txs_wf q ->
     acc q ++ (if sel (i, snd (txs_step q i)) then [val (i, snd (txs_step q i))] else [])
     = match txs_done q i with Some p => f p | None => [] end ++ acc (fst (txs_step q i))) ->
  forall tr q, txs_wf q ->
  acc q ++ map val (filter sel (combine tr (run txs_step q tr)))
  = flat_map f (txs_log q tr) ++ acc (run_state txs_step q tr).
Proof.
  intros acc f sel val Hcycle. induction tr as [|i tr IH]; intros q H; [cbn; rewrite app_nil_r; reflexivity|].
  rewrite run_cons. cbn [combine filter run_state txs_log].
  specialize (IH _ (txs_wf_step q i H)). specialize (Hcycle q i H).
  transitivity ((match txs_done q i with Some p => f p | None => [] end ++ acc (fst (txs_step q i)))
                ++ map val (filter sel (combine tr (run txs_step (fst (txs_step q i)) tr)))).
  - rewrite <- Hcycle, <- app_assoc. destruct (sel _); reflexivity.
  - rewrite <- app_assoc, IH. destruct (txs_done q i); [cbn [flat_map]; rewrite <- app_assoc|]; reflexivity.
Qed.

(* the bytes accepted by the PHY are the framed packets, in order, then the accepted part of the one in progress *)
Theorem txs_accepted : forall tr q, txs_wf q ->
  txs_partial q ++ tx_accepted (combine tr (run txs_step q tr))
  = flat_map tx_wire_of (txs_log q tr) ++ txs_partial (run_state txs_step q tr).
Proof.
  apply (txs_log_observed txs_partial tx_wire_of (fun io => to_txvalid (snd io) && tx_ready (fst io))
                          (fun io => to_txdata (snd io))).
  intros q i H. cbn [fst snd]. destruct (txs_out_fields q i H) as (-> & -> & _).
  destruct q as [|p z|p sent|p sent|p sent]; cbn [txs_step txs_done txs_partial fst andb app].
  - destruct (tx_svalid i && tx_first i); [|destruct (tx_svalid i && tx_last i)]; reflexivity.
  - destruct (tx_ready i), z; reflexivity.
  - destruct (tx_ready i), (tx_svalid i), (tx_last i); cbn [andb txs_partial app]; rewrite ?app_nil_r; reflexivity.
  - destruct (tx_ready i); cbn [txs_partial app]; rewrite ?app_nil_r; reflexivity.
  - destruct (tx_ready i); [|cbn [txs_partial app]; rewrite app_nil_r; reflexivity].
    unfold tx_wire_of, tx_wire. cbn [fst snd txs_partial app]. rewrite <- !app_assoc. reflexivity.
Qed.

(* every byte taken from the producer is sent exactly once, in order *)
Theorem txs_consumed : forall tr q, txs_wf q ->
  txs_sent q ++ tx_consumed (combine tr (run txs_step q tr))
  = flat_map snd (txs_log q tr) ++ txs_sent (run_state txs_step q tr).
Proof.
  apply (txs_log_observed txs_sent snd (fun io => tx_svalid (fst io) && to_sready (snd io))
                          (fun io => tx_payload (fst io))).
  intros q i H. cbn [fst snd]. destruct (txs_out_fields q i H) as (_ & _ & ->).
  destruct q as [|p z|p sent|p sent|p sent]; cbn [txs_step txs_done txs_sent fst app]; rewrite ?andb_false_r.
  - destruct (tx_svalid i && tx_first i); [|destruct (tx_svalid i && tx_last i)]; reflexivity.
  - destruct (tx_ready i), z; reflexivity.
  - destruct (tx_ready i), (tx_svalid i), (tx_last i); cbn [andb txs_sent app]; rewrite ?app_nil_r; reflexivity.
  - destruct (tx_ready i); rewrite app_nil_r; reflexivity.
  - destruct (tx_ready i); cbn [snd txs_sent app]; rewrite !app_nil_r; reflexivity.
Qed.

Lemma tx_wire_zlp : forall p, tx_wire p [] = [p; 0; 0].
Proof. intros. unfold tx_wire. cbn [app]. reflexivity. Qed.

(* the PID bytes are the USB data PIDs DATA0 = 0011, DATA1 = 1011, DATA2 = 0111, MDATA = 1111 with check nibble *)
Lemma tx_pid_bytes : map tx_pid_byte [0; 1; 2; 3] = map (fun n => n + 16 * (15 - n)) [3; 11; 7; 15].
Proof. reflexivity. Qed.

(* for users that run the generator with a CRC unit of their own (the transmit path of C20): in the cycle after
   an idle one no byte of a packet has been accepted yet, and while none has tx_rel does not read the CRC register *)
Lemma txs_idle_next : forall w, txs_partial (fst (txs_step S_IDLE w)) = [].
Proof. intro w. cbn [txs_step fst]. destruct (_ && _); [reflexivity|]. destruct (_ && _); reflexivity. Qed.

Lemma tx_rel_core_only : forall s1 s2 q, t_core s1 = t_core s2 -> txs_partial q = [] -> tx_rel s1 q -> tx_rel s2 q.
Proof. intros s1 s2 q E Hq H. destruct q; try discriminate Hq; cbn [tx_rel] in *; rewrite <- E; exact H. Qed.

Lemma tx_fsm_code_of : forall f, tx_fsm_of (tx_fsm_code f) = f.
Proof. destruct f; reflexivity. Qed.
Lemma tx_fsm_code_lt : forall f, tx_fsm_code f < 8.
Proof. destruct f; reflexivity. Qed.

Lemma txo_dec_enc : forall c, txo_wf c -> txo_dec (txo_enc c) = c.
Proof.
  intros [f p r z] [H1 H2]. cbn [g_pidb g_rem] in *. unfold txo_dec, txo_enc. cbn [g_fsm g_pidb g_rem g_zlp].
  pose proof (tx_fsm_code_lt f).
  rewrite !pk_div, !pk_mod by assumption.
  rewrite tx_fsm_code_of. destruct z; reflexivity.
Qed.

Lemma txo_wf_init : txo_wf txo_init.
Proof. split; reflexivity. Qed.

Lemma txo_core_wf : forall c dpid v f l pl rd crc, txo_wf c -> txo_wf (fst (txo_core c dpid v f l pl rd crc)).
Proof.
  intros [fs p r z] dpid v f l pl rd crc [H1 H2]. cbn [g_pidb g_rem] in *.
  unfold txo_wf, txo_core. cbn [fst g_fsm g_pidb g_rem g_zlp].
  pose proof (tx_pid_byte_lt dpid). pose proof (bits_lt crc 8 8 : bits crc 8 8 < 256).
  split; destruct fs; assumption.
Qed.

Lemma txo_core_data_lt : forall c dpid v f l pl rd crc, txo_wf c -> pl < 256 ->
  snd (fst (fst (snd (txo_core c dpid v f l pl rd crc)))) < 256.
Proof.
  intros [fs p r z] dpid v f l pl rd crc [H1 H2] Hpl. cbn [g_pidb g_rem] in *.
  unfold txo_core. cbn [snd fst g_fsm g_pidb g_rem].
  destruct fs; try assumption; [reflexivity | apply (bits_lt crc 0 8)].
Qed.

Lemma txo_wf_step : forall c i, txo_wf c -> txo_wf (fst (txo_step c i)).
Proof.
  intros c i H. unfold txo_step.
  pose proof (txo_core_wf c (tx_dpid i) (tx_svalid i) (tx_first i) (tx_last i) (tx_payload i) (tx_ready i) (bits i 14 16) H) as W.
  destruct (txo_core c _ _ _ _ _ _ _) as [c' [[[a b] d] e]]. exact W.
Qed.

Lemma tx_dec_enc : forall s, tx_wf s -> tx_dec (tx_enc s) = s.
Proof.
  intros [c crc] [Hc Hl]. cbn [t_core t_crc] in *. unfold tx_dec, tx_enc. cbn [t_core t_crc].
  rewrite pk_mod, pk_div, txo_dec_enc, (N2bits_bits2N_len crc 16 Hl) by (exact Hc || exact (bits2N_lt_len crc 16 Hl)).
  reflexivity.
Qed.

Lemma tx_wf_init : tx_wf tx_init.
Proof. split; [apply txo_wf_init | reflexivity]. Qed.

Lemma tx_step_core_wf : forall s i, txo_wf (t_core s) -> txo_wf (t_core (fst (tx_step s i))).
Proof.
  intros s i H. unfold tx_step.
  pose proof (txo_core_wf (t_core s) (tx_dpid i) (tx_svalid i) (tx_first i) (tx_last i) (tx_payload i) (tx_ready i)
                          (crc_out (t_crc s)) H) as W.
  destruct (txo_core _ _ _ _ _ _ _ _) as [c' [[[txv txd] srdy] start]]. exact W.
Qed.

Lemma tx_wf_step : forall s i, tx_wf s -> tx_wf (fst (tx_step s i)).
Proof.
  intros s i [Hc Hl]. split; [apply tx_step_core_wf, Hc|]. unfold tx_step.
  destruct (txo_core _ _ _ _ _ _ _ _) as [c' [[[txv txd] srdy] start]]. cbn [fst t_crc crc_reg_next].
  destruct start; [reflexivity|]. destruct (txv && tx_ready i); [apply (crc_update_length poly16); exact Hl | exact Hl].
Qed.
