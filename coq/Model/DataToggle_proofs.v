(* C14 -- proofs: the USBStreamInEndpoint model (Model/InXfer.v, both repairs applied) obeys the IN toggle rule of
   Model/DataToggle.v, for every max_packet_size, endpoint number and input history. *)
From Coq Require Import NArith List Bool Arith.
Import ListNotations.
From LunaLib Require Import Machine.
From LunaModel Require Import InXfer InXfer_proofs DataToggle.

Section InToggleProof.
  Variable mps : nat.
  Variable ep : N.
  Notation nxt := (ix_next true true mps ep).

  (* the toggle as the module holds it: data_pid is stored "one ahead" while no packet is queued *)
  Definition ix_seq (st : ix_state) : bool :=
    match x_fsm st with WFD => negb (x_pid st) | _ => x_pid st end.

  Definition tg_abs (st : ix_state) : tg_state :=
    {| g_seq := ix_seq st;
       g_busy := match x_fsm st with SEND => true | _ => false end;
       g_wait := match x_fsm st with WFA => true | _ => false end |}.

  Lemma tg_step : forall st i, c14i_env ep (tg_abs st) i = true ->
    c14i_mon ep (tg_abs st) i (ix_outf mps ep st i) = Some (tg_abs (nxt st i), true).
  Proof.
    intros st i He. unfold c14i_mon. rewrite He. cbn [negb].
    unfold c14i_env in He. apply andb_true_iff in He as [Hx Hc].
    unfold tg_abs, ix_seq, seq_next, ix_outf, ix_next, zlp_now, last_byte in *.
    cbn [g_seq g_busy g_wait o_valid o_pid o_nak o_last] in *.
    destruct (x_fsm st) eqn:Hf; cbn [negb andb orb] in *.
    - (* WAIT_FOR_DATA *)
      destruct (clr ep i) eqn:Ec, (tok ep i) eqn:Et, (packet_ready mps st i); cbn [x_fsm x_pid andb negb orb];
        try reflexivity; destruct (x_pid st); reflexivity.
    - (* WAIT_TO_SEND *)
      destruct (clr ep i) eqn:Ec; cbn [andb negb orb].
      + destruct (tok ep i); cbn [x_fsm x_pid]; reflexivity.
      + destruct (tok ep i) eqn:Et; cbn [andb negb orb x_fsm x_pid].
        * destruct (b_fill (x_r st) =? 0)%nat; cbn [negb x_fsm x_pid]; rewrite ?N.eqb_refl; reflexivity.
        * reflexivity.
    - (* SEND_PACKET: by the environment no ClearFeature arrives *)
      rewrite orb_false_r in Hc. apply negb_true_iff in Hc. rewrite Hc, N.eqb_refl.
      destruct (i_txrdy i); cbn [andb x_fsm x_pid]; [|reflexivity].
      destruct (x_pos st + 1 =? b_fill (x_r st))%nat; reflexivity.
    - (* WAIT_FOR_ACK: likewise *)
      rewrite orb_false_r in Hc. apply negb_true_iff in Hc. rewrite Hc.
      destruct (i_ack i) eqn:Ea; cbn [andb orb negb] in *.
      + apply negb_true_iff in Hx. rewrite Hx.
        destruct (follow_up mps st); [|destruct (negb (w_ready mps st) || packet_ready mps st i)];
          cbn [x_fsm x_pid]; rewrite ?andb_false_r; reflexivity.
      + destruct (i_newtok i); cbn [x_fsm x_pid negb andb]; rewrite ?andb_false_r, ?andb_true_r; reflexivity.
  Qed.

  Theorem in_toggle_refines_from : forall ins st,
    c14i_check ep (tg_abs st) (combine ins (ix_run true true mps ep st ins)) = true.
  Proof.
    induction ins as [|i t IH]; intro st; [reflexivity|].
    cbn [ix_run combine c14i_check].
    destruct (c14i_env ep (tg_abs st) i) eqn:He.
    - rewrite tg_step by exact He. cbn [andb]. apply IH.
    - unfold c14i_mon. rewrite He. reflexivity.
  Qed.

  Theorem in_toggle_refines : forall ins,
    c14i_check ep tg_init (combine ins (ix_run true true mps ep (ix_init mps) ins)) = true.
  (* tg_abs (ix_init mps) is tg_init by conversion: data_pid resets to 1, which WAIT_FOR_DATA reads as DATA0 (ix_seq) *)
  Proof. intro ins. apply (in_toggle_refines_from ins (ix_init mps)). Qed.

  (* the monitor does not look at tx.payload: it accepts a run whatever is done to that field (the netlist ties
     mask it while tx.valid is low, or drop it) *)
  Lemma c14i_check_map : forall g : ix_out -> ix_out,
    (forall s i o, c14i_mon ep s i (g o) = c14i_mon ep s i o) ->
    forall ios s, c14i_check ep s (map (fun io => (fst io, g (snd io))) ios) = c14i_check ep s ios.
  Proof.
    intros g Hg. induction ios as [|[i o] t IH]; intro s; [reflexivity|].
    cbn [map c14i_check fst snd]. rewrite Hg. destruct (c14i_mon ep s i o) as [[s' ok]|]; [|reflexivity].
    rewrite IH. reflexivity.
  Qed.

  Theorem in_toggle_packed : forall ws,
    c14i_check ep tg_init
      (combine (map ix_in_of ws) (map ix_out_of (run (ix_mstep_n true true mps ep) (ix_init mps) ws))) = true.
  Proof.
    intro ws. rewrite decode_run by apply ix_wf_init.
    rewrite (c14i_check_map out_norm) by (intros s i []; reflexivity). apply in_toggle_refines.
  Qed.

  (* the same for the machine whose tx.payload is dropped altogether (C14's netlist ties) *)
  Lemma decode_run_t : forall ws st, ix_wf mps st ->
    combine (map ix_in_of ws) (map ix_out_of (run (ix_mstep_t mps ep) st ws))
    = map (fun io => (fst io, out_nopl (snd io)))
          (combine (map ix_in_of ws) (ix_run true true mps ep st (map ix_in_of ws))).
  Proof.
    apply (decode_run_with out_nopl). intros st i _. unfold out_nopl, ix_outf. cbn [o_pid o_payload].
    split; [destruct (x_pid st)|]; reflexivity.
  Qed.

  Theorem in_toggle_packed_t : forall ws,
    c14i_check ep tg_init
      (combine (map ix_in_of ws) (map ix_out_of (run (ix_mstep_t mps ep) (ix_init mps) ws))) = true.
  Proof.
    intro ws. rewrite decode_run_t by apply ix_wf_init.
    rewrite (c14i_check_map out_nopl) by (intros s i []; reflexivity). apply in_toggle_refines.
  Qed.

  Lemma ix_wf_step_t : forall st w, ix_wf mps st -> ix_wf mps (fst (ix_mstep_t mps ep st w)).
  Proof. intros. apply ix_wf_next_word. assumption. Qed.
End InToggleProof.
