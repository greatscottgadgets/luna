(* C25 -- the bit-level abstraction of the receive front end (GwPhy.rxb: one step per recovered line symbol) computes the
   specification's decoder `unframe` on every packet that SYNC opens and EOP closes (rxb_unframe; it claims nothing where
   `unframe` says RxMalformed, the payload unstuffing to a number of bits that is not a multiple of 8): inside a packet the
   machine is the specification's `unstuff` feeding a shift register (rx_data_phase, rx_data_violation), so a packet
   with any payload bits is received as what they unstuff to (rxb_packet), and one whose bits do not unstuff ends
   with the error flag up (rxb_violation).  rxb_frame is rxb_unframe with the codec law unframe_frame. *)
From Coq Require Import NArith List Bool Lia Arith.
Import ListNotations.
From LunaLib Require Import Netlist BitFacts ListFacts.
From LunaModel Require Import GwPhyCodec GwPhyCodec_proofs GwPhy.
Open Scope N_scope.

Lemma rxb_run_cons : forall y t s,
  rxb_run s (y :: t) = (fst (rxb_run (fst (rxb_step s y)) t), snd (rxb_step s y) ++ snd (rxb_run (fst (rxb_step s y)) t)).
Proof. intros. cbn [rxb_run]. destruct (rxb_step s y) as [s1 e1]. cbn [fst snd]. destruct (rxb_run s1 t). reflexivity. Qed.

Lemma rxb_run_app : forall a b s,
  rxb_run s (a ++ b) = (fst (rxb_run (fst (rxb_run s a)) b), snd (rxb_run s a) ++ snd (rxb_run (fst (rxb_run s a)) b)).
Proof.
  induction a as [|y a IH]; intros b s.
  - cbn [app rxb_run fst snd]. destruct (rxb_run s b); reflexivity.
  - cbn [app]. rewrite !rxb_run_cons, IH. cbn [fst snd]. rewrite app_assoc. reflexivity.
Qed.
Lemma rxb_run_app_fst : forall a b s, fst (rxb_run s (a ++ b)) = fst (rxb_run (fst (rxb_run s a)) b).
Proof. intros. rewrite rxb_run_app. reflexivity. Qed.
Lemma rxb_errs_app : forall a b s, rxb_errs s (a ++ b) = rxb_errs s a ++ rxb_errs (fst (rxb_run s a)) b.
Proof.
  induction a as [|y a IH]; intros b s; [reflexivity|].
  cbn [app rxb_errs rxb_run]. rewrite IH. destruct (rxb_step s y) as [s1 e1]. cbn [fst].
  destruct (rxb_run s1 a) as [s2 e2]. reflexivity.
Qed.

(* the decoded bit and the SE0 indication of a symbol, as rxb_step computes them *)
Definition rxb_data (b : rxb) (y : sym) : bool := negb (xorb (sym_dk y) (a_last b)).
Definition sym_se0 (y : sym) : bool := negb (sym_dj y) && negb (sym_dk y).

(* outside a packet, before the last SYNC bit: only the detector and the remover's counter move *)
Lemma step_outside : forall b y, a_det b < 5 ->
  rxb_step b y =
  ({| a_last := sym_dk y; a_det := if rxb_data b y || sym_se0 y then 0 else a_det b + 1;
      a_cnt := if N.eqb (a_cnt b) 6 then 0 else if rxb_data b y then a_cnt b + 1 else 0;
      a_reg := a_reg b; a_err := a_err b |}, []).
Proof.
  intros b y H. unfold rxb_step, det_start, det_end, det_active, det_next.
  rewrite (proj2 (N.eqb_neq (a_det b) 5)), (proj2 (N.eqb_neq (a_det b) 6)) by lia.
  cbn [andb]. rewrite !andb_false_r. reflexivity.
Qed.

(* a state of the data phase: the detector is in PKT_ACTIVE *)
Definition mkA (l : bool) (n : N) (r : N) (e : bool) : rxb := {| a_last := l; a_det := 6; a_cnt := n; a_reg := r; a_err := e |}.
Definition jk (l : bool) (x : bool) : sym := if Bool.eqb l x then SJ else SK.     (* the J/K symbol that decodes to bit x after level l *)
Definition lev (s : sym) : bool := sym_dk s.

Lemma jk_nrzi : forall p (x : bool), p = SJ \/ p = SK -> (if x then p else flip p) = jk (lev p) x.
Proof. intros p x [-> | ->]; destruct x; reflexivity. Qed.
Lemma lev_jk : forall l x, lev (jk l x) = Bool.eqb l x.
Proof. intros [|] [|]; reflexivity. Qed.
Lemma jk_is_jk : forall l x, jk l x = SJ \/ jk l x = SK.
Proof. intros [|] [|]; cbn; auto. Qed.

Definition shift_reg (r : N) (x : bool) : N := if N.testbit r 8 then b2n x + 2 else b2n x + 2 * (r mod 256).
Definition put_of (r : N) : bool := N.testbit r 7 && negb (N.testbit r 8).

Lemma step_data : forall l n r e x,
  rxb_step (mkA l n r e) (jk l x) =
  if N.eqb n 6 then (mkA (Bool.eqb l x) 0 r (if x then true else e), [])
  else (mkA (Bool.eqb l x) (if x then n + 1 else 0) (shift_reg r x) e,
        if put_of r then [EvByte (rev8 (shift_reg r x mod 256))] else []).
Proof.
  intros l n r e x. unfold rxb_step, mkA, shift_reg, put_of. cbn [a_last a_det a_cnt a_reg a_err].
  assert (Hd : negb (xorb (sym_dk (jk l x)) l) = x) by (destruct l, x; reflexivity).
  assert (Hs : negb (sym_dj (jk l x)) && negb (sym_dk (jk l x)) = false) by (destruct l, x; reflexivity).
  rewrite Hd, Hs. fold (lev (jk l x)). rewrite lev_jk.
  unfold det_start, det_end, det_active, det_next. change (N.eqb 6 5) with false. change (N.eqb 6 6) with true.
  cbn [andb negb]. destruct (N.eqb n 6); cbn [andb negb app].
  - rewrite andb_false_r. destruct x; reflexivity.
  - rewrite andb_true_r. destruct (N.testbit r 7 && negb (N.testbit r 8)); reflexivity.
Qed.

(* step_data for the symbol the encoder sends for bit x after symbol p: the shape the inductions over nrzi p s meet *)
Lemma step_nrzi : forall p n r e (x : bool), p = SJ \/ p = SK ->
  let s := if x then p else flip p in
  rxb_step (mkA (lev p) n r e) s =
  if N.eqb n 6 then (mkA (lev s) 0 r (if x then true else e), [])
  else (mkA (lev s) (if x then n + 1 else 0) (shift_reg r x) e,
        if put_of r then [EvByte (rev8 (shift_reg r x mod 256))] else []).
Proof. intros p n r e x Hp s. subst s. rewrite (jk_nrzi p x Hp), lev_jk. apply step_data. Qed.

(* the shifter as the list of bits received so far in the current byte, below a marker bit *)
Definition regof (acc : list bool) : N := fold_left (fun r x => b2n x + 2 * r) acc 1.
Definition acc_next (acc : list bool) (x : bool) : list bool := if Nat.eqb (length acc) 8 then [x] else acc ++ [x].

Lemma regof_snoc : forall acc x, regof (acc ++ [x]) = b2n x + 2 * regof acc.
Proof. intros. unfold regof. rewrite fold_left_app. reflexivity. Qed.

Lemma regof_range : forall acc, 2 ^ N.of_nat (length acc) <= regof acc < 2 ^ N.of_nat (S (length acc)).
Proof.
  induction acc as [|x acc IH] using rev_ind; [cbn; lia|].
  rewrite regof_snoc, app_length, Nat.add_1_r, !Nat2N.inj_succ, !N.pow_succ_r' in *.
  pose proof (b2n_lt2 x). lia.
Qed.

Lemma testbit_top : forall r n, r < 2 ^ N.succ n -> N.testbit r n = (2 ^ n <=? r).
Proof.
  intros r n H. rewrite N.pow_succ_r' in H. apply testbit_b2n. destruct (N.leb_spec (2 ^ n) r) as [L|L].
  - replace r with ((r - 2 ^ n) + 2 ^ n * 1) by lia. rewrite digit_div by lia. reflexivity.
  - rewrite N.div_small by exact L. reflexivity.
Qed.

Lemma acc_next_length : forall acc x, (length acc <= 8)%nat -> (length (acc_next acc x) <= 8)%nat.
Proof.
  intros acc x H. unfold acc_next. destruct (Nat.eqb_spec (length acc) 8); [cbn; lia|].
  rewrite app_length. cbn [length]. lia.
Qed.

Lemma regof_marker : forall acc k, (length acc <= k)%nat -> N.testbit (regof acc) (N.of_nat k) = Nat.eqb (length acc) k.
Proof.
  intros acc k H. pose proof (regof_range acc) as [Lo Hi].
  rewrite testbit_top by (eapply N.lt_le_trans; [exact Hi | apply pow2_le_mono; lia]).
  destruct (Nat.eqb_spec (length acc) k) as [<-|E]; [apply N.leb_le, Lo|].
  apply N.leb_gt. eapply N.lt_le_trans; [exact Hi | apply pow2_le_mono; lia].
Qed.

(* the marker reaches bit 7 with the seventh bit (the next one completes a byte) and bit 8 with the eighth (restart) *)
Lemma regof_shift : forall acc x, (length acc <= 8)%nat ->
  shift_reg (regof acc) x = regof (acc_next acc x) /\ put_of (regof acc) = Nat.eqb (length acc) 7.
Proof.
  intros acc x H. unfold shift_reg, put_of, acc_next.
  (* the cast evaluates N.of_nat 8 *)
  rewrite (regof_marker acc 8 H : N.testbit _ 8 = _). destruct (Nat.eqb_spec (length acc) 8) as [E|E].
  - rewrite andb_false_r, E. split; reflexivity.
  - rewrite (regof_marker acc 7 ltac:(lia) : N.testbit _ 7 = _), andb_true_r, regof_snoc, N.mod_small; [split; reflexivity|].
    eapply N.lt_le_trans; [apply regof_range | apply (pow2_le_mono _ 8); lia].
Qed.

Fixpoint bytes_emit (acc : list bool) (bits : list bool) : list N :=
  match bits with
  | [] => []
  | x :: t => let acc' := acc_next acc x in
              (if Nat.eqb (length acc) 7 then [rev8 (regof acc' mod 256)] else []) ++ bytes_emit acc' t
  end.
Fixpoint acc_after (acc : list bool) (bits : list bool) : list bool :=
  match bits with [] => acc | x :: t => acc_after (acc_next acc x) t end.

Lemma bytes_emit_full : forall bits acc, length acc = 8%nat -> bytes_emit acc bits = bytes_emit [] bits.
Proof.
  intros [|x t] acc H; [reflexivity|]. cbn [bytes_emit]. unfold acc_next. rewrite H. reflexivity.
Qed.

Lemma byte_val : forall x0 x1 x2 x3 x4 x5 x6 x7,
  rev8 (regof [x0; x1; x2; x3; x4; x5; x6; x7] mod 256) = byte_of_bits x0 x1 x2 x3 x4 x5 x6 x7.
Proof. intros. destruct x0, x1, x2, x3, x4, x5, x6, x7; reflexivity. Qed.

Lemma bytes_emit_of_bits : forall bs d, bytes_of_bits d = Some bs -> bytes_emit [] d = bs.
Proof.
  induction bs as [|b bs IH]; intros d H;
    destruct d as [|x0 [|x1 [|x2 [|x3 [|x4 [|x5 [|x6 [|x7 t]]]]]]]]; cbn [bytes_of_bits] in H; try discriminate H;
    try reflexivity; destruct (bytes_of_bits t) as [bs'|] eqn:E; try discriminate H.
  injection H as <- <-. cbn [bytes_emit acc_next length Nat.eqb app].
  rewrite byte_val, bytes_emit_full, (IH t E) by reflexivity. reflexivity.
Qed.

Lemma rx_data_phase : forall s p n acc e d, p = SJ \/ p = SK -> (length acc <= 8)%nat ->
  unstuff n s = Some d ->
  exists l' n',
  rxb_run (mkA (lev p) (N.of_nat n) (regof acc) e) (nrzi p s) =
    (mkA l' n' (regof (acc_after acc d)) e, map EvByte (bytes_emit acc d)) /\
  Forall (fun e' => e' = e) (rxb_errs (mkA (lev p) (N.of_nat n) (regof acc) e) (nrzi p s)).
Proof.
  induction s as [|x s IH]; intros p n acc e d Hp Hacc U.
  - injection U as <-. exists (lev p), (N.of_nat n). split; [reflexivity | constructor].
  - pose proof (nrzi_next_jk p x Hp) as Hp'.
    cbn [unstuff nrzi rxb_run rxb_errs] in *. rewrite (step_nrzi p _ _ _ x Hp).
    destruct (Nat.eqb_spec n 6) as [E|E].
    + (* the bit after six ones is the stuffed zero *)
      subst n. change (N.eqb (N.of_nat 6) 6) with true. cbn [fst]. destruct x; [discriminate U|].
      destruct (IH _ 0%nat acc e d Hp' Hacc U) as (l' & n' & R & Er).
      change (N.of_nat 0) with 0 in R, Er. rewrite R. exists l', n'.
      split; [reflexivity | constructor; [reflexivity | exact Er]].
    + rewrite (proj2 (N.eqb_neq (N.of_nat n) 6)) by lia. cbn [fst].
      destruct (unstuff (if x then S n else 0) s) as [d'|] eqn:U'; [|discriminate U]. injection U as <-.
      destruct (regof_shift acc x Hacc) as [-> ->].
      destruct (IH _ (if x then S n else 0%nat) _ e d' Hp' (acc_next_length acc x Hacc) U') as (l' & n' & R & Er).
      replace (N.of_nat (if x then S n else 0)) with (if x then N.of_nat n + 1 else 0) in R, Er by (destruct x; lia).
      rewrite R. exists l', n'. split; [|constructor; [reflexivity | exact Er]].
      cbn [bytes_emit acc_after snd]. rewrite map_app. destruct (Nat.eqb (length acc) 7); reflexivity.
Qed.

(* SYNC: the first symbol clears the remover's count, whatever it was *)
Lemma rx_sync_phase : forall c,
  rxb_run (rxb_idle_c c) (nrzi SJ sync_bits) = (mkA (lev SK) 1 (regof []) false, [EvStart]) /\
  rxb_errs (rxb_idle_c c) (nrzi SJ sync_bits) = repeat false 8.
Proof.
  intro c. cbn [sync_bits nrzi flip rxb_run rxb_errs].
  rewrite (step_outside (rxb_idle_c c) SK) by (cbn; lia).
  cbn [rxb_idle_c rxb_data sym_se0 a_last a_det a_cnt a_reg a_err sym_dj sym_dk xorb negb andb orb fst].
  destruct (N.eqb c 6); split; reflexivity.
Qed.

Lemma rxb_run_cnt : forall l b, a_cnt b <= 6 -> a_cnt (fst (rxb_run b l)) <= 6.
Proof.
  induction l as [|y l IH]; intros b H; [exact H|]. rewrite rxb_run_cons. cbn [fst]. apply IH.
  unfold rxb_step. cbn [fst a_cnt]. destruct (N.eqb_spec (a_cnt b) 6); [|destruct (negb _)]; lia.
Qed.

(* a state between packets: the shifter is empty *)
Definition mkI (l : bool) (d c : N) (e : bool) : rxb := {| a_last := l; a_det := d; a_cnt := c; a_reg := 1; a_err := e |}.

Lemma rx_se0_step : forall l n r e, exists c', rxb_step (mkA l n r e) S0 = (mkI false 0 c' e, [EvEnd]).
Proof.
  intros l n r e. eexists. unfold rxb_step, mkA. cbn [a_last a_det a_cnt a_reg a_err sym_dj sym_dk].
  unfold det_start, det_end, det_active, det_next. change (N.eqb 6 5) with false. change (N.eqb 6 6) with true.
  cbn [andb negb xorb]. rewrite !andb_false_r. reflexivity.
Qed.

Lemma step_idle : forall l d c e y, d < 5 ->
  exists c', rxb_step (mkI l d c e) y = (mkI (sym_dk y) (if negb (xorb (sym_dk y) l) || sym_se0 y then 0 else d + 1) c' e, []).
Proof. intros l d c e y Hd. eexists. exact (step_outside (mkI l d c e) y Hd). Qed.

Lemma rx_idle_run : forall m d c e, d < 5 ->
  exists c',
  rxb_run (mkI true d c e) (repeat SJ m) = (mkI true (match m with O => d | _ => 0 end) c' e, []) /\
  rxb_errs (mkI true d c e) (repeat SJ m) = repeat e m.
Proof.
  induction m as [|m IH]; intros d c e Hd.
  - exists c. split; reflexivity.
  - destruct (step_idle true d c e SJ Hd) as (c1 & E). cbn [sym_se0 sym_dj sym_dk xorb negb orb] in E.
    destruct (IH 0 c1 e ltac:(lia)) as (c' & R & Er). exists c'.
    cbn [repeat rxb_run rxb_errs]. rewrite E. cbn [fst]. rewrite R, Er. split; [destruct m|]; reflexivity.
Qed.

(* EOP and the idle symbols after it, whatever the error flag: the end event and nothing more *)
Lemma rx_eop_phase : forall l n r e m,
  exists c',
  rxb_run (mkA l n r e) (eop ++ repeat SJ m) = (mkI true (match m with O => 1 | _ => 0 end) c' e, [EvEnd]) /\
  rxb_errs (mkA l n r e) (eop ++ repeat SJ m) = repeat e (3 + m).
Proof.
  intros l n r e m.
  destruct (rx_se0_step l n r e) as (c1 & E1).
  destruct (step_idle false 0 c1 e S0 ltac:(lia)) as (c2 & E2).
  destruct (step_idle false 0 c2 e SJ ltac:(lia)) as (c3 & E3).
  cbn [sym_se0 sym_dj sym_dk xorb negb andb orb N.add] in E2, E3.
  destruct (rx_idle_run m 1 c3 e ltac:(lia)) as (c' & R & Er). exists c'.
  unfold eop. cbn [app rxb_run rxb_errs]. rewrite E1. cbn [fst]. rewrite E2. cbn [fst]. rewrite E3. cbn [fst]. rewrite R, Er.
  split; reflexivity.
Qed.

Lemma rxb_idle_eq : forall b, rxb_idle b -> exists c, b = rxb_idle_c c.
Proof. intros [l d c r e] (H1 & H2 & _ & H4 & H5). cbn in *. subst. exists c. reflexivity. Qed.

Theorem rxb_packet : forall c s d m, unstuff 1 s = Some d ->
  let line := (nrzi SJ (sync_bits ++ s) ++ eop) ++ repeat SJ m in
  snd (rxb_run (rxb_idle_c c) line) = EvStart :: map EvByte (bytes_emit [] d) ++ [EvEnd]
  /\ Forall (fun e => e = false) (rxb_errs (rxb_idle_c c) line)
  /\ ((1 <= m)%nat -> rxb_idle (fst (rxb_run (rxb_idle_c c) line))).
Proof.
  intros c s d m U line. subst line.
  rewrite nrzi_app, <- !app_assoc. change (last (nrzi SJ sync_bits) SJ) with SK.
  destruct (rx_sync_phase c) as [S1 S2].
  destruct (rx_data_phase s SK 1%nat [] false d (or_intror eq_refl) ltac:(cbn; lia) U) as (l' & n' & D1 & D2).
  change (N.of_nat 1) with 1 in D1, D2.
  destruct (rx_eop_phase l' n' (regof (acc_after [] d)) false m) as (c' & E1 & E2).
  (* SYNC has cleared the count *)
  pose proof (rxb_run_cnt (nrzi SK s ++ eop ++ repeat SJ m) (mkA (lev SK) 1 (regof []) false) ltac:(cbn; lia)) as Hc'.
  rewrite rxb_run_app_fst, D1 in Hc'. cbn [fst] in Hc'. rewrite E1 in Hc'.
  (* E1, E2 are about the run over the whole of eop ++ repeat SJ m: keep rxb_run_app from splitting it *)
  remember (eop ++ repeat SJ m) as tail eqn:Etail.
  rewrite !rxb_run_app, !rxb_errs_app, S1, S2. cbn [fst snd]. rewrite D1. cbn [fst snd].
  rewrite E1, E2. cbn [fst snd].
  split; [reflexivity | split].
  - apply Forall_app. split; [apply Forall_repeat; reflexivity|]. apply Forall_app. split; [exact D2 | apply Forall_repeat; reflexivity].
  - intro H1. destruct m; [lia|]. repeat split. exact Hc'.
Qed.

Lemma err_sticky : forall s p n r, p = SJ \/ p = SK ->
  exists l' n' r', fst (rxb_run (mkA (lev p) n r true) (nrzi p s)) = mkA l' n' r' true.
Proof.
  induction s as [|x s IH]; intros p n r Hp; [exists (lev p), n, r; reflexivity|].
  pose proof (nrzi_next_jk p x Hp) as Hp'.
  cbn [nrzi]. rewrite rxb_run_cons, (step_nrzi p n r true x Hp). cbn [fst].
  destruct (N.eqb n 6), x; cbn [fst]; apply IH, Hp'.
Qed.

Lemma rx_data_violation : forall s p n r e, p = SJ \/ p = SK -> unstuff n s = None ->
  exists l' n' r', fst (rxb_run (mkA (lev p) (N.of_nat n) r e) (nrzi p s)) = mkA l' n' r' true.
Proof.
  induction s as [|x s IH]; intros p n r e Hp U; [discriminate U|].
  pose proof (nrzi_next_jk p x Hp) as Hp'.
  cbn [unstuff nrzi] in *. rewrite rxb_run_cons, (step_nrzi p _ r e x Hp). cbn [fst].
  destruct (Nat.eqb_spec n 6) as [E|E].
  - subst n. change (N.eqb (N.of_nat 6) 6) with true. cbn [fst]. destruct x.
    + (* the seventh one *) apply err_sticky, Hp.
    + apply (IH _ 0%nat r e Hp' U).
  - rewrite (proj2 (N.eqb_neq (N.of_nat n) 6)) by lia. cbn [fst]. apply option_map_none in U.
    replace (if x then N.of_nat n + 1 else 0) with (N.of_nat (if x then S n else 0)) by (destruct x; lia).
    apply (IH _ _ _ _ Hp' U).
Qed.

(* whenever a symbol produces the end-of-packet event, the error flag is already set *)
Fixpoint end_err (b : rxb) (tk : list sym) : Prop :=
  match tk with
  | [] => True
  | y :: t => (In EvEnd (snd (rxb_step b y)) -> a_err b = true) /\ end_err (fst (rxb_step b y)) t
  end.

Lemma end_err_app : forall l1 l2 b, end_err b l1 -> end_err (fst (rxb_run b l1)) l2 -> end_err b (l1 ++ l2).
Proof.
  induction l1 as [|y l1 IH]; intros l2 b H1 H2; [exact H2|].
  cbn [app end_err] in *. rewrite rxb_run_cons in H2. destruct H1 as [H1 H1']. split; [exact H1 | exact (IH _ _ H1' H2)].
Qed.

Lemma quiet_end_err : forall l b, snd (rxb_run b l) = [] -> end_err b l.
Proof.
  induction l as [|y l IH]; intros b H; [exact I|]. rewrite rxb_run_cons in H. apply app_eq_nil in H as [H1 H2].
  split; [rewrite H1; intros [] | exact (IH _ H2)].
Qed.

Lemma byte_not_end : forall (p : bool) v, ~ In EvEnd (if p then [EvByte v] else []).
Proof. intros [|] v H; [destruct H as [H|[]]; discriminate H | exact H]. Qed.

Lemma end_event : forall b y, In EvEnd (snd (rxb_step b y)) -> a_det b = 6 /\ sym_se0 y = true.
Proof.
  intros b y H. unfold rxb_step in H. cbn [snd] in H. fold (sym_se0 y) in H.
  apply in_app_or in H as [H|H]; [destruct (det_start _ _ _ _); cbn [In] in H; intuition discriminate|].
  apply in_app_or in H as [H|H]; [destruct (byte_not_end _ _ H)|].
  unfold det_end in H. destruct (N.eqb_spec (a_det b) 6); [|contradiction]. destruct (sym_se0 y); [auto | contradiction].
Qed.

Lemma no_end_jk : forall l b, Forall (fun y => y = SJ \/ y = SK) l -> end_err b l.
Proof.
  induction l as [|y l IH]; intros b Hl; [exact I|]. apply Forall_cons_iff in Hl as [Hy Hl]. split; [|apply IH, Hl].
  intro H. apply end_event in H as [_ H]. destruct Hy as [-> | ->]; discriminate H.
Qed.

Lemma rxb_packet_violation : forall c s, unstuff 1 s = None ->
  exists l' n' r', fst (rxb_run (rxb_idle_c c) (nrzi SJ (sync_bits ++ s))) = mkA l' n' r' true.
Proof.
  intros c s U. rewrite nrzi_app. change (last (nrzi SJ sync_bits) SJ) with SK.
  rewrite rxb_run_app_fst, (proj1 (rx_sync_phase c)).
  exact (rx_data_violation s SK 1%nat (regof []) false (or_intror eq_refl) U).
Qed.

(* a bit-stuffing violation in the payload: the end event is produced, and only with the error flag up *)
Theorem rxb_violation : forall c l m, unstuff 1 l = None ->
  let tk := (nrzi SJ (sync_bits ++ l) ++ eop) ++ repeat SJ m in
  In EvEnd (snd (rxb_run (rxb_idle_c c) tk)) /\ end_err (rxb_idle_c c) tk.
Proof.
  intros c l m U tk. subst tk. rewrite <- app_assoc.
  destruct (rxb_packet_violation c l U) as (l1 & n1 & r1 & B1).
  destruct (rx_eop_phase l1 n1 r1 true m) as (c' & E & _).
  split.
  - rewrite rxb_run_app, B1, E. apply in_or_app. right. left. reflexivity.
  - apply end_err_app; [apply no_end_jk, nrzi_jk; left; reflexivity|]. rewrite B1.
    (* the first SE0 gives the end event; rx_eop_phase lists no event beyond it, so none comes from what follows *)
    destruct (rx_se0_step l1 n1 r1 true) as (c1 & S1).
    unfold eop in *. cbn [app] in *. rewrite rxb_run_cons, S1 in E. cbn [fst snd app] in E.
    split; [intros _; reflexivity|]. rewrite S1. cbn [fst]. apply quiet_end_err. injection E as _ E. exact E.
Qed.

(* the symbol-level machine computes the specification's decoder on every packet that SYNC opens and EOP closes; the
   RxMalformed case (payload not a whole number of bytes) is left open here, rxb_packet covers it *)
Theorem rxb_unframe : forall c l m,
  let pkt := nrzi SJ (sync_bits ++ l) ++ eop in
  let tk := pkt ++ repeat SJ m in
  let b := rxb_idle_c c in
  match unframe pkt with
  | RxBytes bs => snd (rxb_run b tk) = EvStart :: map EvByte bs ++ [EvEnd]
                  /\ Forall (fun e => e = false) (rxb_errs b tk)
                  /\ ((1 <= m)%nat -> rxb_idle (fst (rxb_run b tk)))
  | RxStuffError => In EvEnd (snd (rxb_run b tk)) /\ end_err b tk
  | RxMalformed => True
  end.
Proof.
  intros c l m. cbv zeta. rewrite unframe_shape.
  destruct (unstuff 1 l) as [d|] eqn:U; [|exact (rxb_violation c l m U)].
  destruct (bytes_of_bits d) as [bs|] eqn:B; [|exact I].
  rewrite <- (bytes_emit_of_bits bs d B). exact (rxb_packet c l d m U).
Qed.

Theorem rxb_frame : forall b bs m, rxb_idle b -> Forall (fun x => x < 256) bs ->
  snd (rxb_run b (frame bs ++ repeat SJ m)) = EvStart :: map EvByte bs ++ [EvEnd]
  /\ Forall (fun e => e = false) (rxb_errs b (frame bs ++ repeat SJ m))
  /\ ((1 <= m)%nat -> rxb_idle (fst (rxb_run b (frame bs ++ repeat SJ m)))).
Proof.
  intros b bs m Hb Hbs. destruct (rxb_idle_eq b Hb) as (c & ->).
  pose proof (rxb_unframe c (stuff 1 (bits_of_bytes bs)) m) as P. cbv zeta in P.
  fold (frame_bits bs) (frame bs) in P. rewrite (unframe_frame bs Hbs) in P. exact P.
Qed.
