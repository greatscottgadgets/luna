(* TSBurstDetector (TsDet.v), property C43: every report of the detector is justified by the words received
   (ts_sound), a clean burst received in sync is reported once, two cycles after its last word
   (ts_complete), and the count kept by the code before b2ae57a over foreign data is not sound
   (ts_lax_refuted). *)
From Coq Require Import NArith PeanoNat List Bool Lia.
Import ListNotations.
From LunaLib Require Import Netlist Machine BitFacts.
From LunaModel Require Import TsDet.
Open Scope N_scope.

Lemma ts_out_bits : forall st,
  o_detected (ts_out st) = det st /\ o_hot_reset (ts_out st) = hr st /\
  o_loopback (ts_out st) = lb st /\ o_noscramble (ts_out st) = sd st.
Proof.
  intros st. unfold ts_out.
  set (F := [(1, b2n (det st)); (1, b2n (hr st)); (1, b2n (lb st)); (1, b2n (sd st))]).
  assert (HF : fields_ok F) by (repeat constructor; apply b2n_lt2).
  replace (_ + 8 * _) with (fields_word F) by (cbn [fields_word F]; lia).
  repeat split.
  - exact (testbit_fields_word F 0 _ HF eq_refl).
  - exact (testbit_fields_word F 1 _ HF eq_refl).
  - exact (testbit_fields_word F 2 _ HF eq_refl).
  - exact (testbit_fields_word F 3 _ HF eq_refl).
Qed.

Lemma o_detected_out : forall st, o_detected (ts_out st) = det st.
Proof. intros. apply ts_out_bits. Qed.

Lemma ts_next_det : forall c st i, det (ts_next c st i) =
  match fsm st with
  | DET k => (set_len c <=? k)%nat && (S (count st) =? thr c)%nat
  | _ => false
  end.
Proof.
  intros. unfold ts_next. destruct (fsm st) as [| |k]; [reflexivity| |].
  - destruct (i_valid i); [destruct (word_ok c 0 (i_word i))|]; reflexivity.
  - destruct (set_len c <=? k)%nat; [reflexivity|].
    destruct (i_valid i); [destruct (word_ok c k (i_word i))|]; reflexivity.
Qed.

Section Sound.
  Variable c : ts_cfg.
  Let L := set_len c.
  Hypothesis HL : (2 <= L)%nat.
  Hypothesis Hlax : lax c = false.

  Lemma tail_ok_word : forall cnt k w ws, (k < L)%nat ->
    tail_ok c (S k + cnt * L) (w :: ws) = word_ok c k w && tail_ok c (k + cnt * L) ws.
  Proof.
    intros cnt k w ws Hk. cbn [Nat.add tail_ok]. fold L.
    rewrite Nat.mod_add, Nat.mod_small by lia. reflexivity.
  Qed.

  Definition regs_ok (st : ts_state) (w : list word) (k : nat) : Prop :=
    inc_cfg c = true ->
    exists x, nth_error w (k - 2) = Some x /\
      hr st = w_hot_reset x /\ lb st = w_loopback x /\ sd st = w_noscramble x.

  (* w = the valid words received since the last report, most recent first: `count` complete sets,
     followed in state DET k by the first k words of another.  The length is written k + count * L
     because S n * L computes to L + n * L: a set just completed needs no rewriting. *)
  Definition fsm_inv (st : ts_state) (w : list word) : Prop :=
    (count st < thr c)%nat /\
    match fsm st with
    | NONE => True
    | WAIT => tail_ok c (count st * L) w = true
    | DET k => (1 <= k <= L)%nat /\ tail_ok c (k + count st * L) w = true /\
               ((2 <= k)%nat -> regs_ok st w k)
    end.

  Lemma regs_cfg_ok : forall st w, regs_ok st w L -> cfg_ok c w (ts_out st) = true.
  Proof.
    intros st w H. unfold cfg_ok. fold L. destruct (inc_cfg c) eqn:Inc; [|reflexivity].
    destruct (H Inc) as (x & -> & R1 & R2 & R3). destruct (ts_out_bits st) as (_ & -> & -> & ->).
    rewrite R1, R2, R3, !eqb_reflx. reflexivity.
  Qed.

  Lemma report_ok : forall st w i, fsm_inv st w -> det (ts_next c st i) = true ->
    tail_ok c (thr c * L) w = true /\ cfg_ok c w (ts_out (ts_next c st i)) = true.
  Proof.
    intros st w i (Hc & Hf) D. rewrite ts_next_det in D. fold L in D.
    destruct (fsm st) as [| |k] eqn:F; try discriminate D.
    apply andb_true_iff in D as [Last Full]. apply Nat.leb_le in Last. apply Nat.eqb_eq in Full.
    destruct Hf as (Hk & Ht & Hr). assert (k = L) by lia. subst k. split.
    - rewrite <- Full. exact Ht.
    - apply regs_cfg_ok. unfold ts_next. fold L. rewrite F, Nat.leb_refl. exact (Hr HL).
  Qed.

  Lemma inv_first : forall st x w, (count st < thr c)%nat -> fsm st = DET 1 ->
    word_ok c 0 x = true -> tail_ok c (count st * L) w = true -> fsm_inv st (x :: w).
  Proof.
    intros st x w Hc F W Ht. unfold fsm_inv. rewrite F, tail_ok_word by lia. cbn [Nat.add]. rewrite W, Ht.
    repeat split; [exact Hc | lia | lia | intros; lia].
  Qed.

  Lemma inv_resync : forall st i w, (count st < thr c)%nat -> tail_ok c (count st * L) w = true ->
    fsm st = (if i_valid i then if word_ok c 0 (i_word i) then DET 1 else NONE else WAIT) ->
    fsm_inv st (push (Some i) w).
  Proof.
    intros st i w Hc Ht F. cbn [push]. destruct (i_valid i).
    - destruct (word_ok c 0 (i_word i)) eqn:W; [apply inv_first; assumption|].
      split; [exact Hc | rewrite F; exact I].
    - split; [exact Hc | rewrite F; exact Ht].
  Qed.

  (* the words start afresh at a report *)
  Lemma inv_step : forall st w i, fsm_inv st w ->
    let st' := ts_next c st i in fsm_inv st' (push (Some i) (if det st' then [] else w)).
  Proof.
    intros st w i (Hc & Hf). cbv zeta. unfold ts_next. fold L.
    destruct (fsm st) as [| |k] eqn:F.
    - split; [cbn [count]; lia | reflexivity].
    - cbn [push]. destruct (i_valid i); [destruct (word_ok c 0 (i_word i)) eqn:W|]; cbn [det].
      + apply inv_first; [exact Hc | reflexivity | exact W | exact Hf].
      + rewrite Hlax. split; [cbn [count]; lia | reflexivity].
      + exact (conj Hc Hf).
    - destruct Hf as (Hk & Ht & Hr). destruct (L <=? k)%nat eqn:Last.
      + apply Nat.leb_le in Last. assert (k = L) by lia. subst k.
        apply inv_resync; cbn [count fsm det]; [| |reflexivity].
        * destruct (Nat.eqb_spec (S (count st)) (thr c)); lia.
        * destruct (Nat.eqb_spec (S (count st)) (thr c)); [reflexivity | exact Ht].
      + apply Nat.leb_gt in Last. cbn [push].
        destruct (i_valid i); [destruct (word_ok c k (i_word i)) eqn:W|]; cbn [det].
        * split; [exact Hc|]. cbn [fsm count]. rewrite tail_ok_word, W, Ht by exact Last.
          repeat split; [lia | lia |]. intros _ Inc. cbn [hr lb sd]. rewrite Inc, andb_true_r.
          destruct (Nat.eqb_spec k 1) as [->|K1]; [exists (i_word i); repeat split|].
          assert (K2 : (2 <= k)%nat) by lia.
          destruct (Hr K2 Inc) as (x & Hx & R). exists x. split; [|exact R].
          rewrite Nat.sub_succ_l by exact K2. exact Hx.
        * split; [exact Hc | exact I].
        * exact (conj Hc (conj Hk (conj Ht Hr))).
  Qed.

  (* ws, prev = the arguments of the checker `sound`, which lag behind: the FSM has consumed push prev ws, started
     afresh from [] where it reports *)
  Definition Inv (st : ts_state) (ws : list word) (prev : option N) : Prop :=
    (det st = true -> tail_ok c (thr c * L) ws = true /\ cfg_ok c ws (ts_out st) = true) /\
    fsm_inv st (push prev (if det st then [] else ws)).

  Lemma sound_gen : forall ins st ws prev, Inv st ws prev ->
    sound c ws prev (combine ins (run (ts_step c) st ins)) = true.
  Proof.
    induction ins as [|i t IH]; intros st ws prev (Hd & Hi); [reflexivity|].
    cbn [run ts_step combine sound]. fold L. rewrite o_detected_out.
    assert (N : Inv (ts_next c st i) (push prev (if det st then [] else ws)) (Some i))
      by (split; [apply report_ok | apply inv_step]; exact Hi).
    destruct (det st); [|exact (IH _ _ _ N)].
    destruct (Hd eq_refl) as (H1 & H2). rewrite H1, H2. exact (IH _ _ _ N).
  Qed.

  Hypothesis Hthr : (1 <= thr c)%nat.

  Theorem ts_sound : forall ins, sound c [] None (combine ins (run (ts_step c) ts_init ins)) = true.
  Proof. intros. apply sound_gen. split; [discriminate|]. split; [exact Hthr | exact I]. Qed.
End Sound.

Lemma tail_ok_nth : forall c m ws, tail_ok c m ws = true ->
  forall d, (d < m)%nat -> exists w, nth_error ws d = Some w /\ word_ok c ((m - 1 - d) mod set_len c) w = true.
Proof.
  intros c. induction m as [|m IH]; intros ws H d Hd; [lia|].
  destruct ws as [|w ws]; [discriminate|]. cbn [tail_ok] in H. apply andb_true_iff in H as [H1 H2].
  destruct d as [|d].
  - exists w. split; [reflexivity|]. replace (S m - 1 - 0)%nat with m by lia. exact H1.
  - cbn [nth_error]. replace (S m - 1 - S d)%nat with (m - 1 - d)%nat by lia. apply IH; [exact H2 | lia].
Qed.

Section Complete.
  Variable c : ts_cfg.
  Let L := set_len c.
  Hypothesis HL : (2 <= L)%nat.

  (* about to receive word k of a set, cnt sets of the burst being complete *)
  Definition ready_for (k cnt : nat) (st : ts_state) : Prop :=
    det st = false /\
    match k with
    | O => (fsm st = WAIT /\ count st = cnt) \/ (fsm st = DET L /\ S (count st) = cnt)
    | S _ => fsm st = DET k /\ count st = cnt
    end.

  Lemma ready_step : forall k cnt st i, (k < L)%nat -> (cnt < thr c)%nat -> ready_for k cnt st ->
    (i_valid i = true -> word_ok c k (i_word i) = true) ->
    ready_for (if i_valid i then S k else k) cnt (ts_next c st i).
  Proof.
    intros k cnt st i Hk Hc (_ & Hr) Hw. unfold ready_for. rewrite ts_next_det. unfold ts_next. fold L.
    destruct k as [|k]; [destruct Hr as [(-> & C)|(-> & C)] | destruct Hr as (-> & C)].
    2: rewrite Nat.leb_refl, (proj2 (Nat.eqb_neq _ _)) by lia.
    3: rewrite (proj2 (Nat.leb_gt _ _)) by lia.
    all: destruct (i_valid i); [rewrite Hw by reflexivity|]; cbn [fsm count]; auto.
  Qed.

  (* the two rules for a non-empty segment, as one *)
  Lemma set_seg_cons : forall k i rest, set_seg c k (i :: rest) ->
    (k < L)%nat /\ (i_valid i = true -> word_ok c k (i_word i) = true) /\
    set_seg c (if i_valid i then S k else k) rest.
  Proof.
    intros k i rest H. inversion H as [|? ? ? Hk Hv Hs|? ? ? Hk Hv Hw Hs]; subst; rewrite Hv.
    - repeat split; [exact Hk | discriminate | exact Hs].
    - repeat split; [exact Hk | intros _; exact Hw | exact Hs].
  Qed.

  Lemma seg_run : forall k s, set_seg c k s -> forall cnt st, (cnt < thr c)%nat -> ready_for k cnt st ->
    map o_detected (run (ts_step c) st s) = repeat false (length s) /\
    ready_for L cnt (run_state (ts_step c) st s).
  Proof.
    intros k s. revert k. induction s as [|i rest IH]; intros k Hs cnt st Hc Hr.
    - inversion Hs; subst. split; [reflexivity | exact Hr].
    - apply set_seg_cons in Hs as (Hk & Hw & Hs).
      destruct (IH _ Hs cnt _ Hc (ready_step k cnt st i Hk Hc Hr Hw)) as (Q & Fin). split; [|exact Fin].
      cbn [run ts_step map length repeat]. rewrite o_detected_out, (proj1 Hr), Q. reflexivity.
  Qed.

  (* after a set: DET L with the old count; that is also "ready for word 0 of the next set" *)
  Lemma ready_L : forall cnt st, ready_for L cnt st -> det st = false /\ fsm st = DET L /\ count st = cnt.
  Proof. unfold ready_for. destruct L; [lia | tauto]. Qed.

  Lemma ready_L_next : forall cnt st, ready_for L cnt st -> ready_for 0 (S cnt) st.
  Proof.
    intros cnt st H. apply ready_L in H as (Hd & F & <-). split; [exact Hd|]. right. split; [exact F | reflexivity].
  Qed.

  Lemma burst_run : forall m b, burst_of c m b -> forall cnt st, (cnt + m <= thr c)%nat -> (1 <= m)%nat ->
    ready_for 0 cnt st ->
    map o_detected (run (ts_step c) st b) = repeat false (length b) /\
    ready_for L (cnt + m - 1) (run_state (ts_step c) st b).
  Proof.
    induction 1 as [|m s rest Hs Hb IH]; intros cnt st Hc Hm Hr; [lia|].
    rewrite run_app, run_state_app, map_app, app_length, repeat_app.
    destruct (seg_run 0 s Hs cnt st ltac:(lia) Hr) as (-> & R1).
    destruct m as [|m].
    - inversion Hb; subst. split; [reflexivity|]. replace (cnt + 1 - 1)%nat with cnt by lia. exact R1.
    - destruct (IH (S cnt) _ ltac:(lia) ltac:(lia) (ready_L_next _ _ R1)) as (-> & R2).
      split; [reflexivity|]. replace (cnt + S (S m) - 1)%nat with (S cnt + S m - 1)%nat by lia. exact R2.
  Qed.

  Hypothesis Hthr : (1 <= thr c)%nat.

  Theorem ts_complete : forall b st x y z,
    burst_of c (thr c) b -> det st = false -> fsm st = WAIT -> count st = O ->
    map o_detected (run (ts_step c) st (b ++ [x; y; z])) = repeat false (length b) ++ [false; true; false].
  Proof.
    intros b st x y z Hb Hd Hf Hc.
    destruct (burst_run (thr c) b Hb 0%nat st ltac:(lia) Hthr) as (Q & R1); [split; auto|].
    apply ready_L in R1 as (D1 & F1 & C1). rewrite run_app, map_app, Q. f_equal.
    set (s1 := run_state (ts_step c) st b) in *. cbn [run ts_step map].
    rewrite !o_detected_out, !ts_next_det, D1, F1. fold L.
    rewrite Nat.leb_refl, (proj2 (Nat.eqb_eq _ _)) by lia.
    unfold ts_next. fold L. rewrite F1, Nat.leb_refl. cbn [fsm].
    destruct (i_valid x); [destruct (word_ok c 0 (i_word x))|]; try reflexivity.
    rewrite (proj2 (Nat.leb_gt _ _)) by lia. reflexivity.
  Qed.
End Complete.

(* the behaviour of the code before b2ae57a (count kept over other valid data while waiting for a first
   word) is not sound: two TS1 sets separated by an idle cycle and three other valid words are
   reported as a burst of two consecutive sets *)
Definition TS1 : list N := [3166485692; 1246363648; 1246382666; 1246382666].
Definition ts1_in (k : nat) : N := 1 + 2 * nth k TS1 0 + N.shiftl (match k with O => 15 | _ => 0 end) 33.
Definition lax_witness : list N :=
  [0; ts1_in 0; ts1_in 1; ts1_in 2; ts1_in 3; 0; 1 + 2 * 3735928559; 1 + 2 * 305419896; 1;
   ts1_in 0; ts1_in 1; ts1_in 2; ts1_in 3; 0; 0; 0].
Theorem ts_lax_refuted :
  let c := {| set_data := TS1; fctrl := 15; thr := 2; inc_cfg := false; lax := true |} in
  sound c [] None (combine lax_witness (run (ts_step c) ts_init lax_witness)) = false.
Proof. vm_compute. reflexivity. Qed.
Example ts_strict_on_witness :
  let c := {| set_data := TS1; fctrl := 15; thr := 2; inc_cfg := false; lax := false |} in
  map o_detected (run (ts_step c) ts_init lax_witness) = repeat false 16.
Proof. vm_compute. reflexivity. Qed.

Lemma ts_after_reset : forall c x, let st := fst (ts_step c ts_init x) in
  det st = false /\ fsm st = WAIT /\ count st = O.
Proof. intros. cbn. repeat split. Qed.

(* used by the tie to the netlist (props/C43.py): packed states decode back, well-formedness is kept *)
Lemma fsm_of_code : forall f, (match f with DET k => (1 <= k <= 14)%nat | _ => True end) ->
  fsm_of (fsm_code f) = f /\ fsm_code f < 16.
Proof.
  intros [| |k] H; cbn; try (split; reflexivity).
  unfold fsm_of. destruct (N.eqb_spec (N.of_nat k + 1) 0); [lia|].
  destruct (N.eqb_spec (N.of_nat k + 1) 1); [lia|]. rewrite N.add_sub, Nat2N.id. split; [reflexivity | lia].
Qed.

Lemma ts_dec_enc : forall L, (L <= 14)%nat -> forall st, ts_wf L st -> ts_dec (ts_enc st) = st.
Proof.
  intros L HL [f n d h l s] W. unfold ts_wf in W. unfold ts_dec, ts_enc. cbn [fsm count det hr lb sd] in *.
  destruct (fsm_of_code f) as (Ff & Fl). { destruct f; [exact I | exact I | lia]. }
  set (F := [(1, b2n d); (1, b2n h); (1, b2n l); (1, b2n s); (4, fsm_code f)]).
  assert (HF : fields_ok F) by (repeat constructor; try apply b2n_lt2; exact Fl).
  change (b2n d + 2 * _) with (fields_under F (N.of_nat n)). f_equal.
  - rewrite <- Ff. f_equal. exact (fields_under_digit F _ 4 HF).
  - rewrite <- (Nat2N.id n) at 2. f_equal. exact (fields_under_rest F _ HF).
  - apply odd_b2n_add_2.
  - exact (fields_under_flag F _ 1 h HF eq_refl).
  - exact (fields_under_flag F _ 2 l HF eq_refl).
  - exact (fields_under_flag F _ 3 s HF eq_refl).
Qed.

Lemma ts_wf_step : forall c, (1 <= set_len c)%nat -> forall st i,
  ts_wf (set_len c) st -> ts_wf (set_len c) (fst (ts_step c st i)).
Proof.
  intros c HL st i W. unfold ts_wf, ts_step, ts_next in *. cbn [fst].
  destruct (fsm st) as [| |k]; cbn [fsm]; try exact I.
  - destruct (i_valid i); [destruct (word_ok c 0 (i_word i))|]; cbn [fsm]; try exact I. lia.
  - destruct (set_len c <=? k)%nat eqn:E.
    + cbn [fsm]. destruct (i_valid i); [destruct (word_ok c 0 (i_word i))|]; try exact I. lia.
    + apply Nat.leb_gt in E. destruct (i_valid i); [destruct (word_ok c k (i_word i))|]; cbn [fsm]; try exact I; lia.
Qed.
