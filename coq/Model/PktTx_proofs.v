(* C39 -- Model/PktTx.v: the PacketTransmitter bookkeeping model satisfies the specification tp_mon on every input
   trace (ptx_meets_spec).  The simulation relation ptx_inv between the ring-pointer model and the list-based
   specification is kept by every step in which the environment assumptions hold.  The unacknowledged headers are a
   ring buffer between the acknowledge and the write pointer, their sequence numbers and the send position are
   windows over the same slots: the window / ring lemmas of Model/HdrRx_proofs.v. *)
From Coq Require Import NArith List Bool Lia.
Import ListNotations.
From LunaLib Require Import Netlist Machine ListMem PackN ListFacts.
From LunaModel Require Import HdrRx HdrRx_proofs PktTx.
Open Scope N_scope.

Lemma seq_of_stamp : forall sp h q, q < 8 -> seq_of sp (stamp sp h q) = q.
Proof. intros. unfold seq_of, stamp. rewrite bits_setbits_same. apply N.mod_small. exact H. Qed.

Lemma cmd_excl : forall i a b, a <> b -> cmd_is i a = true -> cmd_is i b = false.
Proof.
  intros i a b Hab H. unfold cmd_is in *. apply andb_true_iff in H as [-> H]. cbn [andb].
  apply N.eqb_eq in H. apply N.eqb_neq. congruence.
Qed.

Lemma take_up : forall s i, m_take s i = true -> x_up s = true /\ 0 < x_cred s.
Proof.
  intros s i H. apply andb_true_iff in H as [_ H]. apply andb_true_iff in H as [H1 H2].
  apply negb_true_iff, N.eqb_neq in H2. split; [exact H1 | lia].
Qed.

Lemma retire_up : forall s i, m_retire s i = true -> x_up s = true /\ 0 < x_await s /\ cmd_is i LGOOD = true.
Proof.
  intros s i H. apply andb_true_iff in H as [H H4]. apply andb_true_iff in H as [H _].
  apply andb_true_iff in H as [H1 H2]. apply negb_true_iff, N.eqb_neq in H4. repeat split; try assumption; lia.
Qed.

Lemma bringup_down : forall s i, m_bringup s i = true -> x_up s = false /\ m_take s i = false /\ m_retire s i = false.
Proof.
  intros s i H. apply andb_true_iff in H as [_ H]. apply negb_true_iff in H.
  unfold m_take, m_ready, m_retire. rewrite H, !andb_false_r. repeat split; reflexivity.
Qed.

Lemma lbad_no_retire : forall s i, m_lbad i = true -> m_retire s i = false.
Proof.
  intros s i H. destruct (m_retire s i) eqn:E; [|reflexivity]. destruct (retire_up s i E) as (_ & _ & Hc).
  unfold m_lbad in H. rewrite (cmd_excl i LGOOD LBAD ltac:(discriminate) Hc) in H. discriminate H.
Qed.

Section TxSim.
  Variables n pw cw sw T tw sp dp : N.
  Hypothesis Hn : n = 2 ^ pw.
  Hypothesis Hcw : n < 2 ^ cw.
  Hypothesis Hsw : sw <= 3.

  Notation step := (ptx_step n pw cw sw tw sp).
  Notation out := (ptx_out n T dp).

  Definition ptx_agree (s : ptx) (g : tp_state) : Prop :=
    t_up g = x_up s /\ t_cred g = x_cred s /\ t_nextcred g = x_ncred s /\ t_seq g = x_tseq s /\
    t_dl g = x_retry s /\ t_fly g = x_busy s /\ t_stale g = x_stale s.

  (* sent of the unacknowledged headers have been (re)transmitted: the read pointer is that far ahead of the
     acknowledge pointer *)
  Definition sendpos_ok (s : ptx) (sent : N) : Prop :=
    sent <= x_await s /\ x_rd s = (x_ak s + sent) mod n /\ x_tosend s = x_await s - sent.

  (* the unacknowledged headers carry consecutive sequence numbers, from the next expected acknowledgement up to
     the number the next accepted header gets *)
  Definition seq_ok (s : ptx) (unacked : list N) : Prop :=
    x_nack s < 2 ^ sw /\ x_tseq s < 2 ^ sw /\ (x_up s = false -> x_await s = 0) /\
    (x_up s = true -> x_tseq s = (x_nack s + x_await s) mod 2 ^ sw) /\
    map (seq_of sp) unacked = window (2 ^ sw) (x_nack s) (N.to_nat (x_await s)).

  (* dispatcher and raw transmitter: a stale transmission is one in flight in retry mode; a transmission in flight
     that is not stale, and one that SEND or RETRY is about to start, is of a header not yet counted as sent; in SEND a
     transmission in flight in retry mode is stale (SEND starts none in retry mode), so that m_deq is the completions
     that count (deq_counted) *)
  Definition ctl_ok (s : ptx) (sent : N) : Prop :=
    (x_stale s = true -> x_busy s = true /\ x_retry s = true) /\
    (x_busy s = true -> x_stale s = false -> sent < x_await s) /\
    match x_fsm s with
    | P_DISPATCH => x_busy s = false
    | P_SEND => (x_busy s = true -> x_retry s = true -> x_stale s = true) /\
                (x_busy s = false -> x_retry s = true \/ sent < x_await s)
    | P_RETRY => x_retry s = true /\ sent < x_await s
    end.

  Definition ptx_inv (s : ptx) (g : tp_state) : Prop :=
    ptx_agree s g /\
    x_cred s + x_await s <= n /\
    fifo_ok n (x_bufs s) (x_ak s) (x_wr s) (x_await s) (t_unacked g) /\
    sendpos_ok s (t_sent g) /\ seq_ok s (t_unacked g) /\ ctl_ok s (t_sent g).

  Lemma pidx_small : forall x, x < n -> pidx n x = N.to_nat x.
  Proof. exact (bidx_small n). Qed.

  Lemma unacked_len : forall s g, ptx_inv s g -> N.of_nat (length (t_unacked g)) = x_await s.
  Proof. intros s g (_ & _ & Hq & _). exact (fifo_length n _ _ _ _ _ Hq). Qed.

  Lemma retire_eq : forall s g i, ptx_inv s g -> tp_retire sp g i = m_retire s i.
  Proof.
    intros s g i HI. pose proof (unacked_len s g HI) as Hlenu.
    destruct HI as ((Hup & _) & _ & _ & _ & (Hnal & _ & _ & _ & Hseqs) & _).
    (* is_cmd39 of the specification and cmd_is of the model are the same test *)
    unfold tp_retire, m_retire, is_cmd39, cmd_is. rewrite Hup.
    destruct (p_new i && (p_cmd i =? LGOOD)); [|reflexivity]. destruct (x_up s); [|reflexivity]. cbn [andb].
    destruct (t_unacked g) as [|h t].
    - rewrite <- Hlenu. rewrite andb_false_r. reflexivity.
    - assert (Ea : x_await s =? 0 = false) by (apply N.eqb_neq; rewrite <- Hlenu; cbn [length]; lia).
      rewrite Ea, andb_true_r. rewrite <- Hlenu, Nat2N.id in Hseqs. cbn [length] in Hseqs.
      rewrite window_head in Hseqs by (apply pow2_pos). injection Hseqs as -> _.
      rewrite N.mod_small by exact Hnal. apply N.eqb_sym.
  Qed.

  Lemma lcrd_eq : forall s g i, ptx_inv s g -> tp_lcrd_ok g i = m_lcrd_ok s i.
  Proof.
    intros s g i ((_ & _ & Hnc & _) & _). unfold tp_lcrd_ok, m_lcrd_ok, is_cmd39, cmd_is.
    rewrite Hnc, (N.eqb_sym (p_sub i) (x_ncred s)). reflexivity.
  Qed.

  Lemma mismatch_eq : forall s g i, ptx_inv s g -> tp_mismatch sp g i = m_recov_cmd s i.
  Proof.
    intros s g i HI. unfold tp_mismatch. rewrite (retire_eq s g i HI). destruct HI as ((Hup & _ & Hnc & _) & _).
    unfold m_recov_cmd, m_retire, is_cmd39, cmd_is. rewrite Hnc, Hup, (N.eqb_sym (p_sub i) (x_ncred s)).
    destruct (p_new i && (p_cmd i =? LCRD) && negb (x_ncred s =? p_sub i)), (p_new i && (p_cmd i =? LGOOD)), (x_up s); reflexivity.
  Qed.

  Lemma start_unsent : forall s i sent, ctl_ok s sent -> m_gen s i = true -> x_busy s = false -> sent < x_await s.
  Proof.
    intros s i sent (_ & _ & Hc3) Hg Hb. unfold m_gen in Hg. destruct (x_fsm s); [discriminate Hg | | exact (proj2 Hc3)].
    apply negb_true_iff in Hg. destruct (proj2 Hc3 Hb) as [H|H]; [congruence | exact H].
  Qed.

  Lemma ptx_inv_check : forall s g i, ptx_inv s g -> tp_check sp dp g i (out s i) = true.
  Proof.
    intros s g i HI. pose proof (mismatch_eq s g i HI) as Hmm. pose proof (unacked_len s g HI) as Hlenu.
    pose proof (nbuf_pos n pw Hn) as Hn0.
    destruct HI as ((Hup & Hcr & _ & _ & Hdl & Hfly & _) & _ & Hq & (Hsn & Hrd & Hts) & _ & Hctl).
    unfold tp_check, tp_start, ptx_out. cbn [q_ready q_gen q_hdr q_start q_done q_retry_req q_retry_rx q_recov q_up q_cred q_tosend].
    rewrite Hmm, Hup, Hcr, Hfly, Hlenu, Hts, Hdl.
    repeat (apply andb_true_iff; split); try apply eqb_reflx; try apply N.eqb_refl.
    - unfold m_ready. destruct (x_up s); [|reflexivity]. cbn [andb].
      destruct (x_cred s) eqn:E; reflexivity.
    - destruct (m_gen s i && negb (x_busy s)) eqn:Est; [|reflexivity].
      apply andb_true_iff in Est as [Eg Eb]. apply negb_true_iff in Eb.
      pose proof (start_unsent s i _ Hctl Eg Eb) as Hlt. destruct Hctl as (_ & _ & Hc3).
      pose proof (fifo_nth n Hn0 _ _ _ _ _ _ Hq Hlt) as Hh. rewrite <- Hrd in Hh.
      apply N.ltb_lt in Hlt. rewrite Hlt, Hh. cbn [andb]. unfold m_hdr.
      unfold m_gen in Eg.
      destruct (x_fsm s); [discriminate Eg | apply negb_true_iff in Eg; rewrite Eg | rewrite (proj1 Hc3)]; apply N.eqb_refl.
    - destruct (m_recov_cmd s i); reflexivity.
  Qed.

  (* a completed transmission counts unless it is stale or an LBAD arrives with it *)
  Definition counted (s : ptx) (i : pin) : bool := m_done s i && negb (x_stale s) && negb (m_lbad i).

  Lemma deq_counted : forall s i sent, ctl_ok s sent -> m_lbad i = false -> m_deq s i = counted s i.
  Proof.
    intros s i sent (Hc1 & _ & Hc3) Hl. unfold m_deq, counted, m_done. rewrite Hl, andb_true_r.
    destruct (x_fsm s).
    - rewrite Hc3. reflexivity.
    - destruct (x_busy s) eqn:Eb; [|reflexivity]. destruct (p_finish i); [|reflexivity]. cbn [andb].
      destruct (x_stale s) eqn:Es.
      + destruct (Hc1 eq_refl) as [_ ->]. reflexivity.
      + destruct (x_retry s); [|reflexivity]. discriminate (proj1 Hc3 eq_refl eq_refl).
    - reflexivity.
  Qed.

  Lemma not_done : forall s i, m_done s i = false -> counted s i = false /\ m_deq s i = false.
  Proof. intros s i H. unfold counted, m_deq. rewrite H. destruct (x_fsm s); split; reflexivity. Qed.

  Lemma counted_unsent : forall s i sent, ctl_ok s sent -> counted s i = true -> sent < x_await s.
  Proof.
    intros s i sent (_ & Hc2 & _) H. apply andb_true_iff in H as [H _]. apply andb_true_iff in H as [H1 H2].
    apply andb_true_iff in H1 as [H1 _]. apply negb_true_iff in H2. exact (Hc2 H1 H2).
  Qed.

  Section LinkUp.
    Variables (s : ptx) (g : tp_state) (i : pin).
    Hypothesis HI : ptx_inv s g.
    Hypothesis Hen : p_en i = true.
    Hypothesis Henv : tp_env n sp g i = true.

    Lemma events_backed :
      b2n (m_take s i) <= x_cred s /\ b2n (m_retire s i) <= x_await s /\ b2n (m_retire s i) <= t_sent g /\
      x_cred s + x_await s + b2n (m_lcrd_ok s i) <= n /\ t_sent g + b2n (counted s i) <= x_await s.
    Proof.
      pose proof Henv as E. unfold tp_env in E.
      rewrite (retire_eq s g i HI), (lcrd_eq s g i HI), (unacked_len s g HI) in E.
      pose proof HI as ((_ & Hcr & _) & Hcra & _ & (Hsn & _) & _ & Hctl). rewrite Hcr in E.
      apply andb_true_iff in E as [E E2]. apply andb_true_iff in E as [_ E3].
      split; [|split; [|split; [|split]]].
      - apply b2n_le. intro H. apply (take_up s i H).
      - apply b2n_le. intro H. apply (retire_up s i H).
      - apply b2n_le. intro H. rewrite H in E2. apply N.ltb_lt in E2. exact E2.
      - destruct (m_lcrd_ok s i); cbn [b2n negb orb] in *; [apply N.ltb_lt in E3|]; lia.
      - destruct (counted s i) eqn:Ec; cbn [b2n]; [pose proof (counted_unsent s i _ Hctl Ec)|]; lia.
    Qed.

    Lemma await_step : x_await (step s i) = x_await s + b2n (m_take s i) - b2n (m_retire s i).
    Proof.
      pose proof events_backed as (Ht & Hr & _). pose proof HI as (_ & Hcra & _).
      unfold ptx_step. cbn [x_await]. rewrite Hen. apply updown_val; lia.
    Qed.

    Lemma cred_step : x_cred (step s i) = x_cred s + b2n (m_lcrd_ok s i) - b2n (m_take s i).
    Proof.
      pose proof events_backed as (Ht & _ & _ & Hl & _).
      unfold ptx_step. cbn [x_cred]. rewrite Hen. apply updown_val; lia.
    Qed.

    Lemma tosend_step :
      x_tosend (step s i) = if m_lbad i then x_await s + b2n (m_take s i)
                            else x_tosend s + b2n (m_take s i) - b2n (counted s i).
    Proof.
      pose proof events_backed as (Ht & _ & _ & Hl & Hc).
      pose proof HI as (_ & _ & _ & (_ & _ & Hts) & _ & Hctl). unfold ptx_step. cbn [x_tosend]. rewrite Hen.
      destruct (m_lbad i) eqn:El.
      - apply N.mod_small. lia.
      - rewrite (deq_counted s i _ Hctl El). apply updown_val; lia.
    Qed.

    Lemma unacked_next :
      t_unacked (tp_next n sw sp g i (out s i)) =
      (if m_retire s i then tl (t_unacked g) else t_unacked g) ++ (if m_take s i then [stamp sp (p_qhdr i) (x_tseq s)] else []).
    Proof.
      unfold tp_next. rewrite Hen. cbn [negb t_unacked]. rewrite (retire_eq s g i HI).
      pose proof HI as ((_ & _ & _ & -> & _) & _). reflexivity.
    Qed.

    Lemma sent_next :
      t_sent (tp_next n sw sp g i (out s i)) = if m_lbad i then 0 else t_sent g + b2n (counted s i) - b2n (m_retire s i).
    Proof.
      unfold tp_next. rewrite Hen. cbn [negb t_sent]. rewrite (retire_eq s g i HI).
      pose proof HI as ((_ & _ & _ & _ & _ & _ & ->) & _). reflexivity.
    Qed.

    Lemma credits_step : x_cred (step s i) + x_await (step s i) <= n.
    Proof. rewrite cred_step, await_step. pose proof events_backed as (Ht & Hr & _ & Hl & _). lia. Qed.

    Lemma unacked_step :
      fifo_ok n (x_bufs (step s i)) (x_ak (step s i)) (x_wr (step s i)) (x_await (step s i))
              (t_unacked (tp_next n sw sp g i (out s i))).
    Proof.
      pose proof (nbuf_pos n pw Hn) as Hn0. rewrite unacked_next, await_step.
      pose proof events_backed as (Ht & Hr & _ & Hl & _). pose proof HI as (_ & _ & Hq & _).
      unfold ptx_step. cbn [x_bufs x_ak x_wr]. rewrite Hen, !(inc_pw n pw Hn).
      apply (fifo_step n Hn0); [exact Hq | lia | exact Hr].
    Qed.

    Lemma sendpos_step : sendpos_ok (step s i) (t_sent (tp_next n sw sp g i (out s i))).
    Proof.
      unfold sendpos_ok. rewrite sent_next, await_step, tosend_step.
      pose proof events_backed as (Ht & Hr & Hrs & _ & Hc). pose proof HI as (_ & _ & (_ & Hak & _) & (Hsn & Hrd & Hts) & _ & Hctl).
      unfold ptx_step. cbn [x_rd x_ak]. rewrite Hen, !(inc_pw n pw Hn).
      destruct (m_lbad i) eqn:El.
      - rewrite (lbad_no_retire s i El), N.add_0_r, (N.mod_small _ _ Hak). cbn [b2n]. repeat split; lia.
      - rewrite (deq_counted s i _ Hctl El). split; [lia | split; [|lia]].
        rewrite Hrd. symmetry. apply window_end_step; [exact (nbuf_pos n pw Hn) | exact Hrs].
    Qed.

    Lemma seq_step : seq_ok (step s i) (t_unacked (tp_next n sw sp g i (out s i))).
    Proof.
      pose proof (pow2_pos sw) as Hp. pose proof (pow2_le_mono sw 3 Hsw) as Hsw8.
      rewrite unacked_next. unfold seq_ok. rewrite await_step.
      pose proof (unacked_len s g HI) as Hlenu. pose proof events_backed as (_ & Hret & _).
      pose proof HI as (_ & _ & _ & _ & (Hnal & Hsql & Hnup & Htq & Hseqs) & _).
      unfold ptx_step. cbn [x_nack x_tseq x_up]. rewrite Hen.
      do 2 (split; [repeat apply if_lt; auto using inc_lt, mod_pow2_lt, N.le_refl|]).
      destruct (m_bringup s i) eqn:Eb.
      - (* bring-up: nothing is outstanding *)
        destruct (bringup_down s i Eb) as (Hu & -> & ->). specialize (Hnup Hu).
        rewrite Hnup in *. destruct (t_unacked g); [|discriminate Hlenu]. cbn [b2n].
        split; [intros _; reflexivity|]. split; [|reflexivity].
        intros _. rewrite N.add_0_r. symmetry. apply N.mod_small, mod_pow2_lt, N.le_refl.
      - rewrite orb_false_r. unfold inc. split; [|split].
        + intro Hu. specialize (Hnup Hu). rewrite Hnup.
          destruct (m_take s i) eqn:Et; [destruct (take_up s i Et); congruence|].
          destruct (m_retire s i) eqn:Er; [destruct (retire_up s i Er); congruence | reflexivity].
        + intro Hu. rewrite (Htq Hu). symmetry. apply window_end_step; [exact Hp | exact Hret].
        + rewrite (window_step _ Hp _ _ _ _ Hret), map_app, <- Hseqs. f_equal.
          * destruct (m_retire s i); [apply map_tl | reflexivity].
          * destruct (m_take s i) eqn:Et; [|reflexivity]. destruct (take_up s i Et) as [Hu _].
            cbn [map]. rewrite seq_of_stamp, (Htq Hu) by lia. reflexivity.
    Qed.

    Lemma agree_step : ptx_agree (step s i) (tp_next n sw sp g i (out s i)).
    Proof.
      pose proof (lcrd_eq s g i HI) as Hle. pose proof (unacked_len s g HI) as Hlenu.
      pose proof HI as ((Hup & Hcr & Hnc & Hsq & Hdl & Hfly & Hst) & _ & _ & (_ & _ & Hts) & _ & Hctl).
      unfold ptx_agree. rewrite cred_step. unfold tp_next. rewrite Hen. cbn [negb t_up t_cred t_nextcred t_seq t_dl t_fly t_stale].
      unfold ptx_step. cbn [x_up x_ncred x_tseq x_retry x_busy x_stale]. rewrite Hen.
      change (tp_take g i (out s i)) with (m_take s i). change (q_done (out s i)) with (m_done s i).
      unfold tp_start. change (q_gen (out s i)) with (m_gen s i). change (tp_lbad i) with (m_lbad i).
      change (is_cmd39 i LGOOD) with (cmd_is i LGOOD).
      rewrite Hle, Hst, Hfly, Hdl, Hlenu, Hup, Hcr, Hnc, Hsq, (inc_pw n pw Hn).
      split; [unfold m_bringup; destruct (x_up s), (cmd_is i LGOOD); reflexivity|].
      do 3 (split; [reflexivity|]). split; [|split].
      - (* retry mode ends when the last header of the backlog has been retransmitted *)
        fold (counted s i). destruct (m_lbad i) eqn:El.
        + unfold m_deq. rewrite El, !andb_false_r. destruct (x_fsm s); reflexivity.
        + rewrite (deq_counted s i _ Hctl El). destruct (counted s i) eqn:Ec.
          2:{ destruct (x_fsm s); reflexivity. }
          pose proof (counted_unsent s i _ Hctl Ec) as Hlt. pose proof (deq_counted s i _ Hctl El) as Ed.
          rewrite Ec in Ed. unfold m_deq in Ed. destruct Hctl as (_ & _ & Hc3). cbn [andb].
          destruct (x_fsm s).
          * discriminate Ed.
          * apply andb_true_iff in Ed as [_ Ed]. apply negb_true_iff in Ed. rewrite Ed. reflexivity.
          * rewrite (proj1 Hc3), Hts. cbn [andb].
            destruct (N.eqb_spec (t_sent g + 1) (x_await s)), (N.eqb_spec (x_await s - t_sent g) 1); try reflexivity; lia.
      - unfold m_start. destruct (m_done s i), (x_busy s), (m_gen s i); reflexivity.
      - unfold m_start. destruct (m_done s i), (x_stale s), (m_lbad i), (x_busy s), (m_gen s i); reflexivity.
    Qed.

    Lemma unsent_step : t_sent g + b2n (counted s i) < x_await s ->
      t_sent (tp_next n sw sp g i (out s i)) < x_await (step s i).
    Proof.
      intro H. rewrite sent_next, await_step. pose proof events_backed as (_ & Hr & Hrs & _).
      destruct (m_lbad i) eqn:El; [rewrite (lbad_no_retire s i El); cbn [b2n]|]; lia.
    Qed.

    Lemma ctl_step : ctl_ok (step s i) (t_sent (tp_next n sw sp g i (out s i))).
    Proof.
      pose proof unsent_step as Hnew. pose proof (not_done s i) as Hndn.
      pose proof HI as (_ & _ & _ & (Hsn & _ & Hts) & _ & Hctl). pose proof Hctl as (Hc1 & Hc2 & Hc3).
      unfold ctl_ok. set (sent' := t_sent (tp_next n sw sp g i (out s i))) in *. set (await' := x_await (step s i)) in *.
      unfold ptx_step. cbn [x_stale x_busy x_retry x_fsm]. rewrite Hen, Hts.
      split; [|split].
      - destruct (m_done s i); [discriminate|]. destruct (Hndn eq_refl) as [_ ->]. cbn [andb].
        intro H. apply orb_true_iff in H as [H|H].
        + destruct (Hc1 H) as [-> ->]. split; [reflexivity|]. destruct (x_fsm s), (m_lbad i); reflexivity.
        + apply andb_true_iff in H as [-> ->]. split; [reflexivity|]. destruct (x_fsm s); reflexivity.
      - destruct (m_done s i); [discriminate|]. destruct (Hndn eq_refl) as [Ec _]. intros Hb Hs.
        apply Hnew. rewrite Ec, N.add_0_r. apply orb_false_iff in Hs as [Hs _].
        destruct (x_busy s) eqn:Eb; [exact (Hc2 eq_refl Hs) | exact (start_unsent s i _ Hctl Hb Eb)].
      - unfold m_gen. destruct (x_fsm s) eqn:Ef.
        + (* DISPATCH *)
          assert (Ed : m_done s i = false) by (unfold m_done; rewrite Hc3; reflexivity).
          destruct (Hndn Ed) as [Ec _]. rewrite Ed, Hc3. cbn [orb].
          destruct (x_up s && negb (x_await s - t_sent g =? 0)) eqn:Eg; [|reflexivity].
          apply andb_true_iff in Eg as [_ Eg]. apply negb_true_iff, N.eqb_neq in Eg.
          assert (Hlt : sent' < await') by (apply Hnew; rewrite Ec; cbn [b2n]; lia).
          destruct (x_retry s).
          * split; [destruct (m_lbad i); reflexivity | exact Hlt].
          * split; [discriminate|]. intros _. right. exact Hlt.
        + (* SEND *)
          destruct Hc3 as [Hs1 _]. destruct (m_done s i); [reflexivity|]. destruct (x_retry s); cbn [negb].
          * destruct (x_busy s); [|reflexivity]. rewrite (Hs1 eq_refl eq_refl). split; [reflexivity | discriminate].
          * rewrite !orb_true_r, andb_true_r. split; [|discriminate].
            intros _ H. destruct (m_lbad i); [apply orb_true_r | discriminate H].
        + (* RETRY *)
          destruct Hc3 as [Hr Hlt]. rewrite Hr.
          replace (m_deq s i) with (counted s i) by (unfold m_deq, counted; rewrite Ef; reflexivity).
          destruct (counted s i) eqn:Ec; cbn [andb].
          2:{ split; [destruct (m_lbad i); reflexivity|]. apply Hnew. cbn [b2n]. lia. }
          destruct (x_await s - t_sent g =? 1) eqn:E1.
          * apply andb_true_iff in Ec as [Ec _]. apply andb_true_iff in Ec as [-> _]. reflexivity.
          * split; [destruct (m_lbad i); reflexivity|]. apply Hnew. apply N.eqb_neq in E1. cbn [b2n]. lia.
    Qed.

    Lemma ptx_inv_step_up : ptx_inv (step s i) (tp_next n sw sp g i (out s i)).
    Proof.
      split; [exact agree_step|]. split; [exact credits_step|]. split; [exact unacked_step|].
      split; [exact sendpos_step|]. split; [exact seq_step | exact ctl_step].
    Qed.
  End LinkUp.

  (* a new session: nothing outstanding; the buffers, both sequence numbers and the timer are arbitrary *)
  Definition ptx_fresh (b : list N) (tseq nack timer : N) : ptx :=
    {| x_cred := 0; x_tosend := 0; x_await := 0; x_rd := 0; x_wr := 0; x_ak := 0; x_bufs := b;
       x_tseq := tseq; x_retry := false; x_up := false; x_ncred := 0; x_nack := nack; x_timer := timer;
       x_fsm := P_DISPATCH; x_busy := false; x_stale := false |}.
  Definition tp_fresh (seq : N) : tp_state :=
    {| t_up := false; t_cred := 0; t_nextcred := 0; t_seq := seq; t_unacked := []; t_sent := 0; t_dl := false;
       t_fly := false; t_stale := false |}.

  Lemma ptx_inv_fresh : forall b tseq nack timer, length b = N.to_nat n -> tseq < 2 ^ sw -> nack < 2 ^ sw ->
    ptx_inv (ptx_fresh b tseq nack timer) (tp_fresh tseq).
  Proof.
    intros b tseq nack timer Hl Ht Hk. pose proof (nbuf_pos n pw Hn) as Hn0.
    split; [repeat split|]. split; [cbn; lia|]. split; [apply (fifo_empty n Hn0), Hl|].
    split; [repeat split; cbn; lia|]. split; repeat split; try assumption; discriminate.
  Qed.

  (* a cycle with the link down (allowed only while the transmitter is quiescent) forgets the session on both sides *)
  Lemma down_is_fresh : forall s g i, ptx_inv s g -> p_en i = false -> tp_quiet g = true ->
    exists b tseq nack, length b = N.to_nat n /\ tseq < 2 ^ sw /\ nack < 2 ^ sw /\
      step s i = ptx_fresh b tseq nack 0 /\ tp_next n sw sp g i (out s i) = tp_fresh tseq.
  Proof.
    intros s g i HI Hen Hq. pose proof (unacked_len s g HI) as Hlenu.
    destruct HI as ((Hup & _ & _ & Hsq & Hdl & Hfly & Hst) & _ & (Hlen & _) & (_ & _ & Hts) & (Hnal & Hsql & _) & (Hc1 & _ & Hc3)).
    exists (x_bufs (step s i)), (x_tseq (step s i)), (x_nack (step s i)).
    split; [|split; [|split]].
    - unfold ptx_step. cbn [x_bufs]. destruct (m_take s i); [rewrite upd_length|]; exact Hlen.
    - unfold ptx_step. cbn [x_tseq]. repeat apply if_lt; auto using inc_lt, mod_pow2_lt, N.le_refl.
    - unfold ptx_step. cbn [x_nack]. repeat apply if_lt; auto using inc_lt, mod_pow2_lt, N.le_refl.
    - unfold tp_quiet in Hq. rewrite Hfly, Hdl, Hlenu in Hq.
      apply andb_true_iff in Hq as [Hq Hq3]. apply andb_true_iff in Hq as [Hq1 Hq2].
      apply negb_true_iff in Hq1. apply negb_true_iff in Hq3. apply N.eqb_eq in Hq2.
      assert (Hst0 : x_stale s = false).
      { destruct (x_stale s) eqn:E; [|reflexivity]. destruct (Hc1 eq_refl) as [H _]. congruence. }
      assert (Hfsm : x_fsm s = P_DISPATCH).
      { destruct (x_fsm s); [reflexivity | |].
        - destruct (proj2 Hc3 Hq1) as [H|H]; [congruence | lia].
        - destruct Hc3 as [H _]. congruence. }
      assert (Hgen : m_gen s i = false) by (unfold m_gen; rewrite Hfsm; reflexivity).
      assert (Hdn : m_done s i = false) by (unfold m_done; rewrite Hq1; reflexivity).
      assert (Hts0 : x_tosend s = 0) by lia.
      split.
      + unfold ptx_step, ptx_fresh. cbn [x_bufs x_tseq x_nack]. rewrite Hen, Hdn, Hgen, Hq1, Hst0, Hfsm, Hts0.
        cbn [N.eqb negb orb]. rewrite !andb_false_r, orb_true_r. destruct (m_retire s i); reflexivity.
      + unfold tp_next, tp_fresh, ptx_step. cbn [x_tseq]. rewrite Hen. cbn [negb].
        change (q_done (out s i)) with (m_done s i). unfold tp_start. change (q_gen (out s i)) with (m_gen s i).
        rewrite Hup, Hsq, Hfly, Hst, Hdn, Hgen, Hq1, Hst0. cbn [orb andb]. rewrite andb_false_r. reflexivity.
  Qed.

  Lemma ptx_inv_step_down : forall s g i, ptx_inv s g -> p_en i = false -> tp_quiet g = true ->
    ptx_inv (step s i) (tp_next n sw sp g i (out s i)).
  Proof.
    intros s g i HI Hen Hq. destruct (down_is_fresh s g i HI Hen Hq) as (b & tseq & nack & Hl & Ht & Hk & -> & ->).
    apply ptx_inv_fresh; assumption.
  Qed.

  Lemma ptx_inv_step : forall s g i, ptx_inv s g -> tp_env n sp g i = true ->
    ptx_inv (step s i) (tp_next n sw sp g i (out s i)).
  Proof.
    intros s g i HI Henv. destruct (p_en i) eqn:Hen.
    - apply ptx_inv_step_up; assumption.
    - apply ptx_inv_step_down; [assumption | assumption |].
      unfold tp_env in Henv. rewrite Hen in Henv.
      apply andb_true_iff in Henv as [Henv _]. apply andb_true_iff in Henv as [Henv _]. exact Henv.
  Qed.

  Theorem ptx_refines : forall ins s g, ptx_inv s g ->
    tp_accepts n sw sp dp g (ptx_ios n pw cw sw T tw sp dp s ins) = true.
  Proof.
    induction ins as [|i t IH]; intros s g HI; [reflexivity|].
    cbn [ptx_ios tp_accepts]. unfold tp_mon. destruct (tp_env n sp g i) eqn:He; [|reflexivity].
    rewrite (ptx_inv_check s g i HI). cbn [andb]. apply IH. apply ptx_inv_step; assumption.
  Qed.

  Corollary ptx_meets_spec : forall ins,
    tp_accepts n sw sp dp tp_init (ptx_ios n pw cw sw T tw sp dp (ptx_init n sw) ins) = true.
  Proof.
    intro ins. apply ptx_refines. apply (ptx_inv_fresh _ 0 (dec sw 0) 0); [apply repeat_length | apply pow2_pos | apply dec_lt].
  Qed.
End TxSim.

Lemma ptx_mrun : forall n pw cw sw T tw sp dp hh tr s,
  run (ptx_mstep n pw cw sw T tw sp dp hh) s tr =
  map (fun io => pack_pout hh cw (snd io)) (ptx_ios n pw cw sw T tw sp dp s (map (pin_of hh) tr)).
Proof.
  induction tr as [|x t IH]; intro s; [reflexivity|].
  cbn [run map ptx_ios]. unfold ptx_mstep at 1. cbn [snd]. rewrite IH. reflexivity.
Qed.
