(* C44 (part 1) -- hand model of luna/gateware/usb/usb3/link/idle.py: IdleHandshakeHandler, parametric
   in n = RX_CYCLES_REQUIRED (4 in LUNA: 4 cycles x 4 symbols = the 16 symbols that must be sent).

   Input word (38 bits): [0] enable  [1] sink.valid  [2..33] sink.data  [34..37] sink.ctrl
   Output word:          [0] idle_detected  [1] idle_handshake_complete

   The model is the PROPERTY-SATISFYING behaviour: a word counts as logical idle only when it is
   VALID (data = 0, ctrl = 0 and sink.valid).  The code in /repo before a1fe79e ignored
   sink.valid (and treated the all-zero reset value of its capture register as a received idle
   word); see findings/C44-idle-valid.*                                                        *)
From Coq Require Import NArith List Bool.
Import ListNotations.
From LunaLib Require Import Netlist Machine.
Open Scope N_scope.

Definition i_enable (i : N) : bool := N.testbit i 0.
Definition i_valid (i : N) : bool := N.testbit i 1.
Definition i_data (i : N) : N := bits i 2 32.
Definition i_ctrl (i : N) : N := bits i 34 4.

(* four valid logical-idle symbols: a valid word of data symbols (ctrl = 0) that are all 0x00 *)
Definition idle_word (valid : bool) (data ctrl : N) : bool := valid && (data =? 0) && (ctrl =? 0).
Definition is_idle (i : N) : bool := idle_word (i_valid i) (i_data i) (i_ctrl i).

Definition o_detected (o : N) : bool := N.testbit o 0.
Definition o_complete (o : N) : bool := N.testbit o 1.

(* ---- code-shaped machine: capture of the previous word, seen_idle, saturating enable counter ---- *)
Record ih_state := { lv : bool; lw : N; lc : N; seen : bool; cnt : N }.
Definition ih_init : ih_state := {| lv := false; lw := 0; lc := 0; seen := false; cnt := 0 |}.

Section IdleHs.
  Variable n : N.

  Definition ih_detected (st : ih_state) (i : N) : bool :=
    idle_word (lv st) (lw st) (lc st) && is_idle i.

  Definition ih_next (st : ih_state) (i : N) : ih_state :=
    {| lv := i_valid i; lw := i_data i; lc := i_ctrl i;
       seen := if i_enable i then seen st || ih_detected st i else false;
       cnt := if i_enable i then (if cnt st <? n then cnt st + 1 else cnt st) else 0 |}.

  Definition ih_out (st : ih_state) (i : N) : N :=
    b2n (ih_detected st i) + 2 * b2n (i_enable i && (seen st && (cnt st =? n))).

  Definition ih_step (st : ih_state) (i : N) : ih_state * N := (ih_next st i, ih_out st i).

  (* ---- specification over the history (hist = earlier input words, most recent first) ---- *)
  (* number of most recent consecutive cycles with enable = 1 *)
  Fixpoint en_run (hist : list N) : nat :=
    match hist with
    | j :: t => if i_enable j then S (en_run t) else O
    | [] => O
    end.
  Definition prev_idle (hist : list N) : bool :=
    match hist with j :: _ => is_idle j | [] => false end.
  (* some cycle of the current enable run ended two consecutive valid idle words
     (lemma seen_spec_iff gives the same with an explicit "exists") *)
  Fixpoint seen_spec (hist : list N) : bool :=
    match hist with
    | j :: t => i_enable j && (seen_spec t || (is_idle j && prev_idle t))
    | [] => false
    end.

  Definition spec_out (hist : list N) (i : N) : N :=
    b2n (prev_idle hist && is_idle i) +
    2 * b2n (i_enable i && (seen_spec hist && (n <=? N.of_nat (en_run hist)))).

  Fixpoint spec_trace (hist : list N) (ins : list N) : list N :=
    match ins with
    | [] => []
    | i :: t => spec_out hist i :: spec_trace (i :: hist) t
    end.
End IdleHs.

(* ---- packing of the model state for the tie: cnt (3 bits), seen, lv, lc (4), lw ---- *)
Definition ih_enc (st : ih_state) : N :=
  cnt st + 8 * (b2n (seen st) + 2 * (b2n (lv st) + 2 * (lc st + 16 * lw st))).
Definition ih_dec (m : N) : ih_state :=
  {| cnt := m mod 8; seen := N.odd (m / 8); lv := N.odd (m / 16); lc := (m / 32) mod 16; lw := m / 512 |}.
Definition ih_wf (st : ih_state) : Prop := cnt st < 8 /\ lc st < 16.

(* ---- representative input words for the tie: enable x valid x (data, ctrl) drawn from: the idle
   word, all-ones, each single data bit set, each single ctrl bit set ---- *)
Definition mk_in (enable valid : bool) (data ctrl : N) : N :=
  b2n enable + 2 * b2n valid + 4 * data + N.shiftl ctrl 34.
Definition ih_words : list (N * N) :=
  [(0, 0); (4294967295, 15); (4294967295, 0); (0, 15)]
  ++ map (fun k => (N.shiftl 1 (N.of_nat k), 0)) (seq 0 32)
  ++ map (fun k => (0, N.shiftl 1 (N.of_nat k))) (seq 0 4).
Definition ih_alpha : list N :=
  flat_map (fun w => [mk_in false false (fst w) (snd w); mk_in false true (fst w) (snd w);
                      mk_in true false (fst w) (snd w); mk_in true true (fst w) (snd w)]) ih_words.
