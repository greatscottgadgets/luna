(* C07 / C10 -- interface-event-level hand model of the USB2 control endpoint of LUNA:
     luna/gateware/usb/usb2/control.py   USBControlEndpoint (stage FSM, _handle_setup_reset, PING answers)
     luna/gateware/usb/request/standard.py StandardRequestHandler (request FSM, per-request registers)
     luna/gateware/usb/request/control.py  handle_register_write_request / handle_simple_data_request
     luna/gateware/usb/usb2/request.py     USBRequestHandlerMultiplexer (one handler + fallback) and
                                           StallOnlyRequestHandler (the fallback)
   exactly as USBControlEndpoint.elaborate wires them together.  "Interface-event level": the inputs of the
   machine are the signals that cross LUNA's own interfaces -- the token detector's report
   (EndpointInterface.tokenizer), the SETUP decoder's report (SetupPacket record + its ACK request), the data
   receiver's rx_ready_for_response, the handshake detector's ack, and the output side of the two data sources the
   request handler owns (GET_DESCRIPTOR handler: stall / tx stream; StreamSerializer of the two small constant
   answers: tx stream).  The producers of these signals are the subjects of C01, C02/C04, C06 and C09.

   The model is the PROPERTY-SATISFYING behaviour.  It differs from the code as found in three places
   (fixes 75d4386, fe33669, 350beb0; findings/C07-fresh-setup.diff; replays findings/C07-*.json, findings/C10-*.json):
     (a) StandardRequestHandler re-dispatches on setup.received in EVERY state and resets start_position,
         tx_data_pid and expecting_ack there (as found: only in IDLE, so an abandoned transfer leaves the handler in
         the old request's state and the next SETUP is answered by the old request's logic);
     (b) _handle_setup_reset is gated by endpoint_targeted (as found: a SETUP token for another endpoint resets
         the stage FSM);
     (c) CLEAR_FEATURE with recipient <> ENDPOINT or feature <> ENDPOINT_HALT is dispatched to UNHANDLED
         (as found: STALLed in the status stage but the state is kept and the next ACK pulses clear_endpoint_halt).
   A fourth place is a parameter (`gate`, see below): handle_register_write_request as found, or with the
   repair of C08 (b4e8e16).

   Parameters: EP endpoint number, mps max_packet_size, spw width of the descriptor handler's start_position,
   skip the handler's skiplist as a predicate on the input word, gate (C08 repair present).

   Packed input word (first port = least significant):
     bit 0 tokenizer.new_token   1 ready_for_response   2 is_in   3 is_out   4 is_setup   5 is_ping   6..9 endpoint
     10 setup.received   11 is_in_request   12..13 type   14..18 recipient   19..26 request   27..42 value
     43..58 index   59..74 length   75 setup decoder's ack   76 rx_ready_for_response   77 handshakes_in.ack
     78 descriptor handler stall   79..81 its tx valid/first/last   82..84 serializer tx valid/first/last
   Packed output word: see cx_pack. *)
From Coq Require Import NArith List Bool.
Import ListNotations.
From LunaLib Require Import Netlist PackN.
Open Scope N_scope.

(* ---------------------------------------------------------------------------------------------- *)
(* inputs *)
Definition i_new (i : N) : bool := N.testbit i 0.
Definition i_rfr (i : N) : bool := N.testbit i 1.
Definition i_in (i : N) : bool := N.testbit i 2.
Definition i_out (i : N) : bool := N.testbit i 3.
Definition i_setup (i : N) : bool := N.testbit i 4.
Definition i_ping (i : N) : bool := N.testbit i 5.
Definition i_ep (i : N) : N := bits i 6 4.
Definition i_rcv (i : N) : bool := N.testbit i 10.
Definition i_dirin (i : N) : bool := N.testbit i 11.
Definition i_type (i : N) : N := bits i 12 2.
Definition i_rcpt (i : N) : N := bits i 14 5.
Definition i_req (i : N) : N := bits i 19 8.
Definition i_value (i : N) : N := bits i 27 16.
Definition i_index (i : N) : N := bits i 43 16.
Definition i_len (i : N) : N := bits i 59 16.
Definition i_sack (i : N) : bool := N.testbit i 75.
Definition i_rxrfr (i : N) : bool := N.testbit i 76.
Definition i_ack (i : N) : bool := N.testbit i 77.
Definition i_dstall (i : N) : bool := N.testbit i 78.
Definition i_dv (i : N) : bool := N.testbit i 79.
Definition i_df (i : N) : bool := N.testbit i 80.
Definition i_dl (i : N) : bool := N.testbit i 81.
Definition i_sv (i : N) : bool := N.testbit i 82.
Definition i_sf (i : N) : bool := N.testbit i 83.
Definition i_sl (i : N) : bool := N.testbit i 84.

(* the eight setup bytes (bits 11..74 of the input word) *)
Definition i_fields (i : N) : N := bits i 11 64.
Definition i_std (i : N) : bool := i_type i =? 0.                    (* USBRequestType.STANDARD *)
Definition i_haslen (i : N) : bool := negb (i_len i =? 0).
(* CLEAR_FEATURE's stall_condition: not (recipient = ENDPOINT and feature selector = ENDPOINT_HALT) *)
Definition cf_unsupp (i : N) : bool := negb (i_rcpt i =? 2) || negb (i_value i =? 0).

(* ---------------------------------------------------------------------------------------------- *)
(* state *)
Inductive cstage := CSetup | CDataIn | CDataOut | CStatusIn | CStatusOut.
Inductive hstate := HIdle | HGetStatus | HClearFeature | HSetAddress | HSetConfig | HGetDescriptor
                  | HGetConfig | HUnhandled.
Record cx_state := { x_ctl : cstage; x_h : hstate; x_pid : bool (* tx_data_pid *);
                     x_ea : bool (* expecting_ack *); x_sp : N (* start_position *);
                     x_wa : bool; x_wc : bool (* the expecting_ack registers of the SET_ADDRESS / SET_CONFIGURATION
                                                 states; only with the C08 repair, see `gate` *) }.
Definition cx_init : cx_state :=
  {| x_ctl := CSetup; x_h := HIdle; x_pid := true; x_ea := false; x_sp := 0; x_wa := false; x_wc := false |}.

(* outputs *)
Record cx_out := {
  o_dr : bool;      (* request handler's data_requested *)
  o_sr : bool;      (* status_requested *)
  o_ack : bool; o_nak : bool; o_stall : bool;        (* EndpointInterface.handshakes_out *)
  o_txv : bool; o_txf : bool; o_txl : bool;          (* EndpointInterface.tx valid / first / last *)
  o_pid : N;        (* tx_pid_toggle (2 bits) *)
  o_ac : bool; o_na : N;                             (* address_changed, new_address (7) *)
  o_cc : bool; o_nc : N;                             (* config_changed, new_config (8) *)
  o_halt : N;       (* clear_endpoint_halt_out: enable + 2 * direction + 4 * number *)
  o_ds : bool;      (* descriptor handler's start *)
  o_ss : bool;      (* serializer's start *)
  o_sp : N }.       (* descriptor handler's start_position *)

(* what one request handler drives towards the multiplexer *)
Record h_out := { h_ack : bool; h_stall : bool; h_txv : bool; h_txf : bool; h_txl : bool; h_pid : bool;
                  h_ac : bool; h_na : N; h_cc : bool; h_nc : N; h_halt : N }.
Definition h_quiet (pid : bool) : h_out :=
  {| h_ack := false; h_stall := false; h_txv := false; h_txf := false; h_txl := false; h_pid := pid;
     h_ac := false; h_na := 0; h_cc := false; h_nc := 0; h_halt := 0 |}.

Section CtlXfer.
  Variables EP mps spw : N.
  Variable skip : N -> bool.
  (* gate = false: handle_register_write_request as found -- ANY host ACK commits a pending SET_ADDRESS /
     SET_CONFIGURATION (C08's finding; C07 / C10 do not depend on it).  gate = true: with the repair of
     C08 (b4e8e16, findings/C08-ack-any-endpoint.diff) -- a per-state flag is set with the status ZLP, cleared by any new
     token or SETUP packet, and only an ACK arriving while it is set (and not together with a SETUP packet) commits.
     All theorems hold for both values; the check ties the netlist to the variant the tree implements. *)
  Variable gate : bool.

  Definition i_tgt (i : N) : bool := i_ep i =? EP.                   (* endpoint_targeted *)

  (* --- USBControlEndpoint: the stage FSM ------------------------------------------------------ *)
  Definition setup_reset (i : N) : bool := i_new i && i_setup i && i_tgt i.          (* (b): gated *)

  Definition ctl_dr (c : cstage) (i : N) : bool :=
    match c with CDataIn => i_rfr i && i_tgt i && i_in i | _ => false end.
  Definition ctl_sr (c : cstage) (i : N) : bool :=
    match c with
    | CStatusIn => i_rfr i && i_tgt i && i_in i
    | CStatusOut => i_rxrfr i && i_tgt i && i_out i
    | _ => false
    end.
  (* PING answered with ACK in the OUT data stage and the OUT status stage [USB2.0: 8.5.1] *)
  Definition ctl_ping (c : cstage) (i : N) : bool :=
    match c with CDataOut | CStatusOut => i_tgt i && i_rfr i && i_ping i | _ => false end.

  Definition ctl_next (c : cstage) (i : N) : cstage :=
    match c with
    | CSetup =>
        if i_rcv i && i_tgt i
        then (if i_haslen i then (if i_dirin i then CDataIn else CDataOut) else CStatusIn)
        else CSetup
    | CDataIn =>
        if i_tgt i && i_new i && (i_out i || i_ping i) then CStatusOut
        else if setup_reset i then CSetup else CDataIn
    | CDataOut =>
        if i_tgt i && i_new i && i_in i then CStatusIn
        else if setup_reset i then CSetup else CDataOut
    | CStatusIn => if setup_reset i then CSetup else CStatusIn
    | CStatusOut => if setup_reset i then CSetup else CStatusOut
    end.

  (* --- StandardRequestHandler (inside `with m.If(setup.type == STANDARD)`) ---------------------- *)
  Definition dispatch (i : N) : hstate :=
    let r := i_req i in
    if r =? 0 then HGetStatus
    else if r =? 1 then (if cf_unsupp i then HUnhandled else HClearFeature)              (* (c) *)
    else if r =? 5 then HSetAddress
    else if r =? 9 then HSetConfig
    else if r =? 6 then HGetDescriptor
    else if r =? 8 then HGetConfig
    else HUnhandled.

  (* the state's own transition, before the new-SETUP rule *)
  (* cm = the pending register write is committed in this cycle *)
  Definition h_own_next (h : hstate) (i : N) (dr sr cm : bool) : hstate :=
    match h with
    | HIdle => HIdle
    | HGetStatus | HGetConfig => if sr then HIdle else h
    | HClearFeature => if i_ack i then HIdle else h
    | HSetAddress | HSetConfig => if cm then HIdle else h
    | HGetDescriptor => if sr || i_dstall i then HIdle else h
    | HUnhandled => if dr || sr then HIdle else h
    end.

  (* (a): setup.received re-dispatches from every state *)
  Definition h_next (h : hstate) (i : N) (dr sr cm : bool) : hstate :=
    if i_rcv i then (if skip i then HIdle else dispatch i) else h_own_next h i dr sr cm.
  (* the flag of the SET_ADDRESS (resp. SET_CONFIGURATION) state; `here` = the handler is in that state *)
  Definition w_next (here w : bool) (i : N) (sr cm : bool) : bool :=
    if gate && here
    then (if i_rcv i then false else if cm then false else if sr then true else if i_new i then false else w)
    else w.
  Definition commit (h : hstate) (wa wc : bool) (i : N) : bool :=
    let w := match h with HSetAddress => wa | HSetConfig => wc | _ => false end in
    i_ack i && (negb gate || (w && negb (i_rcv i))).

  Definition h_pid_next (h : hstate) (pid ea : bool) (i : N) : bool :=
    if i_rcv i then true else
    match h with
    | HIdle => true
    | HGetDescriptor => if i_ack i && ea then negb pid else pid
    | _ => pid
    end.
  Definition h_ea_next (h : hstate) (ea : bool) (i : N) (dr : bool) : bool :=
    if i_rcv i then false else
    match h with
    | HGetDescriptor => if i_dstall i then false else if i_ack i && ea then false else if dr then true else ea
    | _ => ea
    end.
  Definition h_sp_next (h : hstate) (ea : bool) (sp : N) (i : N) : N :=
    if i_rcv i then 0 else
    match h with
    | HIdle => 0
    | HGetDescriptor => if i_ack i && ea then (sp + mps) mod 2 ^ spw else sp
    | _ => sp
    end.

  Definition h_outputs (h : hstate) (pid : bool) (i : N) (dr sr cm : bool) : h_out :=
    let q := h_quiet pid in
    match h with
    | HIdle => q
    | HGetStatus | HGetConfig =>
        {| h_ack := sr; h_stall := false; h_txv := i_sv i; h_txf := i_sf i; h_txl := i_sl i; h_pid := pid;
           h_ac := false; h_na := 0; h_cc := false; h_nc := 0; h_halt := 0 |}
    | HClearFeature =>
        {| h_ack := false; h_stall := sr && cf_unsupp i; h_txv := sr && negb (cf_unsupp i); h_txf := false;
           h_txl := sr && negb (cf_unsupp i); h_pid := pid; h_ac := false; h_na := 0; h_cc := false; h_nc := 0;
           h_halt := if i_ack i then 1 + 2 * bits (i_index i) 7 1 + 4 * bits (i_index i) 0 4 else 0 |}
    | HSetAddress =>
        {| h_ack := false; h_stall := false; h_txv := sr; h_txf := false; h_txl := sr; h_pid := pid;
           h_ac := cm; h_na := if cm then bits (i_value i) 0 7 else 0; h_cc := false; h_nc := 0;
           h_halt := 0 |}
    | HSetConfig =>
        {| h_ack := false; h_stall := false; h_txv := sr; h_txf := false; h_txl := sr; h_pid := pid;
           h_ac := false; h_na := 0; h_cc := cm; h_nc := if cm then bits (i_value i) 0 8 else 0;
           h_halt := 0 |}
    | HGetDescriptor =>
        {| h_ack := sr; h_stall := i_dstall i; h_txv := i_dv i; h_txf := i_df i; h_txl := i_dl i; h_pid := pid;
           h_ac := false; h_na := 0; h_cc := false; h_nc := 0; h_halt := 0 |}
    | HUnhandled =>
        {| h_ack := false; h_stall := dr || sr; h_txv := false; h_txf := false; h_txl := false; h_pid := pid;
           h_ac := false; h_na := 0; h_cc := false; h_nc := 0; h_halt := 0 |}
    end.
  Definition h_dstart (h : hstate) (dr : bool) : bool := match h with HGetDescriptor => dr | _ => false end.
  Definition h_sstart (h : hstate) (dr : bool) : bool :=
    match h with HGetStatus | HGetConfig => dr | _ => false end.

  (* StallOnlyRequestHandler, the multiplexer's fallback *)
  Definition fb_outputs (dr sr : bool) : h_out :=
    {| h_ack := false; h_stall := dr || sr; h_txv := false; h_txf := false; h_txl := false; h_pid := true;
       h_ac := false; h_na := 0; h_cc := false; h_nc := 0; h_halt := 0 |}.

  (* interface.claim *)
  Definition claimed (i : N) : bool := i_std i && negb (skip i).

  (* --- one clock cycle of the whole control endpoint -------------------------------------------- *)
  Definition cx_step (s : cx_state) (i : N) : cx_state * cx_out :=
    let dr := ctl_dr (x_ctl s) i in
    let sr := ctl_sr (x_ctl s) i in
    let std := i_std i in
    let cm := commit (x_h s) (x_wa s) (x_wc s) i in
    let ho := if claimed i then h_outputs (x_h s) (x_pid s) i dr sr cm else fb_outputs dr sr in
    ({| x_ctl := ctl_next (x_ctl s) i;
        x_h := if std then h_next (x_h s) i dr sr cm else x_h s;
        x_pid := if std then h_pid_next (x_h s) (x_pid s) (x_ea s) i else x_pid s;
        x_ea := if std then h_ea_next (x_h s) (x_ea s) i dr else x_ea s;
        x_sp := if std then h_sp_next (x_h s) (x_ea s) (x_sp s) i else x_sp s;
        x_wa := if std then w_next (match x_h s with HSetAddress => true | _ => false end) (x_wa s) i sr cm else x_wa s;
        x_wc := if std then w_next (match x_h s with HSetConfig => true | _ => false end) (x_wc s) i sr cm else x_wc s |},
     {| o_dr := dr; o_sr := sr;
        o_ack := i_sack i || h_ack ho || ctl_ping (x_ctl s) i;
        o_nak := false;
        o_stall := h_stall ho;
        o_txv := h_txv ho; o_txf := h_txf ho; o_txl := h_txl ho;
        o_pid := b2n (h_pid ho);
        o_ac := h_ac ho; o_na := h_na ho; o_cc := h_cc ho; o_nc := h_nc ho; o_halt := h_halt ho;
        o_ds := std && h_dstart (x_h s) dr;
        o_ss := std && h_sstart (x_h s) dr;
        o_sp := x_sp s |}).
End CtlXfer.

(* generic run with structured outputs *)
Section XRun.
  Context {S O : Type}.
  Variable step : S -> N -> S * O.
  Fixpoint xrun (st : S) (ins : list N) : list O :=
    match ins with
    | [] => []
    | i :: t => let (s', o) := step st i in o :: xrun s' t
    end.
  Fixpoint xstate (st : S) (ins : list N) : S :=
    match ins with
    | [] => st
    | i :: t => xstate (fst (step st i)) t
    end.
End XRun.

(* ---------------------------------------------------------------------------------------------- *)
(* packing, for the lock-step obligations against the regenerated netlist *)
Definition cx_pack (o : cx_out) : N :=
  pk 2 (b2n (o_dr o)) (pk 2 (b2n (o_sr o)) (pk 2 (b2n (o_ack o)) (pk 2 (b2n (o_nak o)) (pk 2 (b2n (o_stall o))
  (pk 2 (b2n (o_txv o)) (pk 2 (b2n (o_txf o)) (pk 2 (b2n (o_txl o)) (pk 4 (o_pid o)
  (pk 2 (b2n (o_ac o)) (pk 128 (o_na o) (pk 2 (b2n (o_cc o)) (pk 256 (o_nc o) (pk 64 (o_halt o)
  (pk 2 (b2n (o_ds o)) (pk 2 (b2n (o_ss o)) (o_sp o)))))))))))))))).

Definition nb (x : N) : bool := negb (x =? 0).
Definition cx_unpack (w : N) : cx_out :=
  let d0 := w in let d1 := d0 / 2 in let d2 := d1 / 2 in let d3 := d2 / 2 in let d4 := d3 / 2 in
  let d5 := d4 / 2 in let d6 := d5 / 2 in let d7 := d6 / 2 in let d8 := d7 / 2 in let d9 := d8 / 4 in
  let d10 := d9 / 2 in let d11 := d10 / 128 in let d12 := d11 / 2 in let d13 := d12 / 256 in
  let d14 := d13 / 64 in let d15 := d14 / 2 in let d16 := d15 / 2 in
  {| o_dr := nb (d0 mod 2); o_sr := nb (d1 mod 2); o_ack := nb (d2 mod 2); o_nak := nb (d3 mod 2);
     o_stall := nb (d4 mod 2); o_txv := nb (d5 mod 2); o_txf := nb (d6 mod 2); o_txl := nb (d7 mod 2);
     o_pid := d8 mod 4; o_ac := nb (d9 mod 2); o_na := d10 mod 128; o_cc := nb (d11 mod 2);
     o_nc := d12 mod 256; o_halt := d13 mod 64; o_ds := nb (d14 mod 2); o_ss := nb (d15 mod 2); o_sp := d16 |}.

Definition cx_stepN (EP mps spw : N) (skip : N -> bool) (gate : bool) (s : cx_state) (i : N) : cx_state * N :=
  let (s', o) := cx_step EP mps spw skip gate s i in (s', cx_pack o).

Definition cs_code (c : cstage) : N :=
  match c with CSetup => 0 | CDataIn => 1 | CDataOut => 2 | CStatusIn => 3 | CStatusOut => 4 end.
Definition cs_of (n : N) : cstage :=
  match n with 0 => CSetup | 1 => CDataIn | 2 => CDataOut | 3 => CStatusIn | _ => CStatusOut end.
Definition hs_code (h : hstate) : N :=
  match h with HIdle => 0 | HGetStatus => 1 | HClearFeature => 2 | HSetAddress => 3 | HSetConfig => 4
             | HGetDescriptor => 5 | HGetConfig => 6 | HUnhandled => 7 end.
Definition hs_of (n : N) : hstate :=
  match n with 0 => HIdle | 1 => HGetStatus | 2 => HClearFeature | 3 => HSetAddress | 4 => HSetConfig
             | 5 => HGetDescriptor | 6 => HGetConfig | _ => HUnhandled end.
Definition cx_enc (s : cx_state) : N :=
  pk 8 (cs_code (x_ctl s)) (pk 8 (hs_code (x_h s)) (pk 2 (b2n (x_pid s)) (pk 2 (b2n (x_ea s))
     (pk 2 (b2n (x_wa s)) (pk 2 (b2n (x_wc s)) (x_sp s)))))).
Definition cx_dec (n : N) : cx_state :=
  {| x_ctl := cs_of (n mod 8); x_h := hs_of ((n / 8) mod 8); x_pid := nb ((n / 8 / 8) mod 2);
     x_ea := nb ((n / 8 / 8 / 2) mod 2); x_wa := nb ((n / 8 / 8 / 2 / 2) mod 2);
     x_wc := nb ((n / 8 / 8 / 2 / 2 / 2) mod 2); x_sp := n / 8 / 8 / 2 / 2 / 2 / 2 |}.

(* the skiplists of the tie configurations *)
Definition skip_none (i : N) : bool := false.
Definition skip_req (r : N) (i : N) : bool := i_req i =? r.

(* ============================================================================================== *)
(* Specification (C07).  It never mentions the state of the model: it is written over the history of
   interface events.

   Environment (what the producers of the events guarantee; C01 / C06):
     - tokenizer.endpoint is a register of the token detector, 0 after reset, written together with new_token:
       it differs from its value in the previous cycle only in cycles with new_token;
     - the token kind flags decode one 4-bit PID: at most one of is_in / is_out / is_setup / is_ping is high;
     - setup.received is reported at most once per SETUP token, after it and before any other token, and not
       in a cycle with new_token (the decoder arms on a SETUP token and disarms on any token or report).     *)
Record env_st := { e_ls : bool;     (* the last token was a SETUP and no SETUP packet has been reported since *)
                   e_ep : N }.      (* tokenizer.endpoint in the previous cycle *)
Definition cx_env0 : env_st := {| e_ls := false; e_ep := 0 |}.
Definition onehot (i : N) : bool :=
  match b2n (i_in i) + b2n (i_out i) + b2n (i_setup i) + b2n (i_ping i) with 0 | 1 => true | _ => false end.
Definition cx_env_ok (e : env_st) (i : N) : bool :=
  (i_new i || (i_ep i =? e_ep e)) && (negb (i_rcv i) || (e_ls e && negb (i_new i))) && onehot i.
Definition cx_env_next (e : env_st) (i : N) : env_st :=
  {| e_ls := if i_new i then i_setup i else if i_rcv i then false else e_ls e; e_ep := i_ep i |}.
Fixpoint cx_env_trace (e : env_st) (tr : list N) : bool :=
  match tr with
  | [] => true
  | i :: t => cx_env_ok e i && cx_env_trace (cx_env_next e i) t
  end.

(* The control transfer in progress, as a function of the history:
     s_cur = the input word (hence the eight setup bytes) of the last SETUP packet reported for this endpoint,
             unless a SETUP token for this endpoint has arrived since (then: none -- the old transfer is over, the
             new one has not been decoded yet);
     s_adv = a token of the direction opposite to the data stage has arrived for this endpoint since. *)
Record sp_st := { s_cur : option N; s_adv : bool }.
Definition sp0 : sp_st := {| s_cur := None; s_adv := false |}.

Inductive phase := PSetup | PData (dev_to_host : bool) | PStatus (dev_to_host : bool).
(* [USB2.0: 8.5.3]: no data stage -> IN status stage; otherwise the status stage has the direction opposite
   to the data stage and begins with the first token of that direction *)
Definition phase_of (s : sp_st) : phase :=
  match s_cur s with
  | None => PSetup
  | Some f => if i_haslen f then (if s_adv s then PStatus (negb (i_dirin f)) else PData (i_dirin f))
              else PStatus true
  end.

Section Spec.
  Variable EP : N.
  Let tgt (i : N) : bool := i_ep i =? EP.

  Definition sp_next (s : sp_st) (i : N) : sp_st :=
    if i_new i && tgt i && i_setup i then {| s_cur := None; s_adv := false |}
    else if i_rcv i && tgt i then {| s_cur := Some i; s_adv := false |}
    else match s_cur s with
         | Some f =>
             if i_new i && tgt i && i_haslen f && (if i_dirin f then i_out i || i_ping i else i_in i)
             then {| s_cur := Some f; s_adv := true |} else s
         | None => s
         end.

  (* the moments at which the endpoint may answer the host *)
  Definition in_opp (i : N) : bool := i_rfr i && tgt i && i_in i.       (* an IN token, inter-packet delay over *)
  Definition out_opp (i : N) : bool := i_rxrfr i && tgt i && i_out i.   (* an OUT data packet, delay over *)
  Definition ping_opp (i : N) : bool := tgt i && i_rfr i && i_ping i.   (* a PING token, delay over *)

  (* what the endpoint asks of its request handler / answers itself, cycle by cycle *)
  Definition sp_dr (s : sp_st) (i : N) : bool :=
    match phase_of s with PData true => in_opp i | _ => false end.
  Definition sp_sr (s : sp_st) (i : N) : bool :=
    match phase_of s with PStatus true => in_opp i | PStatus false => out_opp i | _ => false end.
  Definition sp_ping (s : sp_st) (i : N) : bool :=
    match phase_of s with PData false | PStatus false => ping_opp i | _ => false end.

  Fixpoint sp_state (s : sp_st) (tr : list N) : sp_st :=
    match tr with [] => s | i :: t => sp_state (sp_next s i) t end.
  Fixpoint sp_run (s : sp_st) (tr : list N) : list (bool * bool * bool) :=
    match tr with
    | [] => []
    | i :: t => (sp_dr s i, sp_sr s i, sp_ping s i) :: sp_run (sp_next s i) t
    end.

  (* the stage a freshly decoded SETUP packet puts the endpoint in *)
  Definition stage_of (i : N) : cstage :=
    if i_haslen i then (if i_dirin i then CDataIn else CDataOut) else CStatusIn.
End Spec.

(* What the specification demands of the outputs of one cycle, given the transfer in progress:
   - the request handler is asked for data / status exactly at the opportunities of the current phase;
   - every answer has a cause: the data sources are started only by data_requested; the transmit stream carries
     only a data source's stream or a status-stage ZLP; a STALL answers a request for data / status (or passes on
     the descriptor handler's verdict); an ACK is the SETUP decoder's, a status-stage answer or a PING answer; NAK
     is never requested; address / configuration / endpoint-halt strobes fire only with a host ACK. *)
Definition cyc_ok (EP : N) (s : sp_st) (i : N) (o : cx_out) : Prop :=
  o_dr o = sp_dr EP s i /\ o_sr o = sp_sr EP s i /\
  (o_ds o = true \/ o_ss o = true -> o_dr o = true) /\
  (o_txv o = true -> o_sr o = true \/ i_dv i = true \/ i_sv i = true) /\
  (o_stall o = true -> o_dr o = true \/ o_sr o = true \/ i_dstall i = true) /\
  (o_ack o = true -> i_sack i = true \/ o_sr o = true \/ sp_ping EP s i = true) /\
  (i_sack i = true \/ sp_ping EP s i = true -> o_ack o = true) /\
  o_nak o = false /\
  (o_ac o = true \/ o_cc o = true \/ o_halt o <> 0 -> i_ack i = true).

Fixpoint holds_along (EP : N) (s : sp_st) (tr : list N) (outs : list cx_out) : Prop :=
  match tr, outs with
  | [], [] => True
  | i :: t, o :: u => cyc_ok EP s i o /\ holds_along EP (sp_next EP s i) t u
  | _, _ => False
  end.

(* history reading of the specification state: events of one cycle *)
Definition ev_stok (EP i : N) : bool := i_new i && (i_ep i =? EP) && i_setup i.          (* SETUP token for us *)
Definition ev_acc (EP i : N) : bool := negb (ev_stok EP i) && i_rcv i && (i_ep i =? EP).  (* SETUP packet for us *)
Definition ev_opp (EP f i : N) : bool :=                       (* token of the direction opposite to f's data stage *)
  i_new i && (i_ep i =? EP) && i_haslen f && (if i_dirin f then i_out i || i_ping i else i_in i).

(* output words compared up to start_position while the descriptor handler is not started (the register is
   only read by the descriptor handler, when started) *)
Definition out_obs (o : cx_out) : cx_out :=
  {| o_dr := o_dr o; o_sr := o_sr o; o_ack := o_ack o; o_nak := o_nak o; o_stall := o_stall o; o_txv := o_txv o;
     o_txf := o_txf o; o_txl := o_txl o; o_pid := o_pid o; o_ac := o_ac o; o_na := o_na o; o_cc := o_cc o;
     o_nc := o_nc o; o_halt := o_halt o; o_ds := o_ds o; o_ss := o_ss o; o_sp := if o_ds o then o_sp o else 0 |}.

(* ---- the first answer of a fresh transfer --------------------------------------------------------------
   Requests by what LUNA's control endpoint is meant to do with them (one StandardRequestHandler with skiplist
   `skip`, fallback StallOnlyRequestHandler):
     RData   GET_STATUS, GET_CONFIGURATION: a small constant answer from the serializer, status stage ACKed
     RDesc   GET_DESCRIPTOR: data from the descriptor handler (or its STALL), status stage ACKed
     RWrite  SET_ADDRESS, SET_CONFIGURATION, CLEAR_FEATURE(ENDPOINT_HALT) to an endpoint: status-stage ZLP
     RUnsup  every other standard request: STALL
     RNone   not a standard request, or skiplisted: nobody claims it, the fallback STALLs                    *)
Inductive rclass := RData | RDesc | RWrite | RUnsup | RNone.
Definition rclass_of (skip : N -> bool) (f : N) : rclass :=
  if negb (i_std f) || skip f then RNone else
  let r := i_req f in
  if (r =? 0) || (r =? 8) then RData
  else if r =? 6 then RDesc
  else if (r =? 5) || (r =? 9) || ((r =? 1) && (i_rcpt f =? 2) && (i_value f =? 0)) then RWrite
  else RUnsup.

Definition impb (a b : bool) : bool := negb a || b.
(* o answers a request for data (o_dr) or status (o_sr) of a fresh transfer of class c *)
Definition first_answer_ok (c : rclass) (i : N) (o : cx_out) : bool :=
  let zlp := o_txv o && o_txl o && negb (o_txf o) in
  let no_ack := impb (o_ack o) (i_sack i) in
  let no_start := negb (o_ds o) && negb (o_ss o) in
  match c with
  | RData =>
      if o_dr o then o_ss o && negb (o_ds o) && negb (o_stall o) && no_ack && Bool.eqb (o_txv o) (i_sv i)
      else o_ack o && negb (o_stall o) && no_start
  | RDesc =>
      if o_dr o then o_ds o && negb (o_ss o) && Bool.eqb (o_stall o) (i_dstall i) && no_ack
                     && Bool.eqb (o_txv o) (i_dv i) && (o_sp o =? 0) && (o_pid o =? 1)
      else o_ack o && Bool.eqb (o_stall o) (i_dstall i) && no_start
  | RWrite =>
      if o_dr o then negb (o_txv o) && negb (o_stall o) && no_ack && no_start
      else zlp && (o_pid o =? 1) && negb (o_stall o) && no_ack && no_start
  | RUnsup | RNone => o_stall o && negb (o_txv o) && no_ack && no_start
  end.

Definition same_fieldsb (f i : N) : bool :=
  Bool.eqb (i_dirin f) (i_dirin i) && (i_type f =? i_type i) && (i_rcpt f =? i_rcpt i) && (i_req f =? i_req i) &&
  (i_value f =? i_value i) && (i_index f =? i_index i) && (i_len f =? i_len i).

(* fresh = a SETUP packet for this endpoint has been decoded and since then: its fields are still presented, no
   further SETUP packet was reported, no host ACK and no descriptor STALL arrived, and the request handler
   has not been asked for data or status yet *)
Definition fr_next (EP : N) (s : sp_st) (fr : bool) (i : N) : bool :=
  if ev_stok EP i then false
  else if ev_acc EP i then true
  else match s_cur s with
       | Some f => fr && same_fieldsb f i && negb (i_rcv i) && negb (i_ack i) && negb (i_dstall i)
                   && negb (sp_dr EP s i || sp_sr EP s i)
       | None => false
       end.
(* the check of one cycle *)
Definition fr_ok (EP : N) (skip : N -> bool) (s : sp_st) (fr : bool) (i : N) (o : cx_out) : bool :=
  match s_cur s with
  | Some f => impb (fr && same_fieldsb f i && negb (i_rcv i) && (o_dr o || o_sr o))
                   (first_answer_ok (rclass_of skip f) i o)
  | None => true
  end.
Fixpoint fresh_along (EP : N) (skip : N -> bool) (s : sp_st) (fr : bool) (tr : list N) (outs : list cx_out) : bool :=
  match tr, outs with
  | i :: t, o :: u => fr_ok EP skip s fr i o && fresh_along EP skip (sp_next EP s i) (fr_next EP s fr i) t u
  | _, _ => true
  end.

(* executable form of cyc_ok (proved equivalent: CtlXfer_proofs.cyc_okb_iff) *)
Definition cyc_okb (EP : N) (s : sp_st) (i : N) (o : cx_out) : bool :=
  Bool.eqb (o_dr o) (sp_dr EP s i) && Bool.eqb (o_sr o) (sp_sr EP s i) &&
  impb (o_ds o || o_ss o) (o_dr o) &&
  impb (o_txv o) (o_sr o || i_dv i || i_sv i) &&
  impb (o_stall o) (o_dr o || o_sr o || i_dstall i) &&
  impb (o_ack o) (i_sack i || o_sr o || sp_ping EP s i) &&
  impb (i_sack i || sp_ping EP s i) (o_ack o) &&
  negb (o_nak o) &&
  impb (o_ac o || o_cc o || negb (o_halt o =? 0)) (i_ack i).

(* The specification as an observer of (input word, packed output word) pairs, for the runtime oracle over
   simulator traces of the real module: None = the environment assumption is broken from here on. *)
Record mon_st := { m_e : env_st; m_s : sp_st; m_fr : bool }.
Definition mon0 : mon_st := {| m_e := cx_env0; m_s := sp0; m_fr := false |}.
Definition mon_enc (m : mon_st) : N :=
  pk 2 (b2n (e_ls (m_e m))) (pk 16 (e_ep (m_e m)) (pk 2 (b2n (s_adv (m_s m))) (pk 2 (b2n (m_fr m))
     (match s_cur (m_s m) with None => 0 | Some f => 1 + 2 * f end)))).
Definition mon_dec (n : N) : mon_st :=
  let r := n / 2 / 16 / 2 / 2 in
  {| m_e := {| e_ls := nb (n mod 2); e_ep := (n / 2) mod 16 |};
     m_s := {| s_cur := if r =? 0 then None else Some ((r - 1) / 2); s_adv := nb ((n / 2 / 16) mod 2) |};
     m_fr := nb ((n / 2 / 16 / 2) mod 2) |}.
Definition cx_mon (EP : N) (skip : N -> bool) (m i o : N) : option (N * bool) :=
  let st := mon_dec m in
  if cx_env_ok (m_e st) i then
    let ou := cx_unpack o in
    Some (mon_enc {| m_e := cx_env_next (m_e st) i; m_s := sp_next EP (m_s st) i;
                     m_fr := fr_next EP (m_s st) (m_fr st) i |},
          cyc_okb EP (m_s st) i ou && fr_ok EP skip (m_s st) (m_fr st) i ou)
  else None.

(* two input words that differ at most in what the token detector / data receiver report about the CURRENT
   token: new_token, ready_for_response, the kind flags, rx_ready_for_response *)
Definition same_but_token (i j : N) : Prop :=
  i_ep i = i_ep j /\ i_rcv i = i_rcv j /\ i_dirin i = i_dirin j /\ i_type i = i_type j /\ i_rcpt i = i_rcpt j /\
  i_req i = i_req j /\ i_value i = i_value j /\ i_index i = i_index j /\ i_len i = i_len j /\
  i_sack i = i_sack j /\ i_ack i = i_ack j /\
  i_dstall i = i_dstall j /\ i_dv i = i_dv j /\ i_df i = i_df j /\ i_dl i = i_dl j /\
  i_sv i = i_sv j /\ i_sf i = i_sf j /\ i_sl i = i_sl j.
