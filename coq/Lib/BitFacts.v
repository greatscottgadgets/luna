(* Arithmetic reading of the bit-vector functions of Netlist.v (bits, trunc, setbits, b2n), bounds of powers of
   two, N.ones, N.size and N.lxor, and positional layouts: one digit in radix B (digit_mod / digit_div), two parts
   glued with a shift (a + (b << w) or a | (b << w)), and words given as a list of (width, value) fields
   (fields_word / fields_under).  These are the facts every packed encoding (enc/dec of a model state, port
   words of a target) is proved with.  Their users need no div/mod hook of Zify: a field is extracted by
   naming the parts of the word, which leaves linear side conditions only. *)
From Coq Require Import NArith List Bool Lia.
Import ListNotations.
From LunaLib Require Import Netlist ListFacts.
Open Scope N_scope.

Lemma pow2_nz : forall w, 2 ^ w <> 0.
Proof. intro w. apply N.pow_nonzero. discriminate. Qed.

Lemma pow2_pos : forall w, 0 < 2 ^ w.
Proof. intro w. apply N.neq_0_lt_0, pow2_nz. Qed.

Lemma pow2_le_mono : forall a b, a <= b -> 2 ^ a <= 2 ^ b.
Proof. intros. apply N.pow_le_mono_r; [discriminate | assumption]. Qed.

Lemma ones_lt : forall a b, a <= b -> N.ones a < 2 ^ b.
Proof. intros a b H. rewrite N.ones_equiv. pose proof (pow2_pos a). pose proof (pow2_le_mono a b H). lia. Qed.

Lemma ones_range : forall k w, 1 <= k <= w -> 1 <= N.ones k < 2 ^ w.
Proof.
  intros k w [H1 Hw]. split; [|apply ones_lt, Hw].
  rewrite N.ones_equiv. pose proof (pow2_le_mono 1 k H1). change (2 ^ 1) with 2 in *. lia.
Qed.

Lemma size_le_of_lt : forall x n, x < 2 ^ n -> N.size x <= n.
Proof.
  intros x n H. destruct x as [|p]; [apply N.le_0_l|].
  rewrite N.size_log2 by discriminate. apply N.le_succ_l, N.log2_lt_pow2; [reflexivity | exact H].
Qed.

Lemma if_lt : forall (c : bool) x y B, x < B -> y < B -> (if c then x else y) < B.
Proof. intros [] x y B Hx Hy; assumption. Qed.

Lemma digit_mod : forall B a b, a < B -> (a + B * b) mod B = a.
Proof. intros B a b H. symmetry. apply (N.mod_unique _ _ b); [exact H | apply N.add_comm]. Qed.

Lemma digit_div : forall B a b, a < B -> (a + B * b) / B = b.
Proof. intros B a b H. symmetry. apply (N.div_unique _ _ _ a); [exact H | apply N.add_comm]. Qed.

Lemma trunc_mod : forall w x, trunc w x = x mod 2 ^ w.
Proof. intros. apply N.land_ones. Qed.

Lemma trunc_lt : forall w x, trunc w x < 2 ^ w.
Proof. intros. rewrite trunc_mod. apply N.mod_lt, pow2_nz. Qed.

Lemma trunc_small : forall w x, x < 2 ^ w -> trunc w x = x.
Proof. intros. rewrite trunc_mod. apply N.mod_small. assumption. Qed.

Lemma bits_spec : forall x lo w, bits x lo w = (x / 2 ^ lo) mod 2 ^ w.
Proof. intros. unfold bits. rewrite N.land_ones, N.shiftr_div_pow2. reflexivity. Qed.

Lemma bits_lt : forall x lo w, bits x lo w < 2 ^ w.
Proof. intros. apply (trunc_lt w (N.shiftr x lo)). Qed.

Lemma trunc_bits_wide : forall x lo w w', w' <= w -> trunc w (bits x lo w') = bits x lo w'.
Proof.
  intros. apply trunc_small. eapply N.lt_le_trans; [apply bits_lt | apply pow2_le_mono; assumption].
Qed.

Lemma bits_0 : forall x w, bits x 0 w = x mod 2 ^ w.
Proof. intros. rewrite bits_spec, N.div_1_r. reflexivity. Qed.

Lemma bits_small : forall x w, x < 2 ^ w -> bits x 0 w = x.
Proof. intros. rewrite bits_0. apply N.mod_small. assumption. Qed.

Lemma bits_zero : forall lo w, bits 0 lo w = 0.
Proof. intros. unfold bits. rewrite N.shiftr_0_l. reflexivity. Qed.

Lemma bits_top : forall x lo w, x < 2 ^ (lo + w) -> bits x lo w = x / 2 ^ lo.
Proof.
  intros x lo w H. rewrite bits_spec. apply N.mod_small, N.div_lt_upper_bound; [apply pow2_nz|].
  rewrite <- N.pow_add_r. exact H.
Qed.

Lemma bits_shiftr : forall x a lo w, bits (N.shiftr x a) lo w = bits x (lo + a) w.
Proof. intros. unfold bits. rewrite N.shiftr_shiftr, (N.add_comm a). reflexivity. Qed.

Lemma testbit_bits : forall x lo w k, N.testbit (bits x lo w) k = N.testbit x (k + lo) && (k <? w).
Proof.
  intros x lo w k. unfold bits. rewrite N.land_spec, N.shiftr_spec'. f_equal.
  destruct (N.ltb_spec k w); [apply N.ones_spec_low | apply N.ones_spec_high]; assumption.
Qed.

Lemma bits_bits_low : forall x w lo w', lo + w' <= w -> bits (bits x 0 w) lo w' = bits x lo w'.
Proof.
  intros x w lo w' H. apply N.bits_inj. intro k. rewrite !testbit_bits, N.add_0_r.
  destruct (N.ltb_spec k w'); [|rewrite !andb_false_r; reflexivity].
  replace (k + lo <? w) with true by (symmetry; apply N.ltb_lt; lia). rewrite !andb_true_r. reflexivity.
Qed.

Lemma bits_setbits_same : forall x lo w v, bits (setbits x lo w v) lo w = v mod 2 ^ w.
Proof.
  intros. unfold bits, setbits, trunc. rewrite <- (N.land_ones v w).
  apply N.bits_inj. intro k.
  rewrite !N.land_spec, N.shiftr_spec', N.lor_spec, N.ldiff_spec.
  destruct (N.ltb_spec k w) as [Hk|Hk].
  - rewrite (N.ones_spec_low w k Hk), andb_true_r.
    rewrite !N.shiftl_spec_high' by lia. replace (k + lo - lo) with k by lia.
    rewrite N.land_spec, (N.ones_spec_low w k Hk). cbn [negb]. rewrite andb_false_r, andb_true_r. reflexivity.
  - rewrite (N.ones_spec_high w k Hk), !andb_false_r. reflexivity.
Qed.

Lemma bits_split : forall x lo a b, bits x lo (a + b) = bits x lo a + 2 ^ a * bits x (lo + a) b.
Proof.
  intros. rewrite !bits_spec, !N.pow_add_r, <- N.div_div by apply pow2_nz. apply N.mod_mul_r; apply pow2_nz.
Qed.

Lemma lxor_lt_pow2 : forall a b n, a < 2 ^ n -> b < 2 ^ n -> N.lxor a b < 2 ^ n.
Proof.
  intros a b n Ha Hb. apply N.div_small_iff; [apply pow2_nz|].
  rewrite <- N.shiftr_div_pow2, N.shiftr_lxor, !N.shiftr_div_pow2, !N.div_small by assumption.
  reflexivity.
Qed.

Lemma unpair_lo : forall w a b, a < 2 ^ w -> trunc w (a + N.shiftl b w) = a.
Proof. intros w a b H. rewrite trunc_mod, N.shiftl_mul_pow2, N.mul_comm. apply digit_mod. exact H. Qed.

Lemma unpair_hi : forall w a b, a < 2 ^ w -> N.shiftr (a + N.shiftl b w) w = b.
Proof. intros w a b H. rewrite N.shiftr_div_pow2, N.shiftl_mul_pow2, N.mul_comm. apply digit_div. exact H. Qed.

Lemma pair_lt : forall w v a b, a < 2 ^ w -> b < 2 ^ v -> a + N.shiftl b w < 2 ^ (w + v).
Proof.
  intros w v a b Ha Hb. rewrite N.shiftl_mul_pow2, N.pow_add_r. pose proof (pow2_pos w). pose proof (pow2_pos v). nia.
Qed.

Lemma lor_low : forall a b k, a < 2 ^ k -> N.land (N.lor a (N.shiftl b k)) (N.ones k) = a.
Proof.
  intros a b k H. rewrite N.land_lor_distr_l, !N.land_ones, N.shiftl_mul_pow2.
  rewrite N.mod_mul, N.lor_0_r by apply pow2_nz. apply N.mod_small. exact H.
Qed.

Lemma lor_high : forall a b k, a < 2 ^ k -> N.shiftr (N.lor a (N.shiftl b k)) k = b.
Proof.
  intros a b k H. rewrite N.shiftr_lor, N.shiftr_shiftl_l, N.sub_diag, N.shiftl_0_r by reflexivity.
  rewrite N.shiftr_div_pow2, N.div_small by exact H. reflexivity.
Qed.

Lemma b2n_lt2 : forall b, b2n b < 2.
Proof. destruct b; reflexivity. Qed.

Lemma b2n_eqb1 : forall b, (b2n b =? 1) = b.
Proof. destruct b; reflexivity. Qed.

Lemma testbit_b2n : forall x k b, (x / 2 ^ k) mod 2 = b2n b -> N.testbit x k = b.
Proof.
  intros x k b H. pose proof (N.testbit_spec' x k) as T. rewrite H in T.
  destruct (N.testbit x k), b; try reflexivity; discriminate.
Qed.

Lemma odd_b2n : forall b, N.odd (b2n b) = b.
Proof. destruct b; reflexivity. Qed.

Lemma odd_b2n_add_2 : forall b x, N.odd (b2n b + 2 * x) = b.
Proof. intros. rewrite N.odd_add_mul_2. apply odd_b2n. Qed.

Lemma div2_b2n_add_2 : forall b x, N.div2 (b2n b + 2 * x) = x.
Proof. intros b x. rewrite N.div2_div. apply digit_div, b2n_lt2. Qed.

(* A word as a list of (width, value) fields, lowest first, below an arbitrary rest `hi`.
   An encoding written as a flat sum  f0 + 2 * f1 + 32 * f2 + ...  equals fields_word of its field list
   by one linear `lia` (after `cbn [fields_word]`); every field and flag then comes out by position.
   A nested encoding  a + 8 * (b2n s + 2 * (c + 16 * hi))  with something on top is convertible with
   fields_under [(3, a); (1, b2n s); (4, c)] hi.  Dividing by the weight of field k drops the fields below
   it (fields_under_div): so a decoder written with / and mod reads field k, and the rest, off the head of
   what is left, and one written with `bits` and `testbit` reads it by position. *)
Fixpoint fields_under (l : list (N * N)) (hi : N) : N :=
  match l with [] => hi | (w, v) :: t => v + 2 ^ w * fields_under t hi end.

Fixpoint fields_word (l : list (N * N)) : N :=
  match l with [] => 0 | (w, v) :: t => v + 2 ^ w * fields_word t end.

Fixpoint field_off (l : list (N * N)) (k : nat) : N :=
  match k, l with S k', (w, _) :: t => w + field_off t k' | _, _ => 0 end.

Definition fields_ok (l : list (N * N)) : Prop := Forall (fun p => snd p < 2 ^ fst p) l.

Lemma fields_word_under : forall l, fields_word l = fields_under l 0.
Proof. induction l as [|[w v] t IH]; [reflexivity|]. cbn [fields_word fields_under]. rewrite IH. reflexivity. Qed.

Lemma fields_under_div : forall l hi k, fields_ok l ->
  fields_under l hi / 2 ^ field_off l k = fields_under (skipn k l) hi.
Proof.
  induction l as [|[w v] t IH]; intros hi k H; [destruct k; apply N.div_1_r|].
  destruct k as [|k]; [apply N.div_1_r|].
  inversion H as [|? ? Hv Ht]; subst. cbn [field_off fields_under skipn].
  rewrite N.pow_add_r, <- N.div_div by apply pow2_nz.
  rewrite digit_div by exact Hv. apply IH, Ht.
Qed.

Lemma fields_under_digit : forall l hi k, fields_ok l ->
  (fields_under l hi / 2 ^ field_off l k) mod 2 ^ fst (nth k l (0, 0)) = snd (nth k l (0, 0)).
Proof.
  intros l hi k H. rewrite fields_under_div by exact H.
  destruct (PeanoNat.Nat.lt_ge_cases k (length l)) as [Hk|Hk].
  - pose proof (proj1 (Forall_nth _ l) H k (0, 0) Hk) as Hv. rewrite (skipn_cons_nth l k (0, 0) Hk).
    destruct (nth k l (0, 0)) as [w v]. apply digit_mod, Hv.
  - rewrite nth_overflow by exact Hk. apply N.mod_1_r.
Qed.

Lemma fields_under_flag : forall l hi k b, fields_ok l -> nth k l (0, 0) = (1, b2n b) ->
  N.odd (fields_under l hi / 2 ^ field_off l k) = b.
Proof.
  intros l hi k b H E. pose proof (fields_under_digit l hi k H) as F. rewrite E in F.
  rewrite <- N.bit0_odd. apply testbit_b2n. rewrite N.div_1_r. exact F.
Qed.

Lemma fields_under_rest : forall l hi, fields_ok l ->
  fields_under l hi / 2 ^ field_off l (length l) = hi.
Proof. intros l hi H. rewrite fields_under_div, skipn_all by exact H. reflexivity. Qed.

Lemma bits_fields_word : forall l k, fields_ok l ->
  bits (fields_word l) (field_off l k) (fst (nth k l (0, 0))) = snd (nth k l (0, 0)).
Proof. intros l k H. rewrite fields_word_under, bits_spec. apply fields_under_digit, H. Qed.

Lemma testbit_fields_word : forall l k b, fields_ok l -> nth k l (0, 0) = (1, b2n b) ->
  N.testbit (fields_word l) (field_off l k) = b.
Proof.
  intros l k b H E. apply testbit_b2n. pose proof (bits_fields_word l k H) as F.
  rewrite E, bits_spec in F. exact F.
Qed.

Lemma fields_word_lt : forall l, fields_ok l -> fields_word l < 2 ^ field_off l (length l).
Proof.
  intros l H. apply N.div_small_iff; [apply pow2_nz|].
  rewrite fields_word_under. apply fields_under_rest, H.
Qed.

(* a pointer or counter stepping down modulo P *)
Lemma sub1_mod : forall x P, 0 < x -> x < P -> (x + P - 1) mod P = x - 1.
Proof.
  intros x P H0 HP. replace (x + P - 1) with ((x - 1) + 1 * P) by lia.
  rewrite N.mod_add by lia. apply N.mod_small. lia.
Qed.

(* a Signal(range(n + 1)) counter holds every value up to n *)
Lemma mod_pow2_size : forall m n, m <= n -> m mod 2 ^ N.size n = m.
Proof. intros m n H. apply N.mod_small. pose proof (N.size_gt n). lia. Qed.
