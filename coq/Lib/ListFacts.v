(* Plain facts about lists that the standard library of Coq 8.16 lacks, the emptiness test is_nil, and the
   delay line lpad. *)
From Coq Require Import List PeanoNat Lia.
Import ListNotations.

Section OneType.
  Context {A : Type}.
  Implicit Types (l : list A) (P : A -> Prop).

  Definition is_nil l : bool := match l with [] => true | _ => false end.

  Lemma length_pos : forall l, l <> [] -> 0 < length l.
  Proof. intros [|x l] H; [congruence | apply Nat.lt_0_succ]. Qed.

  Lemma Forall_snoc : forall P l x, Forall P l -> P x -> Forall P (l ++ [x]).
  Proof. intros P l x Hl Hx. apply Forall_app. auto. Qed.

  Lemma Forall_firstn : forall P n l, Forall P l -> Forall P (firstn n l).
  Proof. intros P n l H. rewrite <- (firstn_skipn n l) in H. apply Forall_app in H. apply H. Qed.

  Lemma Forall_skipn : forall P n l, Forall P l -> Forall P (skipn n l).
  Proof. intros P n l H. rewrite <- (firstn_skipn n l) in H. apply Forall_app in H. apply H. Qed.

  Lemma Forall_filter : forall P f l, Forall P l -> Forall P (filter f l).
  Proof.
    intros P f l H. apply Forall_forall. intros x Hx. apply filter_In in Hx.
    exact (proj1 (Forall_forall P l) H x (proj1 Hx)).
  Qed.

  Lemma Forall_repeat : forall P x n, P x -> Forall P (repeat x n).
  Proof. intros P x n H. induction n; constructor; assumption. Qed.

  Lemma forallb_impl : forall (f g : A -> bool) l,
    (forall x, f x = true -> g x = true) -> forallb f l = true -> forallb g l = true.
  Proof. intros f g l H. rewrite !forallb_forall. auto. Qed.

  Lemma filter_length_le' : forall (f : A -> bool) l, length (filter f l) <= length l.
  Proof. intros f. induction l as [|x l IH]; simpl; [lia|]. destruct (f x); simpl; lia. Qed.

  Lemma skipn_skipn : forall a b l, skipn a (skipn b l) = skipn (b + a) l.
  Proof.
    intros a b. induction b as [|b IH]; intros l; [reflexivity|].
    destruct l as [|x l]; [rewrite !skipn_nil; reflexivity|]. apply IH.
  Qed.

  Lemma skipn_cons_nth : forall l n d, n < length l -> skipn n l = nth n l d :: skipn (S n) l.
  Proof.
    induction l as [|x l IH]; intros n d H; [inversion H|]. destruct n as [|n]; [reflexivity|].
    apply IH, Nat.succ_lt_mono, H.
  Qed.

  Lemma firstn_succ : forall l n d, n < length l -> firstn (S n) l = firstn n l ++ [nth n l d].
  Proof.
    induction l as [|x l IH]; intros n d H; [inversion H|]. destruct n as [|n]; [reflexivity|].
    cbn [firstn nth app]. f_equal. apply IH, Nat.succ_lt_mono, H.
  Qed.

  Lemma hd_skipn : forall l n d, hd d (skipn n l) = nth n l d.
  Proof. induction l as [|x l IH]; intros [|n] d; try reflexivity. apply IH. Qed.

  Lemma tl_skipn : forall l n, tl (skipn n l) = skipn (S n) l.
  Proof. induction l as [|x l IH]; intros [|n]; try reflexivity. apply IH. Qed.

  Lemma firstn_plus : forall a b l, firstn (a + b) l = firstn a l ++ firstn b (skipn a l).
  Proof.
    intros a b l. rewrite <- (firstn_skipn a (firstn (a + b) l)) at 1.
    rewrite firstn_firstn, Nat.min_l, firstn_skipn_comm by lia. reflexivity.
  Qed.

  Lemma firstn_clip : forall n l, firstn n l = firstn (Nat.min n (length l)) l.
  Proof. intros n l. rewrite <- (firstn_all l) at 1. apply firstn_firstn. Qed.

  Lemma firstn_app_l : forall l r n, length l = n -> firstn n (l ++ r) = l.
  Proof. intros l r n <-. rewrite firstn_app, firstn_all, Nat.sub_diag. apply app_nil_r. Qed.

  Lemma skipn_app_l : forall l r n, length l = n -> skipn n (l ++ r) = r.
  Proof. intros l r n <-. rewrite skipn_app, skipn_all, Nat.sub_diag. reflexivity. Qed.

  Lemma nth_tl : forall l n d, nth n (tl l) d = nth (S n) l d.
  Proof. intros [|x l] n d; [destruct n|]; reflexivity. Qed.

  Lemma nth_firstn_lt : forall l n j d, j < n -> nth j (firstn n l) d = nth j l d.
  Proof.
    induction l as [|x l IH]; intros n j d H; [rewrite firstn_nil; reflexivity|].
    destruct n as [|n]; [inversion H|]. destruct j as [|j]; [reflexivity|]. apply IH, Nat.succ_lt_mono, H.
  Qed.

  Lemma nth_removelast : forall l n d, S n < length l -> nth n (removelast l) d = nth n l d.
  Proof. intros l n d H. rewrite removelast_firstn_len. apply nth_firstn_lt. lia. Qed.

  Lemma last_nth : forall l d, last l d = nth (length l - 1) l d.
  Proof.
    induction l as [|x [|y l] IH]; intros d; try reflexivity.
    change (last (x :: y :: l) d) with (last (y :: l) d). rewrite IH. cbn [length Nat.sub].
    rewrite Nat.sub_0_r. reflexivity.
  Qed.

  Lemma last_cons : forall l x d, last (x :: l) d = last l x.
  Proof.
    induction l as [|y l IH]; intros x d; [reflexivity|].
    change (last (x :: y :: l) d) with (last (y :: l) d). rewrite (IH y d), (IH y x). reflexivity.
  Qed.

  (* a shift register keeps its length, whichever way it shifts *)
  Lemma tl_snoc_length : forall l x, 1 <= length l -> length (tl l ++ [x]) = length l.
  Proof. intros [|y l] x H; [inversion H|]. rewrite app_length. apply Nat.add_1_r. Qed.

  Lemma cons_removelast_length : forall l x, 1 <= length l -> length (x :: removelast l) = length l.
  Proof. intros l x H. cbn [length]. rewrite removelast_firstn_len, firstn_length. lia. Qed.
End OneType.

Lemma map_repeat : forall {A B : Type} (f : A -> B) x n, map f (repeat x n) = repeat (f x) n.
Proof. induction n as [|n IH]; [reflexivity | cbn [repeat map]; rewrite IH; reflexivity]. Qed.

Lemma map_const : forall {A B : Type} (x : B) (l : list A), map (fun _ => x) l = repeat x (length l).
Proof. induction l as [|y l IH]; [reflexivity|]. cbn [map length repeat]. rewrite IH. reflexivity. Qed.

Lemma map_tl : forall {A B : Type} (f : A -> B) l, map f (tl l) = tl (map f l).
Proof. destruct l; reflexivity. Qed.

Lemma map_snd_combine : forall {A B : Type} (l : list A) (r : list B), length l = length r ->
  map snd (combine l r) = r.
Proof.
  induction l as [|x l IH]; intros [|y r] H; try discriminate H; [reflexivity|].
  cbn [combine map snd]. f_equal. apply IH. injection H as H. exact H.
Qed.

Lemma Forall2_impl : forall {A B : Type} (P Q : A -> B -> Prop) l l',
  (forall a b, P a b -> Q a b) -> Forall2 P l l' -> Forall2 Q l l'.
Proof. intros A B P Q l l' H H2. induction H2; constructor; [apply H; assumption | assumption]. Qed.

(* A delay line of w registers that takes one value per cycle, the newest in front: after the inputs `past`
   (newest first) it holds the last w of them, and its reset value d in the stages they have not reached. *)
Section DelayLine.
  Context {A : Type}.

  Definition lpad (d : A) (w : nat) (past : list A) : list A := firstn w (past ++ repeat d w).

  Lemma lpad_length : forall d w past, length (lpad d w past) = w.
  Proof. intros. unfold lpad. rewrite firstn_length, app_length, repeat_length. lia. Qed.

  Lemma lpad_nil : forall d w, lpad d w [] = repeat d w.
  Proof. intros. unfold lpad. cbn [app]. apply firstn_all2. rewrite repeat_length. apply le_n. Qed.

  Lemma lpad_cons : forall d w x past, firstn w (x :: lpad d w past) = lpad d w (x :: past).
  Proof.
    intros d w x past. unfold lpad. destruct w as [|w]; [reflexivity|].
    cbn [app]. rewrite !firstn_cons, firstn_firstn, Nat.min_l by lia. reflexivity.
  Qed.

  Lemma nth_lpad : forall d w past j, j < w -> nth j (lpad d w past) d = nth j past d.
  Proof.
    intros d w past j H. unfold lpad. rewrite nth_firstn_lt by exact H.
    destruct (Nat.lt_ge_cases j (length past)) as [L|L]; [apply app_nth1, L|].
    rewrite app_nth2, nth_repeat, nth_overflow by exact L. reflexivity.
  Qed.
End DelayLine.
