(* Mixed-radix packing of structured model states (pointers, flags, memories as lists) into one N,
   for hand models that take part in R lock-step obligations (the enc / dec / dec_enc of Machine.v):
   pk puts one digit below the rest, pack / unpack do a list of digits of one radix.  Re-exports BitFacts. *)
From Coq Require Import NArith List Lia.
From LunaLib Require Import Netlist.
From LunaLib Require Export BitFacts.
Import ListNotations.
Open Scope N_scope.

Definition pk (B x rest : N) : N := x + B * rest.

Lemma pk_mod : forall B x rest, x < B -> pk B x rest mod B = x.
Proof. intros B x rest. apply digit_mod. Qed.

Lemma pk_div : forall B x rest, x < B -> pk B x rest / B = rest.
Proof. intros B x rest. apply digit_div. Qed.

Lemma pk_shiftr : forall B k x rest, B = 2 ^ k -> x < B -> N.shiftr (pk B x rest) k = rest.
Proof. intros B k x rest -> H. rewrite N.shiftr_div_pow2. apply pk_div, H. Qed.

Lemma pk_land : forall B k x rest, B = 2 ^ k -> x < B -> N.land (pk B x rest) (N.ones k) = x.
Proof. intros B k x rest -> H. rewrite N.land_ones. apply pk_mod, H. Qed.

Lemma pk2_odd : forall b rest, N.odd (pk 2 (b2n b) rest) = b.
Proof. intros. apply odd_b2n_add_2. Qed.

Lemma pk_lt : forall B x rest R, x < B -> rest < R -> pk B x rest < B * R.
Proof. intros B x rest R Hx Hr. unfold pk. nia. Qed.

Fixpoint pack (B : N) (l : list N) : N :=
  match l with
  | [] => 0
  | x :: t => pk B x (pack B t)
  end.

Fixpoint unpack (B : N) (k : nat) (n : N) : list N :=
  match k with
  | O => []
  | S k' => n mod B :: unpack B k' (n / B)
  end.

Lemma pack_lt : forall B l, Forall (fun x => x < B) l -> pack B l < B ^ N.of_nat (length l).
Proof.
  induction l as [|x t IH]; intro H; [reflexivity|].
  inversion H; subst. cbn [pack length]. rewrite Nat2N.inj_succ, N.pow_succ_r'.
  apply pk_lt; [assumption | apply IH; assumption].
Qed.

Lemma unpack_pack : forall B l, Forall (fun x => x < B) l -> unpack B (length l) (pack B l) = l.
Proof.
  induction l as [|x t IH]; intro H; [reflexivity|].
  inversion H as [|? ? Hx Ht]; subst. cbn [length pack unpack].
  rewrite pk_mod, pk_div by exact Hx. rewrite IH by exact Ht. reflexivity.
Qed.

Lemma unpack_length : forall B k n, length (unpack B k n) = k.
Proof. induction k; intros; cbn [unpack length]; [reflexivity | rewrite IHk; reflexivity]. Qed.
