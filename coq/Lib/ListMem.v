(* Memories as lists of N (cell a = nth a m 0): single-cell update and its basic facts.
   Out-of-range reads give 0 and out-of-range writes do nothing, like Netlist.mem_read / mem_write. *)
From Coq Require Import NArith List Lia.
Import ListNotations.

Fixpoint upd (a : nat) (v : N) (l : list N) : list N :=
  match l, a with
  | [], _ => []
  | _ :: t, O => v :: t
  | x :: t, S a' => x :: upd a' v t
  end.

Lemma upd_length : forall l a v, length (upd a v l) = length l.
Proof. induction l as [|x t IH]; intros [|a] v; simpl; try reflexivity. rewrite IH. reflexivity. Qed.

Lemma nth_upd_same : forall l a v, a < length l -> nth a (upd a v l) 0%N = v.
Proof.
  induction l as [|x t IH]; intros a v H; simpl in H; [lia|].
  destruct a as [|a]; simpl; [reflexivity | apply IH; lia].
Qed.

Lemma nth_upd_other : forall l a b v, a <> b -> nth b (upd a v l) 0%N = nth b l 0%N.
Proof.
  induction l as [|x t IH]; intros a b v H; [destruct a; reflexivity|].
  destruct a as [|a], b as [|b]; simpl; try reflexivity; [lia | apply IH; lia].
Qed.

Lemma firstn_upd_snoc : forall l a v, a < length l -> firstn (S a) (upd a v l) = firstn a l ++ [v].
Proof.
  induction l as [|x t IH]; intros a v H; [inversion H|]. destruct a as [|a]; [reflexivity|].
  cbn [upd firstn app]. f_equal. apply IH, PeanoNat.Nat.succ_lt_mono, H.
Qed.

Lemma upd_out_of_range : forall l a v, length l <= a -> upd a v l = l.
Proof.
  induction l as [|x t IH]; intros a v H; [destruct a; reflexivity|].
  destruct a as [|a]; simpl in *; [lia|]. rewrite IH by lia. reflexivity.
Qed.

Lemma upd_Forall : forall (P : N -> Prop) l a v, P v -> Forall P l -> Forall P (upd a v l).
Proof.
  induction l as [|x t IH]; intros [|a] v Hv H; simpl; try exact H;
    inversion H; subst; constructor; auto.
Qed.

Lemma Forall_nth_lt : forall (B : N) l a, (0 < B)%N -> Forall (fun x => (x < B)%N) l -> (nth a l 0 < B)%N.
Proof.
  induction l as [|x t IH]; intros a HB H; [destruct a; exact HB|].
  inversion H; subst. destruct a; simpl; [assumption | apply IH; assumption].
Qed.
