(* Certified closure / search for lock-step obligations with a state-dependent alphabet
   (ReachDep.closed_dep): the packed model state of a product state is decoded ONCE and the typed model is
   stepped over the whole alphabet of that state; only the successor is packed again (for set membership).
   `fclosed L = true` implies `ReachDep.closed_dep ... L = true`, so ReachDep.R_lockstep_dep applies unchanged.
   (Used by props/C11.py and props/C14.py.) *)
From Coq Require Import NArith List Bool.
Import ListNotations.
From LunaLib Require Import ListFacts Machine ReachDep SymWord.
Open Scope N_scope.

Section Fast.
  Variable step : N -> N -> N * N.
  Variables (St : Type) (mstep : St -> N -> St * N) (enc : St -> N) (dec : N -> St).
  Variable alpha : St -> list N.

  Definition fclosed_at (R : pset) (p : N * N) : bool :=
    let ms := dec (snd p) in
    forallb (fun i => let (s', o) := step (fst p) i in
                      let (m', o') := mstep ms i in
                      N.eqb o o' && pmem s' (enc m') R) (alpha ms).

  Definition fclosed (L : list (N * N)) : bool :=
    let R := of_list L in forallb (fclosed_at R) L.

  Lemma fclosed_closed_dep : forall L, fclosed L = true ->
    closed_dep step (rld_mon St mstep enc dec) (alphaN St dec alpha) L = true.
  Proof.
    intros L. unfold fclosed, closed_dep. apply forallb_impl. intros p.
    unfold fclosed_at, closed_at_dep, alphaN. apply forallb_impl. intros i H.
    destruct (step (fst p) i) as [s' o]. unfold rld_mon, rl_mon, lock_mon, envN, mstepN.
    destruct (mstep (dec (snd p)) i) as [m' o']. exact H.
  Qed.

  (* untrusted search *)
  Definition fvisit1 (s : N) (ms : St) (path : list N) (acc : bfs_state) (i : N) : bfs_state :=
    match cex acc with
    | Some _ => acc
    | None =>
      let (s', o) := step s i in
      let (m', o') := mstep ms i in
      if negb (N.eqb o o') then {| seen := seen acc; allst := allst acc; front := front acc;
                                   cex := Some (rev (i :: path)) |}
      else let e := enc m' in
           if pmem s' e (seen acc) then acc
           else {| seen := padd s' e (seen acc); allst := (s', e) :: allst acc;
                   front := (s', e, i :: path) :: front acc; cex := None |}
    end.

  Definition flevel (st : bfs_state) : bfs_state :=
    fold_left (fun acc it => match it with (s, m, path) =>
                 let ms := dec m in fold_left (fvisit1 s ms path) (alpha ms) acc end)
              (front st)
              {| seen := seen st; allst := allst st; front := []; cex := cex st |}.

  Fixpoint fbfs (fuel : nat) (st : bfs_state) : bfs_state :=
    match fuel with
    | O => st
    | S f => match front st, cex st with
             | [], _ => st
             | _, Some _ => st
             | _, None => fbfs f (flevel st)
             end
    end.

  Definition fexplore (fuel : nat) (s m : N) : bfs_state := fbfs fuel (bfs_init s m).
End Fast.

(* for the ties of props/C11.py, which compare the netlist's outputs after a normalisation *)
Lemma run_norm : forall (step : N -> N -> N * N) (norm : N -> N) tr st,
  run (fun s i => let (s', o) := step s i in (s', norm o)) st tr = map norm (run step st tr).
Proof. intros step norm. exact (run_map_out step norm). Qed.
