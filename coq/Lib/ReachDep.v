(* Certified reachability with a STATE-DEPENDENT input alphabet (extension of Machine.v's Reach/RLockstep).

   `alpha m` is the list of input words explored in monitor state m.  Soundness is stated for the guarded
   monitor `gmon`, which treats "input not in alpha m" as a broken environment assumption, so the resulting
   theorems quantify over exactly the traces whose every input lies in the alphabet of the state the
   monitor/model is in at that cycle.  Typical use: a module that ignores its data inputs except in a few
   "ready" states -- explore all 2^k input words there and a handful of representatives elsewhere. *)
From Coq Require Import NArith List Bool.
Import ListNotations.
From LunaLib Require Import Machine.
Open Scope N_scope.

Definition memN (i : N) (l : list N) : bool := existsb (N.eqb i) l.

Lemma memN_In : forall i l, memN i l = true -> In i l.
Proof.
  intros i l H. unfold memN in H. apply existsb_exists in H. destruct H as [x [Hx E]].
  apply N.eqb_eq in E. subst. exact Hx.
Qed.

Section ReachDep.
  Variable step : N -> N -> N * N.
  Variable mon : N -> N -> N -> option (N * bool).
  Variable alpha : N -> list N.

  Definition gmon (m i o : N) : option (N * bool) := if memN i (alpha m) then mon m i o else None.

  Definition closed_at_dep (R : pset) (p : N * N) : bool :=
    forallb (fun i =>
      let (s', o) := step (fst p) i in
      match mon (snd p) i o with
      | None => true
      | Some (m', ok) => ok && pmem s' m' R
      end) (alpha (snd p)).

  Definition closed_dep (L : list (N * N)) : bool :=
    let R := of_list L in forallb (closed_at_dep R) L.

  Theorem closed_dep_sound : forall L, closed_dep L = true ->
    forall tr s m, In (s, m) L -> check_trace step gmon s m tr = true.
  Proof.
    intros L HC. unfold closed_dep in HC. rewrite forallb_forall in HC.
    induction tr as [|i t IH]; intros s m Hin; simpl; [reflexivity|].
    destruct (step s i) as [s' o] eqn:Es. unfold gmon.
    destruct (memN i (alpha m)) eqn:Hm; [|reflexivity].
    apply memN_In in Hm.
    specialize (HC _ Hin). unfold closed_at_dep in HC. rewrite forallb_forall in HC.
    specialize (HC _ Hm). simpl in HC. rewrite Es in HC.
    destruct (mon m i o) as [[m' ok]|]; [|reflexivity].
    apply andb_true_iff in HC as [Hok Hmem]. rewrite Hok. simpl.
    apply IH. apply pmem_of_list. exact Hmem.
  Qed.

  (* untrusted search *)
  Definition level_dep (st : bfs_state) : bfs_state :=
    fold_left (fun acc it => match it with (s, m, path) => fold_left (visit1 step mon s m path) (alpha m) acc end)
              (front st)
              {| seen := seen st; allst := allst st; front := []; cex := cex st |}.

  Fixpoint bfs_dep (fuel : nat) (st : bfs_state) : bfs_state :=
    match fuel with
    | O => st
    | S f => match front st, cex st with
             | [], _ => st
             | _, Some _ => st
             | _, None => bfs_dep f (level_dep st)
             end
    end.

  Definition explore_dep (fuel : nat) (s m : N) : bfs_state := bfs_dep fuel (bfs_init s m).
End ReachDep.

Section RLockstepDep.
  Variable step : N -> N -> N * N.
  Variables (St : Type) (mstep : St -> N -> St * N) (enc : St -> N) (dec : N -> St) (wf : St -> Prop).
  Variable alpha : St -> list N.
  Hypothesis dec_enc : forall s, wf s -> dec (enc s) = s.
  Hypothesis wf_step : forall s i, wf s -> wf (fst (mstep s i)).

  Definition alphaN (m : N) : list N := alpha (dec m).
  Definition rld_mon := rl_mon St mstep enc dec (fun _ _ => true).

  Fixpoint alpha_ok (s : St) (tr : list N) : bool :=
    match tr with
    | [] => true
    | i :: t => memN i (alpha s) && alpha_ok (fst (mstep s i)) t
    end.

  Theorem R_lockstep_dep : forall L s0 m0,
    closed_dep step rld_mon alphaN L = true ->
    pmem s0 (enc m0) (of_list L) = true -> wf m0 ->
    forall tr, alpha_ok m0 tr = true -> run step s0 tr = run mstep m0 tr.
  Proof.
    (* the guarded monitor is the lock-step monitor whose environment is membership in alpha, and
       alpha_ok is env_ok for that environment, both by conversion *)
    intros L s0 m0 HC Hin Hwf tr HA. set (env := fun s i => memN i (alpha s)).
    rewrite <- (run_mstepN St mstep enc dec wf dec_enc wf_step tr m0 Hwf).
    apply (lockstep_run step (mstepN St mstep enc dec) (envN St dec env)).
    - exact (closed_dep_sound step rld_mon alphaN L HC tr s0 (enc m0) (pmem_of_list L _ _ Hin)).
    - exact (env_trace_packed St mstep enc dec wf env dec_enc wf_step tr m0 Hwf HA).
  Qed.
End RLockstepDep.
