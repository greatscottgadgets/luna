(* Mealy machines with inputs and outputs in N,  step : S -> N -> S * N  (state, input -> state', output):
   their runs (run / run_state: by the first, last and t-th cycle, past a prefix; invariants) and one machine
   simulating another (sim_run); exhaustive sweeps over bit-widths (forall_bits_sound); for machines whose
   state is packed into N too, the certified reachability check behind the "R" obligations (closed_sound:
   closure of an explicit state list under every input of an alphabet) and the lock-step comparison of a
   generated machine with a hand model that rests on it (R_lockstep); the evaluators the harness runs on
   recorded traces.  SymWord.v has the same runs for machines with typed inputs and outputs (trun / tstate). *)
From Coq Require Import NArith List Bool Lia FSets.FMapPositive FSets.FSetPositive.
From LunaLib Require Import BitFacts.
Import ListNotations.
Open Scope N_scope.

Section Run.
  Context {S : Type}.
  Variable step : S -> N -> S * N.

  Fixpoint run (st : S) (ins : list N) : list N :=
    match ins with
    | [] => []
    | i :: t => let (s', o) := step st i in o :: run s' t
    end.

  Fixpoint run_state (st : S) (ins : list N) : S :=
    match ins with
    | [] => st
    | i :: t => run_state (fst (step st i)) t
    end.

  Lemma run_cons : forall st i t, run st (i :: t) = snd (step st i) :: run (fst (step st i)) t.
  Proof. intros. cbn [run]. destruct (step st i). reflexivity. Qed.

  Lemma run_length : forall ins st, length (run st ins) = length ins.
  Proof.
    induction ins as [|i t IH]; intros st; [reflexivity|]. rewrite run_cons. cbn [length]. rewrite IH. reflexivity.
  Qed.

  Lemma run_app : forall a b st, run st (a ++ b) = run st a ++ run (run_state st a) b.
  Proof.
    induction a as [|i t IH]; intros b st; [reflexivity|]. cbn [app run_state]. rewrite !run_cons, IH. reflexivity.
  Qed.

  Lemma run_state_app : forall a b st, run_state st (a ++ b) = run_state (run_state st a) b.
  Proof. induction a as [|i t IH]; intros b st; [reflexivity|]. apply IH. Qed.

  Lemma run_nth : forall tr st t d, (t < length tr)%nat ->
    nth t (run st tr) d = snd (step (run_state st (firstn t tr)) (nth t tr 0)).
  Proof.
    induction tr as [|i tr IH]; intros st t d Ht; [inversion Ht|]. rewrite run_cons.
    destruct t as [|t]; [reflexivity|]. apply IH, PeanoNat.Nat.succ_lt_mono, Ht.
  Qed.

  Lemma run_nth_app : forall st a b k d,
    nth (length a + k) (run st (a ++ b)) d = nth k (run (run_state st a) b) d.
  Proof. intros. rewrite run_app, <- (run_length a st), app_nth2_plus. reflexivity. Qed.

  Lemma run_last : forall tr st i d, last (run st (tr ++ [i])) d = snd (step (run_state st tr) i).
  Proof. intros. rewrite run_app, run_cons. apply last_last. Qed.

  Lemma run_state_inv : forall P : S -> Prop, (forall st i, P st -> P (fst (step st i))) ->
    forall tr st, P st -> P (run_state st tr).
  Proof. intros P Hstep. induction tr as [|i t IH]; intros st H; [exact H|]. apply IH, Hstep, H. Qed.

  (* comparison with recorded traces of the implementation, evaluated by the harness *)
  Fixpoint list_eqb (a b : list N) : bool :=
    match a, b with
    | [], [] => true
    | x :: a', y :: b' => N.eqb x y && list_eqb a' b'
    | _, _ => false
    end.

  Fixpoint mismatches_from (k : N) (init : S) (tin tout : list (list N)) : list N :=
    match tin, tout with
    | i :: tin', o :: tout' =>
        (if list_eqb (run init i) o then [] else [k]) ++ mismatches_from (N.succ k) init tin' tout'
    | [], [] => []
    | _, _ => [k]
    end.
  Definition mismatches := mismatches_from 0.
End Run.

Lemma list_eqb_eq : forall a b, list_eqb a b = true <-> a = b.
Proof.
  induction a as [|x a IH]; intros [|y b]; simpl; split; intro H; try reflexivity; try discriminate.
  - apply andb_true_iff in H as [H1 H2]. apply N.eqb_eq in H1. apply IH in H2. subst; reflexivity.
  - inversion H; subst. rewrite N.eqb_refl. simpl. apply IH. reflexivity.
Qed.

(* Exhaustive sweeps: recursion on the bit-width, never on a large nat. *)
Fixpoint forall_bits (w : nat) (f : N -> bool) : bool :=
  match w with
  | O => f 0
  | Datatypes.S w' => forall_bits w' (fun x => f (N.double x)) && forall_bits w' (fun x => f (N.succ_double x))
  end.

Lemma halves : forall (P : N -> Prop) x B, x < 2 * B ->
  (forall k, k < B -> P (N.double k)) -> (forall k, k < B -> P (N.succ_double k)) -> P x.
Proof.
  intros P x B Hx H0 H1.
  destruct x as [|[p|p|]]; [apply (H0 0) | apply (H1 (Npos p)) | apply (H0 (Npos p)) | apply (H1 0)]; lia.
Qed.

Lemma forall_bits_sound : forall w f, forall_bits w f = true ->
  forall x, x < 2 ^ N.of_nat w -> f x = true.
Proof.
  induction w as [|w IH]; intros f H x Hx.
  - simpl in *. assert (x = 0) by lia. subst; exact H.
  - simpl in H. apply andb_true_iff in H as [H0 H1].
    rewrite Nat2N.inj_succ, N.pow_succ_r' in Hx.
    apply (halves (fun y => f y = true) x _ Hx); [exact (IH _ H0) | exact (IH _ H1)].
Qed.

(* untrusted, for search only *)
Fixpoint find_bits (w : nat) (f : N -> bool) : option N :=
  match w with
  | O => if f 0 then None else Some 0
  | S w' => match find_bits w' (fun x => f (N.double x)) with
            | Some x => Some (N.double x)
            | None => match find_bits w' (fun x => f (N.succ_double x)) with
                      | Some x => Some (N.succ_double x)
                      | None => None
                      end
            end
  end.

(* the input alphabet of R obligations *)
Fixpoint range_bits (w : nat) : list N :=
  match w with
  | O => [0]
  | S w' => let l := range_bits w' in map N.double l ++ map N.succ_double l
  end.

Lemma range_bits_complete : forall w x, x < 2 ^ N.of_nat w -> In x (range_bits w).
Proof.
  induction w as [|w IH]; intros x Hx.
  - simpl in *. left. lia.
  - rewrite Nat2N.inj_succ, N.pow_succ_r' in Hx. simpl. apply in_or_app.
    apply (halves (fun y => In y _ \/ In y _) x _ Hx); intros k Hk; [left | right];
      apply in_map, IH, Hk.
Qed.

Lemma Forall_range_bits : forall w tr, Forall (fun i => i < 2 ^ N.of_nat w) tr ->
  Forall (fun i => In i (range_bits w)) tr.
Proof. intros w tr H. eapply Forall_impl; [|exact H]. intros a Ha. apply range_bits_complete; exact Ha. Qed.

(* Certified reachability.  A monitor observes (input, output) of every cycle:
     mon m i o = None            the environment assumption is broken by input i in monitor state m
               = Some (m', ok)   otherwise; ok = false is a property violation.
   `closed L` checks that the list L of (machine state, monitor state) pairs is closed under every input
   of the alphabet without a violation; then no trace over the alphabet from a listed pair has one. *)
Section Reach.
  Variable step : N -> N -> N * N.
  Variable mon : N -> N -> N -> option (N * bool).
  Variable alphabet : list N.

  Fixpoint check_trace (s m : N) (tr : list N) : bool :=
    match tr with
    | [] => true
    | i :: t =>
        let (s', o) := step s i in
        match mon m i o with
        | None => true
        | Some (m', ok) => ok && check_trace s' m' t
        end
    end.

  Definition pset := PositiveMap.t PositiveSet.t.
  Definition pempty : pset := PositiveMap.empty _.
  Definition pmem (s m : N) (R : pset) : bool :=
    match PositiveMap.find (N.succ_pos s) R with
    | Some t => PositiveSet.mem (N.succ_pos m) t
    | None => false
    end.
  Definition padd (s m : N) (R : pset) : pset :=
    let t := match PositiveMap.find (N.succ_pos s) R with Some t => t | None => PositiveSet.empty end in
    PositiveMap.add (N.succ_pos s) (PositiveSet.add (N.succ_pos m) t) R.
  Definition of_list (L : list (N * N)) : pset :=
    fold_left (fun R p => padd (fst p) (snd p) R) L pempty.

  Lemma succ_pos_inj : forall a b, N.succ_pos a = N.succ_pos b -> a = b.
  Proof. intros a b H. apply N.succ_inj. rewrite <- !N.succ_pos_spec. rewrite H. reflexivity. Qed.

  Lemma pmem_padd : forall s m s2 m2 R, pmem s m (padd s2 m2 R) = true ->
    (s = s2 /\ m = m2) \/ pmem s m R = true.
  Proof.
    intros s m s2 m2 R. unfold pmem, padd.
    destruct (Pos.eq_dec (N.succ_pos s) (N.succ_pos s2)) as [E|NE].
    - rewrite E, PositiveMap.gss. intro H. apply PositiveSet.mem_2 in H.
      apply PositiveSet.add_spec in H. destruct H as [H|H].
      + left. split; apply succ_pos_inj; [assumption | symmetry; assumption].
      + right. destruct (PositiveMap.find (N.succ_pos s2) R).
        * apply PositiveSet.mem_1. exact H.
        * exfalso. exact (PositiveSet.empty_1 H).
    - rewrite PositiveMap.gso by exact NE. intro H. right. exact H.
  Qed.

  Lemma pmem_fold : forall L R0 s m,
    pmem s m (fold_left (fun R p => padd (fst p) (snd p) R) L R0) = true ->
    In (s, m) L \/ pmem s m R0 = true.
  Proof.
    induction L as [|[s2 m2] L IH]; intros R0 s m H; simpl in *.
    - right. exact H.
    - apply IH in H. destruct H as [H|H]; [left; right; exact H|].
      apply pmem_padd in H. destruct H as [[-> ->]|H]; [left; left; reflexivity | right; exact H].
  Qed.

  Lemma pmem_of_list : forall L s m, pmem s m (of_list L) = true -> In (s, m) L.
  Proof.
    intros L s m H. apply pmem_fold in H. destruct H as [H|H]; [exact H|].
    unfold pmem, pempty in H. rewrite PositiveMap.gempty in H. discriminate.
  Qed.

  Definition closed_at (R : pset) (p : N * N) : bool :=
    forallb (fun i =>
      let (s', o) := step (fst p) i in
      match mon (snd p) i o with
      | None => true
      | Some (m', ok) => ok && pmem s' m' R
      end) alphabet.

  Definition closed (L : list (N * N)) : bool :=
    let R := of_list L in forallb (closed_at R) L.

  Theorem closed_sound : forall L, closed L = true ->
    forall tr s m, In (s, m) L -> Forall (fun i => In i alphabet) tr -> check_trace s m tr = true.
  Proof.
    intros L HC. unfold closed in HC. rewrite forallb_forall in HC.
    induction tr as [|i t IH]; intros s m Hin Hall; simpl; [reflexivity|].
    inversion Hall as [|? ? Hi Ht]; subst.
    specialize (HC _ Hin). unfold closed_at in HC. rewrite forallb_forall in HC.
    specialize (HC _ Hi). simpl in HC.
    destruct (step s i) as [s' o]. destruct (mon m i o) as [[m' ok]|]; [|reflexivity].
    apply andb_true_iff in HC as [Hok Hmem]. rewrite Hok. simpl.
    apply IH; [apply pmem_of_list; exact Hmem | exact Ht].
  Qed.

  (* untrusted search, with counterexample paths *)
  Record bfs_state := { seen : pset; allst : list (N * N); front : list (N * N * list N);
                        cex : option (list N) }.

  Definition visit1 (s m : N) (path : list N) (acc : bfs_state) (i : N) : bfs_state :=
    match cex acc with
    | Some _ => acc
    | None =>
      let (s', o) := step s i in
      match mon m i o with
      | None => acc
      | Some (m', ok) =>
          if negb ok then {| seen := seen acc; allst := allst acc; front := front acc;
                             cex := Some (rev (i :: path)) |}
          else if pmem s' m' (seen acc) then acc
          else {| seen := padd s' m' (seen acc); allst := (s', m') :: allst acc;
                  front := (s', m', i :: path) :: front acc; cex := None |}
      end
    end.

  Definition level (st : bfs_state) : bfs_state :=
    fold_left (fun acc it => match it with (s, m, path) => fold_left (visit1 s m path) alphabet acc end)
              (front st)
              {| seen := seen st; allst := allst st; front := []; cex := cex st |}.

  Fixpoint bfs (fuel : nat) (st : bfs_state) : bfs_state :=
    match fuel with
    | O => st
    | S f => match front st, cex st with
             | [], _ => st
             | _, Some _ => st
             | _, None => bfs f (level st)
             end
    end.

  Definition bfs_init (s m : N) : bfs_state :=
    {| seen := padd s m pempty; allst := [(s, m)]; front := [(s, m, [])]; cex := None |}.

  Definition explore (fuel : nat) (s m : N) : bfs_state := bfs fuel (bfs_init s m).
End Reach.

(* Lock-step comparison of a generated machine with an N-packed model machine, under an environment
   assumption that may depend on the model's state: the monitor accepts a cycle iff the outputs agree. *)
Section Lockstep.
  Variable step mstep : N -> N -> N * N.
  Variable env : N -> N -> bool.

  Definition lock_mon (m i o : N) : option (N * bool) :=
    if env m i then let (m', o') := mstep m i in Some (m', N.eqb o o') else None.

  Fixpoint env_trace (m : N) (tr : list N) : bool :=
    match tr with
    | [] => true
    | i :: t => env m i && env_trace (fst (mstep m i)) t
    end.

  Lemma lockstep_run : forall tr s m,
    check_trace step lock_mon s m tr = true -> env_trace m tr = true ->
    run step s tr = run mstep m tr.
  Proof.
    induction tr as [|i t IH]; intros s m HC HE; simpl in *; [reflexivity|].
    apply andb_true_iff in HE as [He Ht]. unfold lock_mon in HC. rewrite He in HC.
    destruct (step s i) as [s' o]. destruct (mstep m i) as [m' o'] eqn:Em. simpl in *.
    apply andb_true_iff in HC as [Ho Hc]. apply N.eqb_eq in Ho. subst o'.
    f_equal. apply IH; assumption.
  Qed.
End Lockstep.

Section PackedModel.
  Variables (St : Type) (mstep : St -> N -> St * N) (enc : St -> N) (dec : N -> St) (wf : St -> Prop).
  Hypothesis dec_enc : forall s, wf s -> dec (enc s) = s.
  Hypothesis wf_step : forall s i, wf s -> wf (fst (mstep s i)).

  Definition mstepN (m i : N) : N * N := let (s', o) := mstep (dec m) i in (enc s', o).

  Lemma run_mstepN : forall tr s, wf s -> run mstepN (enc s) tr = run mstep s tr.
  Proof.
    induction tr as [|i t IH]; intros s Hs; simpl; [reflexivity|].
    unfold mstepN at 1. rewrite (dec_enc s Hs).
    pose proof (wf_step s i Hs) as Hw. destruct (mstep s i) as [s' o]. simpl in *.
    rewrite IH by exact Hw. reflexivity.
  Qed.
End PackedModel.

Section RLockstep.
  Variable step : N -> N -> N * N.
  Variables (St : Type) (mstep : St -> N -> St * N) (enc : St -> N) (dec : N -> St) (wf : St -> Prop).
  Variable env : St -> N -> bool.
  Hypothesis dec_enc : forall s, wf s -> dec (enc s) = s.
  Hypothesis wf_step : forall s i, wf s -> wf (fst (mstep s i)).
  Variable alphabet : list N.

  Definition envN (m i : N) : bool := env (dec m) i.
  Definition rl_mon := lock_mon (mstepN St mstep enc dec) envN.

  (* env holds in every cycle of the run of mstep from s.  It depends on St, mstep and env alone (env_trace is the same
     fixpoint at St = N): sim_run and the theorems of C02, C03, C09, C12, C27 state their environment with it, St
     explicit as the section leaves it: env_ok St mstep env s tr *)
  Fixpoint env_ok (s : St) (tr : list N) : bool :=
    match tr with
    | [] => true
    | i :: t => env s i && env_ok (fst (mstep s i)) t
    end.

  Lemma env_trace_packed : forall tr s, wf s -> env_ok s tr = true ->
    env_trace (mstepN St mstep enc dec) envN (enc s) tr = true.
  Proof.
    induction tr as [|i t IH]; intros s Hs HE; simpl in *; [reflexivity|].
    apply andb_true_iff in HE as [He Ht]. unfold envN at 1. rewrite (dec_enc s Hs), He. simpl.
    unfold mstepN. rewrite (dec_enc s Hs). pose proof (wf_step s i Hs) as Hw.
    destruct (mstep s i) as [s' o]. simpl in *. apply IH; assumption.
  Qed.

  Theorem R_lockstep : forall L s0 m0,
    closed step rl_mon alphabet L = true ->
    pmem s0 (enc m0) (of_list L) = true -> wf m0 ->
    forall tr, Forall (fun i => In i alphabet) tr -> env_ok m0 tr = true ->
    run step s0 tr = run mstep m0 tr.
  Proof.
    intros L s0 m0 HC Hin Hwf tr Hall Henv.
    rewrite <- (run_mstepN St mstep enc dec wf dec_enc wf_step tr m0 Hwf).
    apply (lockstep_run step (mstepN St mstep enc dec) envN).
    - apply (closed_sound step rl_mon alphabet L HC); [apply pmem_of_list; exact Hin | exact Hall].
    - apply env_trace_packed; assumption.
  Qed.
End RLockstep.

Lemma env_ok_true : forall St (mstep : St -> N -> St * N) tr s, env_ok St mstep (fun _ _ => true) s tr = true.
Proof. induction tr as [|i t IH]; intros; simpl; [reflexivity | apply IH]. Qed.

Lemma fst_let_pair : forall {A B C : Type} (p : A * B) (f : B -> C), fst (let (a, b) := p in (a, f b)) = fst p.
Proof. intros A B C [a b] f. reflexivity. Qed.

Section Sim.
  Context {A B : Type}.
  Variables (stepA : A -> N -> A * N) (stepB : B -> N -> B * N) (R : A -> B -> Prop).

  Lemma sim_run : forall env : B -> N -> bool,
    (forall a b i, R a b -> env b i = true ->
       R (fst (stepA a i)) (fst (stepB b i)) /\ snd (stepA a i) = snd (stepB b i)) ->
    forall tr a b, R a b -> env_ok B stepB env b tr = true -> run stepA a tr = run stepB b tr.
  Proof.
    intros env Hstep. induction tr as [|i t IH]; intros a b HR HE; [reflexivity|].
    cbn [env_ok] in HE. apply andb_true_iff in HE as [HE1 HE2].
    destruct (Hstep a b i HR HE1) as [Hn Ho]. rewrite !run_cons, Ho, (IH _ _ Hn HE2). reflexivity.
  Qed.

  Corollary sim_run_all :
    (forall a b i, R a b -> R (fst (stepA a i)) (fst (stepB b i)) /\ snd (stepA a i) = snd (stepB b i)) ->
    forall tr a b, R a b -> run stepA a tr = run stepB b tr.
  Proof.
    intros Hstep tr a b HR. apply (sim_run (fun _ _ => true)); [auto | exact HR | apply env_ok_true].
  Qed.
End Sim.

(* monitor evaluated over a recorded (input, output) trace of the implementation:
   None = accepted, Some k = first violated cycle *)
Section CheckIO.
  Variable mon : N -> N -> N -> option (N * bool).
  Fixpoint first_bad (k : N) (m : N) (ios : list (N * N)) : option N :=
    match ios with
    | [] => None
    | (i, o) :: t => match mon m i o with
                     | None => None
                     | Some (m', ok) => if ok then first_bad (N.succ k) m' t else Some k
                     end
    end.
  Definition bad_code (m : N) (ios : list (N * N)) : N :=
    match first_bad 0 m ios with None => 0 | Some k => N.succ k end.
End CheckIO.

(* correspondence of a typed hand model with recorded implementation traces:
   code 0 = equal on the whole trace, k+1 = first differing cycle k (outputs compared after `norm`) *)
Section Corr.
  Context {St : Type}.
  Variable mstep : St -> N -> St * N.
  Variable norm : N -> N.
  Fixpoint diff_at (k : N) (m : St) (ins outs : list N) : N :=
    match ins, outs with
    | i :: ti, o :: to =>
        let (m', o') := mstep m i in
        if N.eqb (norm o) (norm o') then diff_at (N.succ k) m' ti to else N.succ k
    | [], [] => 0
    | _, _ => N.succ k
    end.
  Definition corr_codes (m0 : St) (tin tout : list (list N)) : list N :=
    map (fun p => diff_at 0 m0 (fst p) (snd p)) (combine tin tout).
End Corr.
