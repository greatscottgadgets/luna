(* Semantics of the NIR cell kinds printed by tools/nir2coq.py, over N bit-vectors with explicit widths.
   Everything here is an ordinary total Gallina function; the generated files contain nothing but
   calls to these helpers (plus N.land/N.lor/N.lxor/N.shiftl/N.shiftr, + and *; no `match`, see `sel`). *)
From Coq Require Import NArith ZArith List Bool.
Import ListNotations.
Open Scope N_scope.

Definition bits (x lo w : N) : N := N.land (N.shiftr x lo) (N.ones w).
Definition trunc (w x : N) : N := N.land x (N.ones w).
Definition b2n (b : bool) : N := if b then 1 else 0.
(* selection by a 1-bit condition, as a function: generated code contains no `match` at all
   (a `match` inside a long `let` chain makes Coq's elaboration quadratic) *)
Definition sel (c a b : N) : N := match c with 0 => b | _ => a end.
Definition setbits (x lo w v : N) : N :=
  N.lor (N.ldiff x (N.shiftl (N.ones w) lo)) (N.shiftl (trunc w v) lo).

Definition op_not (w a : N) : N := N.lxor a (N.ones w).
Definition op_neg (w a : N) : N := trunc w (N.shiftl 1 w - trunc w a).
Definition op_bool (a : N) : N := match a with 0 => 0 | _ => 1 end.
Definition op_rand (w a : N) : N := b2n (N.eqb a (N.ones w)).
Fixpoint parity_pos (p : positive) : bool :=
  match p with xH => true | xO q => parity_pos q | xI q => negb (parity_pos q) end.
Definition op_rxor (a : N) : N := match a with 0 => 0 | Npos p => b2n (parity_pos p) end.

Definition op_eq (a b : N) : N := b2n (N.eqb a b).
Definition op_ne (a b : N) : N := b2n (negb (N.eqb a b)).
Definition op_ult (a b : N) : N := b2n (N.ltb a b).
Definition op_ule (a b : N) : N := b2n (N.leb a b).
Definition op_ugt (a b : N) : N := b2n (N.ltb b a).
Definition op_uge (a b : N) : N := b2n (N.leb b a).
Definition op_add (w a b : N) : N := trunc w (a + b).
Definition op_sub (w a b : N) : N := trunc w (a + N.shiftl 1 w - b).
Definition op_mul (w a b : N) : N := trunc w (a * b).
Definition op_shl (w a b : N) : N := trunc w (N.shiftl a b).

Definition sgn (w a : N) : Z :=
  if N.testbit a (w - 1) then (Z.of_N a - Z.of_N (N.shiftl 1 w))%Z else Z.of_N a.
Definition op_slt (w a b : N) : N := b2n (Z.ltb (sgn w a) (sgn w b)).
Definition op_sle (w a b : N) : N := b2n (Z.leb (sgn w a) (sgn w b)).
Definition op_sgt (w a b : N) : N := b2n (Z.ltb (sgn w b) (sgn w a)).
Definition op_sge (w a b : N) : N := b2n (Z.leb (sgn w b) (sgn w a)).

(* Matches: value matches any (mask, value) pattern *)
Definition op_matches (v : N) (pats : list (N * N)) : N :=
  b2n (existsb (fun p => N.eqb (N.land v (fst p)) (snd p)) pats).

(* PriorityMatch: all-zero when disabled, else the lowest set bit of the input *)
Fixpoint lowbit_pos (p : positive) : positive :=
  match p with xH => xH | xI _ => xH | xO q => xO (lowbit_pos q) end.
Definition op_pmatch (en x : N) : N :=
  match en with 0 => 0 | _ => match x with 0 => 0 | Npos p => Npos (lowbit_pos p) end end.

(* Part: width bits of value starting at offset*stride *)
Definition op_part (v off stride w : N) : N := bits v (off * stride) w.

(* Memories: contents packed little-endian by address into one N *)
Definition mem_read (m w depth addr : N) : N :=
  if N.ltb addr depth then bits m (addr * w) w else 0.
(* write port with `g` enable bits, each covering w/g data bits *)
Fixpoint en_mask (g : nat) (en gran : N) (k : N) : N :=
  match g with
  | O => 0
  | S g' => N.lor (if N.testbit en k then N.shiftl (N.ones gran) (k * gran) else 0)
                  (en_mask g' en gran (N.succ k))
  end.
Definition mem_write (m w depth addr en g data : N) : N :=
  match en with
  | 0 => m
  | _ => if N.ltb addr depth then
           let mask := en_mask (N.to_nat g) en (w / g) 0 in
           let old := bits m (addr * w) w in
           let new := N.lor (N.ldiff old mask) (N.land (trunc w data) mask) in
           setbits m (addr * w) w new
         else m
  end.
(* transparent read: bits being written to the same address this cycle are forwarded *)
Definition mem_transparent (rd w raddr waddr en g data : N) : N :=
  if N.eqb raddr waddr then
    let mask := en_mask (N.to_nat g) en (w / g) 0 in
    N.lor (N.ldiff rd mask) (N.land (trunc w data) mask)
  else rd.
