(* USB3 (SuperSpeed) symbol words, shared by the models of the "ss"-domain blocks (C32, C34, C35).
   A symbol is one 8b/10b character as LUNA carries it: a data byte plus one control (K) flag,
   here the 9-bit number  data + 256 * ctrl.  A stream word carries w symbols (LUNA: w = 4):
   `data` holds the bytes little-endian (symbol 0 = bits 7..0), `ctrl` the flags (symbol 0 = bit 0).
   Also: typed Mealy runs (`trun`) and their relation to the packed runs of Machine.v. *)
From Coq Require Import NArith List Lia.
Import ListNotations.
From LunaLib Require Import Netlist Machine.
From LunaLib Require Export BitFacts.
Open Scope N_scope.

Definition sym_ok (s : N) : Prop := s < 512.
Definition mk_sym (d c : N) : N := d mod 256 + 256 * (c mod 2).
Definition sym_data (s : N) : N := s mod 256.
Definition sym_ctrl (s : N) : N := (s / 256) mod 2.

(* K-symbols used by the models (luna/gateware/usb/usb3/physical/coding.py) *)
Definition SKP : N := 256 + 60.    (* K28.1 = 0x3C *)
Definition COM : N := 256 + 188.   (* K28.5 = 0xBC *)
Definition SHP : N := 256 + 251.   (* K27.7 = 0xFB *)
Definition SLC : N := 256 + 254.   (* K30.7 = 0xFE *)
Definition EPF : N := 256 + 247.   (* K23.7 = 0xF7 *)

Fixpoint syms_of (w : nat) (data ctrl : N) : list N :=
  match w with
  | O => []
  | S w' => mk_sym data ctrl :: syms_of w' (data / 256) (ctrl / 2)
  end.

Fixpoint data_of (l : list N) : N :=
  match l with [] => 0 | s :: t => sym_data s + 256 * data_of t end.
Fixpoint ctrl_of (l : list N) : N :=
  match l with [] => 0 | s :: t => sym_ctrl s + 2 * ctrl_of t end.

Lemma sym_data_lt : forall s, sym_data s < 256.
Proof. intro s. apply N.mod_lt. discriminate. Qed.

Lemma sym_ctrl_lt : forall s, sym_ctrl s < 2.
Proof. intro s. apply N.mod_lt. discriminate. Qed.

Lemma mk_sym_ok : forall d c, sym_ok (mk_sym d c).
Proof.
  intros. unfold sym_ok, mk_sym. pose proof (N.mod_lt d 256). pose proof (N.mod_lt c 2). lia.
Qed.

Lemma sym_split : forall s, sym_ok s -> sym_data s + 256 * sym_ctrl s = s.
Proof.
  intros s H. unfold sym_data, sym_ctrl.
  rewrite (N.mod_small (s / 256) 2) by (apply N.div_lt_upper_bound; [discriminate | exact H]).
  symmetry. rewrite N.add_comm. apply N.div_mod. discriminate.
Qed.

Lemma mk_sym_data_ctrl : forall s, sym_ok s -> mk_sym (sym_data s) (sym_ctrl s) = s.
Proof.
  intros s H. unfold mk_sym. rewrite (N.mod_small _ _ (sym_data_lt s)), (N.mod_small _ _ (sym_ctrl_lt s)).
  apply sym_split. exact H.
Qed.

Lemma syms_of_length : forall w d c, length (syms_of w d c) = w.
Proof. induction w; intros; simpl; [reflexivity | rewrite IHw; reflexivity]. Qed.

Lemma syms_of_ok : forall w d c, Forall sym_ok (syms_of w d c).
Proof. induction w; intros; simpl; constructor; [apply mk_sym_ok | apply IHw]. Qed.

Lemma syms_of_data_ctrl : forall l, Forall sym_ok l ->
  syms_of (length l) (data_of l) (ctrl_of l) = l.
Proof.
  induction l as [|s t IH]; intros H; [reflexivity|].
  inversion H as [|? ? Hs Ht]; subst. cbn [length syms_of data_of ctrl_of].
  rewrite !digit_div by (apply sym_data_lt || apply sym_ctrl_lt). rewrite (IH Ht). f_equal.
  unfold mk_sym. rewrite !digit_mod by (apply sym_data_lt || apply sym_ctrl_lt).
  apply sym_split. exact Hs.
Qed.

Lemma data_of_bound : forall l, data_of l < 2 ^ (8 * N.of_nat (length l)).
Proof.
  induction l as [|s t IH]; [reflexivity|]. cbn [length data_of].
  replace (8 * N.of_nat (S (length t))) with (8 + 8 * N.of_nat (length t)) by lia.
  rewrite N.pow_add_r. change (2 ^ 8) with 256. pose proof (sym_data_lt s). lia.
Qed.

Lemma ctrl_of_bound : forall l, ctrl_of l < 2 ^ N.of_nat (length l).
Proof.
  induction l as [|s t IH]; [reflexivity|]. cbn [length ctrl_of].
  rewrite Nat2N.inj_succ, N.pow_succ_r'. pose proof (sym_ctrl_lt s). lia.
Qed.

(* lists of symbols packed 9 bits each (model state <-> N for lock-step obligations);
   shifts and masks rather than div/mod so that vm_compute stays fast on wide states *)
Fixpoint pack9 (l : list N) : N := match l with [] => 0 | s :: t => N.lor s (N.shiftl (pack9 t) 9) end.
Fixpoint unpack9 (w : nat) (x : N) : list N :=
  match w with O => [] | S w' => N.land x 511 :: unpack9 w' (N.shiftr x 9) end.

Lemma unpack9_pack9 : forall l, Forall sym_ok l -> unpack9 (length l) (pack9 l) = l.
Proof.
  induction l as [|s t IH]; intros H; [reflexivity|].
  inversion H as [|? ? Hs Ht]; subst. cbn [length unpack9 pack9].
  change 511 with (N.ones 9). rewrite (lor_low s _ 9 Hs), (lor_high s _ 9 Hs), (IH Ht). reflexivity.
Qed.

Lemma unpack9_length : forall w x, length (unpack9 w x) = w.
Proof. induction w; intros; simpl; [reflexivity | rewrite IHw; reflexivity]. Qed.

Lemma unpack9_ok : forall w x, Forall sym_ok (unpack9 w x).
Proof. induction w; intros; simpl; constructor; [apply (trunc_lt 9) | apply IHw]. Qed.

Section TRun.
  Context {S I O : Type}.
  Variable step : S -> I -> S * O.

  Fixpoint trun (st : S) (ins : list I) : list O :=
    match ins with
    | [] => []
    | i :: t => let (s', o) := step st i in o :: trun s' t
    end.

  Fixpoint tstate (st : S) (ins : list I) : S :=
    match ins with
    | [] => st
    | i :: t => tstate (fst (step st i)) t
    end.

  Lemma trun_length : forall ins st, length (trun st ins) = length ins.
  Proof.
    induction ins as [|i t IH]; intros st; simpl; [reflexivity|].
    destruct (step st i); simpl; rewrite IH; reflexivity.
  Qed.

  Lemma trun_app : forall a b st, trun st (a ++ b) = trun st a ++ trun (tstate st a) b.
  Proof.
    induction a as [|i t IH]; intros b st; simpl; [reflexivity|].
    destruct (step st i) as [s' o]; simpl. rewrite IH. reflexivity.
  Qed.

  Lemma tstate_app : forall a b st, tstate st (a ++ b) = tstate (tstate st a) b.
  Proof. induction a as [|i t IH]; intros b st; simpl; [reflexivity|]. apply IH. Qed.

  Lemma trun_hold : forall st o ins, Forall (fun i => step st i = (st, o)) ins ->
    trun st ins = repeat o (length ins) /\ tstate st ins = st.
  Proof.
    induction ins as [|i t IH]; intro H; [split; reflexivity|].
    inversion H as [|? ? Hi Ht]; subst. cbn [trun tstate length repeat]. rewrite Hi. cbn [fst].
    destruct (IH Ht) as [E1 E2]. rewrite E1, E2. split; reflexivity.
  Qed.
End TRun.

Lemma run_packed : forall {S I O : Type} (step : S -> I -> S * O) (din : N -> I) (eout : O -> N) tr st,
  run (fun s i => let (s', o) := step s (din i) in (s', eout o)) st tr
  = map eout (trun step st (map din tr)).
Proof.
  induction tr as [|i t IH]; intros st; [reflexivity|]. cbn [run map trun].
  destruct (step st (din i)) as [s' o]. cbn [map]. rewrite IH. reflexivity.
Qed.

Lemma run_map_out : forall {S : Type} (step : S -> N -> S * N) (f : N -> N) tr st,
  run (fun s i => let (s', o) := step s i in (s', f o)) st tr = map f (run step st tr).
Proof.
  intros S step f tr st. pose proof (run_packed step (fun i => i) f tr st) as H. rewrite map_id in H. exact H.
Qed.
