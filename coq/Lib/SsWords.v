(* The bit-field facts of BitFacts.v under the name the SuperSpeed models and their ties import, and the
   injectivity of b2n. *)
From Coq Require Import NArith.
From LunaLib Require Import Netlist.
From LunaLib Require Export BitFacts.
Open Scope N_scope.

Lemma b2n_inj : forall a b, b2n a = b2n b -> a = b.
Proof. destruct a, b; simpl; intros; (reflexivity || discriminate). Qed.
