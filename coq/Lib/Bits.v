(* Conversions between N and little-endian bit lists (bits2N / N2bits), for the hand models that keep a
   register as a list of bits (CRC, scrambler, shift registers): N2bits after bits2N is the identity, the
   bound of bits2N, N2bits of a sum of widths, N2bits as the list of the number's low bits (N2bits_testbit) and
   hence of two numbers that agree on them. *)
From Coq Require Import NArith List Lia.
Import ListNotations.
Open Scope N_scope.

Fixpoint bits2N (l : list bool) : N :=
  match l with
  | [] => 0
  | b :: t => (if b then 1 else 0) + 2 * bits2N t
  end.

Fixpoint N2bits (w : nat) (x : N) : list bool :=
  match w with
  | O => []
  | S w' => N.odd x :: N2bits w' (N.div2 x)
  end.

Lemma N2bits_length : forall w x, length (N2bits w x) = w.
Proof. induction w; intros; simpl; [reflexivity | rewrite IHw; reflexivity]. Qed.

Lemma odd_bits2N : forall b t, N.odd (bits2N (b :: t)) = b.
Proof. intros b t. cbn [bits2N]. rewrite N.odd_add_mul_2. destruct b; reflexivity. Qed.

Lemma div2_bits2N : forall b t, N.div2 (bits2N (b :: t)) = bits2N t.
Proof.
  intros b t. cbn [bits2N]. rewrite N.div2_div, (N.mul_comm 2), N.div_add by discriminate.
  destruct b; reflexivity.
Qed.

Lemma N2bits_bits2N : forall l, N2bits (length l) (bits2N l) = l.
Proof.
  induction l as [|b t IH]; [reflexivity|]. cbn [length N2bits].
  rewrite odd_bits2N, div2_bits2N, IH. reflexivity.
Qed.

Lemma bits2N_bound : forall l, bits2N l < 2 ^ N.of_nat (length l).
Proof.
  induction l as [|b t IH]; [simpl; lia|].
  cbn [length bits2N]. rewrite Nat2N.inj_succ, N.pow_succ_r'. destruct b; lia.
Qed.

(* the same two with the length given by an equation *)
Lemma bits2N_lt_len : forall l n, length l = n -> bits2N l < 2 ^ N.of_nat n.
Proof. intros l n <-. apply bits2N_bound. Qed.

Lemma N2bits_bits2N_len : forall l n, length l = n -> N2bits n (bits2N l) = l.
Proof. intros l n <-. apply N2bits_bits2N. Qed.

Lemma N2bits_app : forall a b x, N2bits (a + b) x = N2bits a x ++ N2bits b (N.shiftr x (N.of_nat a)).
Proof.
  induction a as [|a IH]; intros b x; [reflexivity|].
  cbn [plus N2bits app]. rewrite IH. f_equal. f_equal.
  rewrite Nat2N.inj_succ, <- N.add_1_l, <- N.shiftr_shiftr. f_equal.
Qed.

Lemma N2bits_testbit : forall w x, N2bits w x = map (fun i => N.testbit x (N.of_nat i)) (seq 0 w).
Proof.
  induction w as [|w IH]; intro x; [reflexivity|]. cbn [N2bits seq map]. rewrite <- N.bit0_odd, IH, <- seq_shift, map_map.
  f_equal. apply map_ext. intro i. rewrite N.div2_spec, N.shiftr_spec', Nat2N.inj_succ, N.add_1_r. reflexivity.
Qed.

Lemma N2bits_ext : forall n x y, (forall i, i < N.of_nat n -> N.testbit x i = N.testbit y i) ->
  N2bits n x = N2bits n y.
Proof.
  intros n x y H. rewrite !N2bits_testbit. apply map_ext_in. intros i Hi. apply in_seq in Hi. apply H. lia.
Qed.

(* a register kept most significant bit first is packed as bits2N (rev l) *)
Lemma bits2N_rev_lt : forall l n, length l = n -> bits2N (rev l) < 2 ^ N.of_nat n.
Proof. intros l n H. apply bits2N_lt_len. rewrite rev_length. exact H. Qed.

Lemma rev_N2bits_bits2N_rev : forall l n, length l = n -> rev (N2bits n (bits2N (rev l))) = l.
Proof. intros l n H. rewrite N2bits_bits2N_len by (rewrite rev_length; exact H). apply rev_involutive. Qed.
