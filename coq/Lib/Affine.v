(* Affine reflection over GF(2): terms built from variables, constants, xor and not are normalised
   to (coefficient vector, constant).  Used to prove that the parallel CRC / LFSR equations printed
   from LUNA's source equal the bit-serial reference for ALL inputs (2^11 .. 2^64 points) at once
   (affine_reflect).  Section Serial is that reference; section Hom moves its runs along a homomorphism of
   xor-algebras, which is how the symbolic run (over aff) is related to the boolean one. *)
From Coq Require Import List Bool Arith Lia.
Import ListNotations.

Inductive xt := V (i : nat) | K (b : bool) | X (a b : xt) | Nt (a : xt).

Fixpoint ev (env : nat -> bool) (t : xt) : bool :=
  match t with
  | V i => env i
  | K b => b
  | X a b => xorb (ev env a) (ev env b)
  | Nt a => negb (ev env a)
  end.

Definition aff := (list bool * bool)%type.

Fixpoint xorl (a b : list bool) : list bool :=
  match a, b with
  | x :: a', y :: b' => xorb x y :: xorl a' b'
  | [], _ => b
  | _, [] => a
  end.

Fixpoint unitv (len i : nat) : list bool :=
  match len with
  | 0 => []
  | S l => match i with 0 => true :: repeat false l | S i' => false :: unitv l i' end
  end.

Section Aff.
  Variable n : nat.   (* number of variables *)

  Definition axor (a b : aff) : aff := (xorl (fst a) (fst b), xorb (snd a) (snd b)).
  Definition aconst (b : bool) : aff := (repeat false n, b).
  Definition avar (i : nat) : aff := (unitv n i, false).
  Definition anot (a : aff) : aff := (fst a, negb (snd a)).

  Fixpoint nf (t : xt) : aff :=
    match t with
    | V i => avar i
    | K b => aconst b
    | X a b => axor (nf a) (nf b)
    | Nt a => anot (nf a)
    end.

  Fixpoint evm (env : nat -> bool) (k : nat) (m : list bool) : bool :=
    match m with [] => false | x :: m' => xorb (x && env k) (evm env (S k) m') end.
  Definition eva (env : nat -> bool) (a : aff) : bool := xorb (evm env 0 (fst a)) (snd a).

  Lemma evm_xorl : forall a b env k, evm env k (xorl a b) = xorb (evm env k a) (evm env k b).
  Proof.
    induction a as [|x a IH]; intros [|y b] env k; simpl in *; auto.
    - destruct (xorb (y && env k) (evm env (S k) b)); reflexivity.
    - destruct (xorb (x && env k) (evm env (S k) a)); reflexivity.
    - rewrite IH. destruct x, y, (env k), (evm env (S k) a), (evm env (S k) b); reflexivity.
  Qed.

  Lemma evm_zero : forall l env k, evm env k (repeat false l) = false.
  Proof. induction l; intros; simpl; auto. rewrite IHl. reflexivity. Qed.

  Lemma evm_unit : forall len i env k, i < len -> evm env k (unitv len i) = env (k + i).
  Proof.
    induction len; intros i env k H; [lia|]. destruct i; simpl.
    - rewrite evm_zero. rewrite Nat.add_0_r. destruct (env k); reflexivity.
    - rewrite IHlen by lia. replace (S k + i) with (k + S i) by lia. destruct (env (k + S i)); reflexivity.
  Qed.

  Lemma eva_axor : forall env a b, eva env (axor a b) = xorb (eva env a) (eva env b).
  Proof.
    intros env [m1 c1] [m2 c2]. unfold eva, axor; simpl. rewrite evm_xorl.
    destruct (evm env 0 m1), (evm env 0 m2), c1, c2; reflexivity.
  Qed.
  Lemma eva_aconst : forall env b, eva env (aconst b) = b.
  Proof. intros. unfold eva, aconst; simpl. rewrite evm_zero. destruct b; reflexivity. Qed.
  Lemma eva_avar : forall env i, i < n -> eva env (avar i) = env i.
  Proof. intros. unfold eva, avar. cbn [fst snd]. rewrite evm_unit by auto. cbn [Nat.add].
         destruct (env i); reflexivity. Qed.
  Lemma eva_anot : forall env a, eva env (anot a) = negb (eva env a).
  Proof. intros env [m c]. unfold eva, anot; simpl. destruct (evm env 0 m), c; reflexivity. Qed.

  Fixpoint wf (t : xt) : bool :=
    match t with V i => i <? n | K _ => true | X a b => wf a && wf b | Nt a => wf a end.

  Lemma nf_sound : forall env t, wf t = true -> ev env t = eva env (nf t).
  Proof.
    induction t; simpl; intros H.
    - apply Nat.ltb_lt in H. rewrite eva_avar by auto. reflexivity.
    - rewrite eva_aconst. reflexivity.
    - apply andb_true_iff in H as [H1 H2]. rewrite eva_axor, IHt1, IHt2 by auto. reflexivity.
    - rewrite eva_anot, IHt by auto. reflexivity.
  Qed.

  Theorem affine_reflect : forall (g : list xt) (spec : list aff),
    forallb wf g = true -> map nf g = spec -> forall env, map (ev env) g = map (eva env) spec.
  Proof.
    intros g spec W E env. subst spec. rewrite map_map. apply map_ext_in. intros t Ht.
    apply nf_sound. rewrite forallb_forall in W. auto.
  Qed.

  Lemma map_eva_avar : forall env s l, s + l <= n -> map (eva env) (map avar (seq s l)) = map env (seq s l).
  Proof. intros env s l; revert s. induction l; intros; simpl; auto. rewrite eva_avar by lia.
         rewrite IHl by lia. reflexivity. Qed.
  Lemma map_eva_aconst : forall env l, map (eva env) (map aconst l) = l.
  Proof. induction l; simpl; auto. rewrite eva_aconst, IHl. reflexivity. Qed.
End Aff.

(* The bit-serial reference, generic in a xor-algebra T so that the same definition is the
   specification (T = bool) and its symbolic run (T = aff). *)
Section Serial.
  Variable T : Type.
  Variable tx : T -> T -> T.
  Variable tz : T.
  Variable tn : T -> T.

  Fixpoint zipp (p : list bool) (c : list T) (fb : T) : list T :=
    match p, c with
    | pb :: p', x :: c' => (if pb then tx x fb else x) :: zipp p' c' fb
    | _, _ => []
    end.

  (* one shift of an MSB-first CRC register (index 0 = least significant register bit):
     feedback = top register bit xor message bit; register shifts up; polynomial taps xor feedback *)
  Definition crc_shift (poly : list bool) (reg : list T) (b : T) : list T :=
    let fb := tx (last reg tz) b in zipp poly (tz :: removelast reg) fb.
  Definition crc_shifts (poly : list bool) (reg : list T) (bits : list T) : list T :=
    fold_left (crc_shift poly) bits reg.

  Lemma zipp_length : forall p c fb, length (zipp p c fb) = Nat.min (length p) (length c).
  Proof. induction p as [|pb p IH]; intros [|x c] fb; cbn [zipp length Nat.min]; auto. Qed.

  Lemma crc_shift_length : forall poly reg b, length reg = length poly ->
    length (crc_shift poly reg b) = length poly.
  Proof.
    intros poly reg b H. unfold crc_shift. rewrite zipp_length. cbn [length].
    rewrite removelast_firstn_len, firstn_length, H. lia.
  Qed.

  Definition crc_finish (reg : list T) : list T := map tn (rev reg).

  (* one shift of a Galois LFSR producing an output bit *)
  Definition lfsr_shift (taps : list bool) (st : list T * list T) : list T * list T :=
    let reg := fst st in
    let o := last reg tz in
    (zipp taps (tz :: removelast reg) o, snd st ++ [o]).
  Fixpoint lfsr_run (taps : list bool) (k : nat) (st : list T * list T) : list T * list T :=
    match k with 0 => st | S k' => lfsr_run taps k' (lfsr_shift taps st) end.
End Serial.

Section Hom.
  Variables (A B : Type) (ta : A -> A -> A) (za : A) (na : A -> A)
            (tb : B -> B -> B) (zb : B) (nb : B -> B) (h : A -> B).
  Hypothesis hx : forall x y, h (ta x y) = tb (h x) (h y).
  Hypothesis hz : h za = zb.
  Hypothesis hn : forall x, h (na x) = nb (h x).

  Lemma zipp_hom : forall p c fb, map h (zipp A ta p c fb) = zipp B tb p (map h c) (h fb).
  Proof. induction p; intros [|x c] fb; simpl; auto. rewrite IHp. destruct a; rewrite ?hx; reflexivity. Qed.
  Lemma last_hom : forall l, h (last l za) = last (map h l) zb.
  Proof. induction l as [|x [|y l] IH]; simpl in *; auto. Qed.
  Lemma removelast_hom : forall l, map h (removelast l) = removelast (map h l).
  Proof. induction l as [|x [|y l] IH]; simpl in *; auto. rewrite IH. reflexivity. Qed.
  Lemma crc_shift_hom : forall p r b,
    map h (crc_shift A ta za p r b) = crc_shift B tb zb p (map h r) (h b).
  Proof. intros. unfold crc_shift. rewrite zipp_hom. simpl.
         rewrite hx, last_hom, removelast_hom, hz. reflexivity. Qed.
  Lemma crc_shifts_hom : forall p bits r,
    map h (crc_shifts A ta za p r bits) = crc_shifts B tb zb p (map h r) (map h bits).
  Proof. induction bits; intros; simpl; auto. unfold crc_shifts in *. simpl.
         rewrite IHbits, crc_shift_hom. reflexivity. Qed.
  Lemma crc_finish_hom : forall r, map h (crc_finish A na r) = crc_finish B nb (map h r).
  Proof. intros. unfold crc_finish. rewrite <- map_rev. rewrite !map_map.
         apply map_ext. intros; apply hn. Qed.
  Lemma lfsr_shift_hom : forall taps st,
    (map h (fst (lfsr_shift A ta za taps st)), map h (snd (lfsr_shift A ta za taps st))) =
    lfsr_shift B tb zb taps (map h (fst st), map h (snd st)).
  Proof. intros taps [reg out]. unfold lfsr_shift. cbn [fst snd].
         rewrite zipp_hom, map_app. cbn [map]. rewrite !last_hom, removelast_hom, hz. reflexivity. Qed.
  Lemma lfsr_run_hom : forall taps k st,
    (map h (fst (lfsr_run A ta za taps k st)), map h (snd (lfsr_run A ta za taps k st))) =
    lfsr_run B tb zb taps k (map h (fst st), map h (snd st)).
  Proof. induction k; intros st; simpl; [reflexivity|]. rewrite IHk, lfsr_shift_hom. reflexivity. Qed.
End Hom.

(* untrusted diagnosis: where do two lists of affine forms differ?
   Some (output bit, 0)      the constant terms differ      -> the all-zero input distinguishes
   Some (output bit, S v)    the coefficient of variable v differs (constants equal) -> unit vector e_v does *)
Fixpoint list_diff (k : nat) (a b : list bool) : option nat :=
  match a, b with
  | x :: a', y :: b' => if Bool.eqb x y then list_diff (S k) a' b' else Some k
  | [], [] => None
  | _, _ => Some k
  end.
Fixpoint aff_diff (k : nat) (fs gs : list aff) : option (nat * nat) :=
  match fs, gs with
  | f :: fs', g :: gs' =>
      if Bool.eqb (snd f) (snd g) then
        match list_diff 0 (fst f) (fst g) with
        | Some v => Some (k, S v)
        | None => aff_diff (S k) fs' gs'
        end
      else Some (k, 0)
  | [], [] => None
  | _, _ => Some (k, 0)
  end.
