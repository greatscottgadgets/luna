(* Certified reachability with an environment filter that is evaluated BEFORE the machine is stepped.

   Machine.closed / Machine.explore evaluate `step s i` for every alphabet symbol and only then ask the
   monitor whether the environment admits the input.  When the environment assumption rejects most of
   the alphabet in most states (e.g. "requests only while idle") that wastes nearly all the work.
   Here a filter  pre : N -> N -> bool  on (monitor state, input) is consulted first; if every input
   rejected by `pre` is also rejected by the monitor (mon = None), closure under the filtered
   exploration implies Machine.closed, so Machine.closed_sound / R_lockstep apply unchanged. *)
From Coq Require Import NArith List Bool.
Import ListNotations.
From LunaLib Require Import ListFacts Machine.
Open Scope N_scope.

Section ReachPre.
  Variable step : N -> N -> N * N.
  Variable pre : N -> N -> bool.
  Variable mon : N -> N -> N -> option (N * bool).
  Variable alphabet : list N.

  Definition closed_at_pre (R : pset) (p : N * N) : bool :=
    forallb (fun i =>
      if pre (snd p) i then
        let (s', o) := step (fst p) i in
        match mon (snd p) i o with
        | None => true
        | Some (m', ok) => ok && pmem s' m' R
        end
      else true) alphabet.

  Definition closed_pre (L : list (N * N)) : bool :=
    let R := of_list L in forallb (closed_at_pre R) L.

  Hypothesis pre_sound : forall m i o, pre m i = false -> mon m i o = None.

  Theorem closed_pre_closed : forall L, closed_pre L = true -> closed step mon alphabet L = true.
  Proof.
    intros L. unfold closed_pre, closed. apply forallb_impl. intros p.
    unfold closed_at_pre, closed_at. apply forallb_impl. intros i H.
    destruct (pre (snd p) i) eqn:E; [exact H|].
    destruct (step (fst p) i) as [s' o]. rewrite (pre_sound _ _ o E). reflexivity.
  Qed.
End ReachPre.

(* untrusted search: Machine.explore with the filter in front *)
Section ExplorePre.
  Variable step : N -> N -> N * N.
  Variable pre : N -> N -> bool.
  Variable mon : N -> N -> N -> option (N * bool).
  Variable alphabet : list N.

  Definition visit1_pre (s m : N) (path : list N) (acc : bfs_state) (i : N) : bfs_state :=
    if pre m i then visit1 step mon s m path acc i else acc.

  Definition level_pre (st : bfs_state) : bfs_state :=
    fold_left (fun acc it => match it with (s, m, path) => fold_left (visit1_pre s m path) alphabet acc end)
              (front st)
              {| seen := seen st; allst := allst st; front := []; cex := cex st |}.

  Fixpoint bfs_pre (fuel : nat) (st : bfs_state) : bfs_state :=
    match fuel with
    | O => st
    | S f => match front st, cex st with
             | [], _ => st
             | _, Some _ => st
             | _, None => bfs_pre f (level_pre st)
             end
    end.

  Definition explore_pre (fuel : nat) (s m : N) : bfs_state := bfs_pre fuel (bfs_init s m).
End ExplorePre.

Lemma rl_mon_pre_sound : forall (St : Type) (mstep : St -> N -> St * N) (enc : St -> N) (dec : N -> St)
    (env : St -> N -> bool) m i o,
  envN St dec env m i = false -> rl_mon St mstep enc dec env m i o = None.
Proof. intros. unfold rl_mon, lock_mon. rewrite H. reflexivity. Qed.
