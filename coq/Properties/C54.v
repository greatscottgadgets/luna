(* C54 -- PHY reset controllers produce the configured pulses and always finish.
   For all reset/stop lengths r, s >= 1, every counter width w that can hold them, both power-on
   modes and every trigger history, the controller model (Model/PhyReset.v) is output-equivalent
   to the one-counter specification sp_step, in which (by its definition: no theorem says so, C54_example
   shows one run) after an accepted trigger (or power-on) phy_reset is high for exactly r cycles, phy_stop
   for exactly r+s cycles, then the machine is idle again. *)
From Coq Require Import NArith List Bool. Import ListNotations.
From LunaLib Require Import Machine.
From LunaModel Require Import PhyReset PhyReset_proofs.
Open Scope N_scope.

Theorem C54_phyreset_refines : forall r s w power_on, 1 <= r -> 1 <= s -> r <= 2 ^ w /\ s <= 2 ^ w ->
  forall tr, run (pr_step r s w) (pr_init power_on) tr = run (sp_step r s) (sp_init power_on) tr.
Proof. exact phyreset_from_reset. Qed.
Print Assumptions C54_phyreset_refines.

(* sanity: with r=2, s=3 from power-on: reset+stop 2 cycles, stop 3 more, then idle until trigger *)
Example C54_example :
  run (sp_step 2 3) (sp_init true) [0;0;0;0;0;0;1;0;0] = [3;3;2;2;2;0;0;3;3].
Proof. reflexivity. Qed.
