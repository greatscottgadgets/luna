(* C53 -- HyperRAM transactions use the correct command and never contend the bus.

   Model/HyperRam.v holds (a) hr_step L lw: the code-shaped model of HyperRAMInterface (nine FSM states,
   latched request, wrapping latency counter of width lw loaded with L, registered PHY outputs) and
   (b) hb_step L: the HyperBus transaction specification -- the controller's phase
       PIdle | PCommand k | PLatency n | PRead | PWrite | PRecover
   and what it puts on the bus in each cycle
       Deselect | Setup | Listen | Drive w | DriveMasked w.

   C53_hyperram_refines says the two are output-equal on every input trace (dq.o compared only while
   driven).  The remaining theorems spell out what the specification machine guarantees, for all states
   and inputs, in the terms of the property text. *)
From Coq Require Import NArith List Bool. Import ListNotations.
From LunaLib Require Import Netlist Machine.
From LunaModel Require Import HyperRam HyperRam_proofs.
Open Scope N_scope.

(* model = specification, every latency, every trace *)
Theorem C53_hyperram_refines : forall L lw, L < 2 ^ lw -> forall tr,
  map hr_norm (run (hr_step L lw) hr_init tr) = run (hb_step L) hb_init tr.
Proof. exact hyperram_refines. Qed.
Print Assumptions C53_hyperram_refines.

(* command phase: two Setup cycles, then CA[47:32], CA[31:16], CA[15:0]; chip select held; the
   latched request is the one presented with start_transfer; then write phase (register write, zero
   latency) or latency count L.  hb_quiet b (HyperRam_proofs.v) is the output word of bus cycle b with no status
   flag up (not idle, no read word, not write-ready) *)
Theorem C53_command_phase : forall L s i0 i1 i2 i3 i4,
  ph s = PIdle -> i_start (hr_decode i0) = true ->
  let d := hr_decode i0 in
  let ca := hb_ca (negb (i_write d)) (i_reg d) (negb (i_single d)) (i_addr d) in
  let s' := run_state (hb_step L) s [i0; i1; i2; i3; i4] in
  tl (run (hb_step L) s [i0; i1; i2; i3; i4])
    = [hb_quiet Setup; hb_quiet Setup; hb_quiet (Drive (hb_ca_word ca 0)); hb_quiet (Drive (hb_ca_word ca 1))]
  /\ bus s' = Drive (hb_ca_word ca 2)
  /\ ph s' = (if i_reg d && i_write d then PWrite else PLatency L)
  /\ c_read s' = negb (i_write d) /\ c_reg s' = i_reg d /\ c_linear s' = negb (i_single d) /\ c_addr s' = i_addr d.
Proof. exact hb_command_phase. Qed.
Print Assumptions C53_command_phase.

(* the three command-address words in terms of the request *)
Theorem C53_ca_words : forall rd rg li a, a < 2^32 ->
  let ca := hb_ca rd rg li a in
  hb_ca_word ca 0 = b2n rd * 2^15 + b2n rg * 2^14 + b2n li * 2^13 + a / 2^19 /\
  hb_ca_word ca 1 = (a / 8) mod 2^16 /\
  hb_ca_word ca 2 = a mod 8.
Proof. exact hb_ca_words. Qed.
Print Assumptions C53_ca_words.

(* latency: the handed-over cycle, then n released cycles, and the data phase starts with the bus still
   released -- n+1 released cycles in total between CA[15:0] and the first data cycle *)
Theorem C53_latency_phase : forall L n s tr,
  ph s = PLatency (N.of_nat n) -> length tr = S n ->
  let s' := run_state (hb_step L) s tr in
  run (hb_step L) s tr = hb_quiet (bus s) :: repeat (hb_quiet Listen) n
  /\ ph s' = (if c_read s then PRead else PWrite) /\ bus s' = Listen
  /\ c_read s' = c_read s /\ c_reg s' = c_reg s /\ c_linear s' = c_linear s /\ c_addr s' = c_addr s.
Proof. exact hb_latency_phase. Qed.
Print Assumptions C53_latency_phase.

(* bus ownership *)
Theorem C53_bus_released : forall L s d,
  (drives_dq (bus (hb_next L s d)) = true -> (exists k, ph s = PCommand k /\ k <> 0) \/ ph s = PWrite) /\
  (drives_rwds (bus (hb_next L s d)) = true -> ph s = PWrite /\ c_reg s = false) /\
  (selected (bus (hb_next L s d)) = false -> (ph s = PIdle /\ i_start d = false) \/ ph s = PRecover).
Proof. exact hb_bus_released. Qed.
Print Assumptions C53_bus_released.

(* the read phase is only entered by read requests, the write phase only by write requests *)
Theorem C53_data_phase_matches_command : forall L tr,
  match ph (run_state (hb_step L) hb_init tr) with
  | PRead => c_read (run_state (hb_step L) hb_init tr) = true
  | PWrite => c_read (run_state (hb_step L) hb_init tr) = false
  | _ => True
  end.
Proof. exact hb_data_phase_matches_command. Qed.
Print Assumptions C53_data_phase_matches_command.

(* ---- concrete runs (non-vacuity): the two transactions of tests/test_psram.py ---- *)
(* register write of 0xBEEF to 0x00BBCCDD: CA words 0x6017 0x799B 0x0005, data right after, no RWDS *)
Example C53_example_register_write :
  let req := hr_mk_in 12307677 true true false true true 48879 0 1 in
  let nop := hr_mk_in 0 false false false false false 48879 0 1 in
  map (fun o => (bits o 21 1, bits o 17 1, bits o 20 1, bits o 1 16))     (* cs, dq_e, rwds_e, dq_o *)
      (run (hb_step 12) hb_init [req; nop; nop; nop; nop; nop; nop; nop; nop])
  = [(0,0,0,0); (1,0,0,0); (1,0,0,0); (1,1,0,24599); (1,1,0,31131); (1,1,0,5); (1,1,0,48879); (0,0,0,0); (0,0,0,0)].
Proof. vm_compute. reflexivity. Qed.

(* register read: after CA the bus is released for 13 cycles of latency plus the read phase; one framed
   word with final_word ends the transaction; chip select drops two cycles later *)
Example C53_example_register_read :
  let req := hr_mk_in 12307677 true false false true true 0 0 1 in
  let nop := hr_mk_in 0 false false false false true 0 0 0 in
  let dat := hr_mk_in 0 false false false false true 0 51966 2 in
  map (fun o => (bits o 21 1, bits o 17 1, bits o 20 1, bits o 24 1, bits o 26 16))  (* cs, dq_e, rwds_e, read_ready, read_data *)
      (run (hb_step 12) hb_init ([req] ++ repeat nop 18 ++ [dat; nop; nop; nop]))
  = [(0,0,0,0,0); (1,0,0,0,0); (1,0,0,0,0); (1,1,0,0,0); (1,1,0,0,0); (1,1,0,0,0)]
    ++ repeat (1,0,0,0,0) 13 ++ [(1,0,0,1,51966); (1,0,0,0,0); (0,0,0,0,0); (0,0,0,0,0)].
Proof. vm_compute. reflexivity. Qed.

(* the same input on the code-shaped model, latency register 4 bits wide *)
Example C53_example_model_agrees :
  let req := hr_mk_in 12307677 true false false true true 0 0 1 in
  let nop := hr_mk_in 0 false false false false true 0 0 0 in
  let dat := hr_mk_in 0 false false false false true 0 51966 2 in
  map hr_norm (run (hr_step 12 4) hr_init ([req] ++ repeat nop 18 ++ [dat; nop; nop; nop]))
  = run (hb_step 12) hb_init ([req] ++ repeat nop 18 ++ [dat; nop; nop; nop]).
Proof. vm_compute. reflexivity. Qed.
