(* C29 -- Multi-byte IN endpoints serialise words little-endian with correct framing.
   Everything is parametric in the byte width bw >= 1 and holds for every history of word values,
   first/last flags, word.valid gaps and byte-endpoint ready patterns, of any length.

   Reading guide (definitions in Model/MultiIn.v):
     ser_word bw w f l   the little-endian serialisation of a word: byte j = bits 8j..8j+7 of w,
                         first on byte 0 only, last on byte bw-1 only
     ms_step             specification machine: state = queue of the bytes of the current word not yet taken
                         by the inner byte endpoint (or idle); word.ready <=> idle or the final byte is being
                         taken in this very cycle
     mi_step             code-shaped model of the FSM in USBMultibyteStreamInEndpoint.elaborate
                         (shift register, latched first/last, bytes_to_send counter)
     ms_cycles           the specification's run as (state, inputs, outputs) per cycle
     word_taken c        the serialisation of the word accepted in cycle c (word.valid & word.ready), else []
     byte_taken c        the byte handed to the inner endpoint in cycle c (byte.valid & byte.ready) with the
                         first/last flags shown in that cycle, else []
     pending s           bytes of the current word still to be sent in state s. *)
From Coq Require Import NArith List Bool. Import ListNotations.
From LunaLib Require Import Netlist Machine.
From LunaModel Require Import MultiIn MultiIn_proofs.
Open Scope N_scope.

(* (1) the code-shaped model produces exactly the specification machine's outputs, from reset, for ever *)
Theorem C29_serialiser_refines : forall bw, (1 <= bw)%nat -> forall tr,
  run (mi_step bw) mi_init tr = run (ms_step bw) ms_init tr.
Proof. exact mi_from_reset. Qed.
Print Assumptions C29_serialiser_refines.

(* (2) exactly once, in order, with framing: after any history, the bytes taken by the inner endpoint
       followed by the bytes still pending are exactly the concatenated serialisations of the words accepted;
       and never more than one word (bw bytes) is pending -- words are accepted only as fast as the byte
       endpoint takes them.  Stated on the specification machine: (1) and C29_run_is_cycles carry it to the model *)
Theorem C29_bytes_are_serialised_words : forall bw tr,
  flat_map (word_taken bw) (ms_cycles bw ms_init tr) =
    flat_map (byte_taken bw) (ms_cycles bw ms_init tr) ++ pending (run_state (ms_step bw) ms_init tr) /\
  (length (pending (run_state (ms_step bw) ms_init tr)) <= bw)%nat.
Proof. exact ms_from_reset. Qed.
Print Assumptions C29_bytes_are_serialised_words.

(* (3) the serialisation is little-endian: its bytes are the base-256 digits of the word, least significant first *)
Theorem C29_little_endian : forall bw w f l, w < 2 ^ (8 * N.of_nat bw) ->
  le_value (map y_byte (ser_word bw w f l)) = w.
Proof. exact ser_word_le. Qed.
Print Assumptions C29_little_endian.

(* (4) framing: first on the first byte only, last on the final byte only *)
Theorem C29_flags : forall bw w f l j, (j < bw)%nat ->
  y_first (nth j (ser_word bw w f l) {| y_byte := 0; y_first := false; y_last := false |}) = f && Nat.eqb j 0 /\
  y_last (nth j (ser_word bw w f l) {| y_byte := 0; y_first := false; y_last := false |}) = l && Nat.eqb (S j) bw.
Proof. exact ser_word_flags. Qed.
Print Assumptions C29_flags.

(* the packed run of the specification is the packing of its structured run *)
Theorem C29_run_is_cycles : forall bw tr s,
  run (ms_step bw) s tr = map (fun c => mi_pack (snd c)) (ms_cycles bw s tr).
Proof. exact ms_run_cycles. Qed.
Print Assumptions C29_run_is_cycles.

(* ---- sanity / non-vacuity: bw = 2.  input = valid + 2 first + 4 last + 8 payload + 2^19 ready;
        output = word.ready + 2 byte.valid + 4 byte.first + 8 byte.last + 16 byte.payload.
   cycle 0: word 0xBEEF, first and last set, offered while idle              -> accepted (word.ready), nothing on the byte side
   cycle 1: byte endpoint not ready                                          -> 0xEF presented (valid), no flags shown, word not ready
   cycle 2: ready                                                            -> 0xEF taken with first
   cycle 3: ready, next word 0x1234 (no flags) offered                       -> 0xBE taken with last; word.ready: 0x1234 accepted
   cycle 4: ready                                                            -> 0x34 taken
   cycle 5: ready                                                            -> 0x12 taken, word.ready (nothing offered) -> idle *)
Definition ex_in (v f l : N) (p : N) (r : N) : N := v + 2 * f + 4 * l + 8 * p + 524288 * r.
Definition ex_trace : list N :=
  [ex_in 1 1 1 48879 0; ex_in 0 0 0 0 0; ex_in 0 0 0 0 1; ex_in 1 0 0 4660 1; ex_in 0 0 0 0 1; ex_in 0 0 0 0 1; 0].
Example C29_example_run :
  run (ms_step 2) ms_init ex_trace =
    [1; 2 + 16 * 239; 2 + 4 + 16 * 239; 1 + 2 + 8 + 16 * 190; 2 + 16 * 52; 1 + 2 + 16 * 18; 1 + 16 * 18].
Proof. vm_compute. reflexivity. Qed.

Example C29_example_bytes :
  flat_map (byte_taken 2) (ms_cycles 2 ms_init ex_trace) =
    [ {| y_byte := 239; y_first := true;  y_last := false |}; {| y_byte := 190; y_first := false; y_last := true |};
      {| y_byte := 52;  y_first := false; y_last := false |}; {| y_byte := 18;  y_first := false; y_last := false |} ]
  /\ flat_map (word_taken 2) (ms_cycles 2 ms_init ex_trace) = ser_word 2 48879 true true ++ ser_word 2 4660 false false.
Proof. vm_compute. split; reflexivity. Qed.
