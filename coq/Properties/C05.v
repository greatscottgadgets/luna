(* C05 -- Inter-packet response timing matches the selected bus speed.
   Model and specification: Model/IpTimer.v (USBInterpacketTimer of luna/gateware/usb/usb2/packet.py).

   Reading guide.  One list element = one clock cycle of the `usb` domain; an input word carries the
   `start` request of each attached interface and the 2-bit `speed`; an output word carries, for every
   interface, tx_allowed / tx_timeout / rx_timeout.  `elapsed nif h` is the number of start-free cycles
   at the end of history h (the whole of h if no start was ever requested: reset starts the timer).
   `ip_strobes tbl e speed` raises tx_allowed iff e = minimum gap, tx_timeout iff e = response limit,
   rx_timeout iff e = receive timeout, for the entry of `tbl` at `speed`.
   With a start request in cycle s and none in s+1 .. t-1, elapsed = t - s - 1 (elapsed_after_start):
   a delay of d cycles puts the strobe in cycle s + 1 + d, and nowhere else until the next start. *)
From Coq Require Import NArith List Bool Lia. Import ListNotations.
From LunaLib Require Import Netlist Machine.
From LunaModel Require Import IpTimer IpTimer_proofs.
Open Scope N_scope.

(* (1) Parametric in the number of interfaces, the delay table, the counter limit and the counter
   width: for every input history, the saturating w-bit counter machine produces exactly the outputs
   of the unbounded "elapsed time" specification. *)
Theorem C05_timer_refines : forall nif cmax w tbl, tbl_ok cmax tbl -> cmax + 1 < 2 ^ w ->
  forall tr, run (ip_step nif cmax w tbl) ip_init tr = run (sp_step nif tbl) sp_init tr.
Proof. exact iptimer_from_reset. Qed.
Print Assumptions C05_timer_refines.

(* (2) The same, cycle by cycle and in closed form. *)
Theorem C05_timer_exact : forall nif cmax w tbl, tbl_ok cmax tbl -> cmax + 1 < 2 ^ w ->
  forall tr t, (t < length tr)%nat ->
  nth t (run (ip_step nif cmax w tbl) ip_init tr) 0
  = rep nif (ip_strobes tbl (elapsed nif (firstn t tr)) (ip_speed nif (nth t tr 0))).
Proof. intros nif cmax w tbl Ht Hw tr t H. exact (iptimer_exact_as nif cmax w tbl Ht Hw tbl tr t H eq_refl). Qed.
Print Assumptions C05_timer_exact.

Theorem C05_elapsed_after_start : forall nif pre s quiet,
  ip_starts nif s = true -> Forall (fun i => ip_starts nif i = false) quiet ->
  elapsed nif (pre ++ s :: quiet) = N.of_nat (length quiet).
Proof. exact elapsed_after_start. Qed.
Print Assumptions C05_elapsed_after_start.

(* (3) LUNA's three configurations (60 MHz HS-capable, 60 MHz FS-only, 12 MHz FS-only) against the USB
   figures: for every history and every cycle in which `speed` is a USB speed (HIGH/FULL/LOW). *)
Theorem C05_luna_60MHz : forall nif fs_only tr t, (t < length tr)%nat ->
  ip_speed nif (nth t tr 0) <= 2 ->
  nth t (run (ip_step nif (cmax_of fs_only false) (ctr_width (cmax_of fs_only false)) (tbl_60 fs_only)) ip_init tr) 0
  = rep nif (ip_strobes (usb_delays 5 (negb fs_only)) (elapsed nif (firstn t tr)) (ip_speed nif (nth t tr 0))).
Proof.
  intros nif fs_only tr t Ht Hs.
  exact (iptimer_exact_as nif _ _ _ (tbl_60_ok fs_only) (ctr_width_fits _) _ tr t Ht (tbl_60_spec fs_only _ Hs)).
Qed.
Print Assumptions C05_luna_60MHz.

Theorem C05_luna_12MHz : forall nif tr t, (t < length tr)%nat ->
  ip_speed nif (nth t tr 0) <= 2 ->
  nth t (run (ip_step nif (cmax_of true true) (ctr_width (cmax_of true true)) tbl_12) ip_init tr) 0
  = rep nif (ip_strobes (usb_delays 1 false) (elapsed nif (firstn t tr)) (ip_speed nif (nth t tr 0))).
Proof.
  intros nif tr t Ht Hs.
  exact (iptimer_exact_as nif _ _ _ tbl_12_ok (ctr_width_fits _) _ tr t Ht (tbl_12_spec _ Hs)).
Qed.
Print Assumptions C05_luna_12MHz.

(* The specification table, spelled out. *)
Example C05_table_60 :
  usb_delays 5 true HIGH = Some (1, 24, 92) /\ usb_delays 5 true FULL = Some (10, 32, 80) /\
  usb_delays 5 true LOW = Some (80, 260, 640).
Proof. repeat split. Qed.
Example C05_table_12 : usb_delays 1 false FULL = Some (2, 7, 16).
Proof. reflexivity. Qed.

(* Non-vacuity / a concrete run, one interface (input word = start + 2 * speed):
   low speed, start in cycle 0: tx_allowed exactly in cycle 81 = 0 + 1 + 80 of the first 100 cycles. *)
Example C05_example_low_speed :
  let tr := (1 + 2 * LOW) :: repeat (2 * LOW) 99 in
  map (fun o => N.odd o) (run (ip_step 1 640 10 (tbl_60 false)) ip_init tr)
  = repeat false 81 ++ [true] ++ repeat false 18.
Proof. vm_compute. reflexivity. Qed.
(* high speed from reset: tx_allowed in cycle 1, tx_timeout in cycle 24, rx_timeout in cycle 92 *)
Example C05_example_high_speed :
  let out := run (ip_step 1 640 10 (tbl_60 false)) ip_init (repeat (2 * HIGH) 100) in
  (nth 1 out 0, nth 24 out 0, nth 92 out 0, nth 2 out 0, nth 81 out 0) = (1, 2, 4, 0, 0).
Proof. vm_compute. reflexivity. Qed.
