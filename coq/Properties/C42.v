(* C42 -- LFPS patterns are detected only within their timing windows; the generator produces the typical
   burst at the typical period (luna/gateware/usb/usb3/physical/lfps.py).

   Models and specification: Model/Lfps.v.  c : ld_cfg holds the burst window [bmin,bmax], the repeat window
   [rmin,rmax] (clock cycles), periodic (polling/ping) vs single burst (warm reset), and the counter width cw.
   Hypotheses on c (all hold for the configurations the code derives, see the Examples):
     1 <= bmax < 2^cw, and for periodic patterns bmax < rmax < 2^cw.

   spec_trace c [] tr = for every cycle, whether the envelope received up to TWO CYCLES EARLIER (FFSynchronizer)
   ends in the pattern -- spec_detect, unfolded by C42_spec_periodic_iff / C42_spec_single_iff:
     periodic: ... burst k1 | gap g1 | burst k2 | gap g2 | first cycle of the third burst,
               k1, k2 in [bmin,bmax], k1+g1, k2+g2 in [rmin,rmax]  (two consecutive bursts and repeat periods in window)
     single:   ... burst k | first idle cycle, k in [bmin,bmax].                                              *)
From Coq Require Import NArith List Bool Lia. Import ListNotations.
From LunaLib Require Import Netlist Machine.
From LunaModel Require Import Lfps Lfps_proofs.
Open Scope N_scope.

(* SOUNDNESS, all envelopes: detect is reported only when the specification holds (never outside the windows). *)
Theorem C42_detect_sound : forall c, 1 <= bmax c -> bmax c < 2 ^ cw c ->
  (periodic c = true -> bmax c < rmax c /\ rmax c < 2 ^ cw c) ->
  forall tr, Forall2 (fun o s => o = 1 -> s = 1) (run (ld_step c) ld_init tr) (spec_trace c [] tr).
Proof. exact ld_sound. Qed.
Print Assumptions C42_detect_sound.

(* the specification says what the property text says (h = envelope, most recent cycle first) *)
Theorem C42_spec_periodic_iff : forall c, periodic c = true -> forall h,
  spec_detect c h = true <->
  exists k1 g1 k2 g2 rest,
    h = [true] ++ repeat false (N.to_nat g2) ++ repeat true (N.to_nat k2)
               ++ repeat false (N.to_nat g1) ++ repeat true (N.to_nat k1) ++ rest /\
    no_head true rest /\ 1 <= k1 /\ 1 <= g1 /\ 1 <= k2 /\ 1 <= g2 /\
    win_b c k1 /\ win_r c (k1 + g1) /\ win_b c k2 /\ win_r c (k2 + g2).
Proof. exact spec_detect_periodic_iff. Qed.
Print Assumptions C42_spec_periodic_iff.

Theorem C42_spec_single_iff : forall c, periodic c = false -> forall h,
  spec_detect c h = true <->
  exists k rest, h = [false] ++ repeat true (N.to_nat k) ++ rest /\ no_head true rest /\ 1 <= k /\ win_b c k.
Proof. exact spec_detect_single_iff. Qed.
Print Assumptions C42_spec_single_iff.

(* COMPLETENESS after reset or a quiet stretch (pre empty or ending in rmax+2 idle cycles): two in-window bursts
   at in-window periods are reported in the first cycle of the third burst (+2 cycles of synchroniser latency).
   (Not for every envelope: see LEVEL_NOTE in props/C42.py -- the edge detector is blind in the first cycle after
   the FSM falls back to WAIT, so a burst that starts exactly then is skipped.) *)
Theorem C42_detect_complete_periodic : forall c, 1 <= bmax c -> bmax c < 2 ^ cw c ->
  (periodic c = true -> bmax c < rmax c /\ rmax c < 2 ^ cw c) -> periodic c = true ->
  forall pre k1 g1 k2 g2 x y, quiet_end c pre ->
  1 <= k1 -> 1 <= g1 -> 1 <= k2 -> 1 <= g2 ->
  bmin c <= k1 <= bmax c -> rmin c <= k1 + g1 <= rmax c ->
  bmin c <= k2 <= bmax c -> rmin c <= k2 + g2 <= rmax c ->
  last (run (ld_step c) ld_init
         (map b2n (pre ++ repeat true (N.to_nat k1) ++ repeat false (N.to_nat g1) ++
                   repeat true (N.to_nat k2) ++ repeat false (N.to_nat g2) ++ [true]) ++ [x; y])) 0 = 1.
Proof. exact ld_complete_periodic. Qed.
Print Assumptions C42_detect_complete_periodic.

Theorem C42_detect_complete_single : forall c, 1 <= bmax c -> bmax c < 2 ^ cw c ->
  (periodic c = true -> bmax c < rmax c /\ rmax c < 2 ^ cw c) -> periodic c = false ->
  forall pre k x y, quiet_end c pre -> 1 <= k -> bmin c <= k <= bmax c ->
  last (run (ld_step c) ld_init (map b2n (pre ++ repeat true (N.to_nat k) ++ [false]) ++ [x; y])) 0 = 1.
Proof. exact ld_complete_single. Qed.
Print Assumptions C42_detect_complete_single.

(* GENERATOR: FSM model = phase-counter specification (burst B cycles, pattern R cycles), all histories *)
Theorem C42_generator_refines : forall B R w, 1 <= B -> B < R -> R <= 2 ^ w ->
  forall tr, run (lg_step B R w) lg_init tr = run (lgs_step B R) None tr.
Proof. exact lg_from_reset. Qed.
Print Assumptions C42_generator_refines.

(* while `generate` is held: n identical periods of R+1 cycles -- one idle cycle (electrical idle driven),
   B cycles of signalling, R-B cycles of electrical idle, `completed` in the last one *)
Theorem C42_generator_held : forall B R, 1 <= B -> B < R ->
  forall n, run (lgs_step B R) None (repeat 1 (n * N.to_nat (R + 1))) = concat (repeat (lg_period B R) n).
Proof. exact lgs_held_spec. Qed.
Print Assumptions C42_generator_held.

(* ---- sanity / non-vacuity ---- *)
(* Polling LFPS at 125 MHz: windows 75..175 / 750..1750 cycles; the hypotheses hold *)
Example C42_cfg_125MHz : let c := ld_periodic 75 175 750 1750 in
  1 <= bmax c /\ bmax c < 2 ^ cw c /\ bmax c < rmax c /\ rmax c < 2 ^ cw c /\ cw c = 11.
Proof. vm_compute. repeat split; congruence. Qed.

(* windows 2..3 / 5..8: bursts of 2 and 3 cycles, 6 cycles apart, are reported at the third burst (2 cycles late) *)
Example C42_detect_example :
  run (ld_step (ld_periodic 2 3 5 8)) ld_init [0;1;1;0;0;0;0;1;1;1;0;0;0;1;0;0;0]
  = [0;0;0;0;0;0;0;0;0;0;0;0;0;0;0;1;0].
Proof. vm_compute. reflexivity. Qed.
Example C42_spec_example :
  spec_trace (ld_periodic 2 3 5 8) [] [0;1;1;0;0;0;0;1;1;1;0;0;0;1;0;0;0]
  = [0;0;0;0;0;0;0;0;0;0;0;0;0;0;0;1;0].
Proof. vm_compute. reflexivity. Qed.
(* a burst that is one cycle too long is not reported *)
Example C42_reject_example :
  run (ld_step (ld_periodic 2 3 5 8)) ld_init [0;1;1;0;0;0;0;1;1;1;1;0;0;1;0;0;0]
  = [0;0;0;0;0;0;0;0;0;0;0;0;0;0;0;0;0].
Proof. vm_compute. reflexivity. Qed.
(* generator with B = 2, R = 5: period of 6 cycles; words are completed + 2*drive_electrical_idle + 4*send_signaling *)
Example C42_generator_example : lg_period 2 5 = [2; 6; 6; 2; 2; 3].
Proof. reflexivity. Qed.
