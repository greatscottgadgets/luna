(* C04 -- USB2 handshakes are generated and detected exactly.
   Models and specifications: Model/Handshake.v (USBHandshakeGenerator, USBHandshakeDetector of
   luna/gateware/usb/usb2/packet.py).  One list element = one `usb` clock cycle.

   Generator.  gsp_step is the whole specification: idle (tx_valid = 0) until a request word arrives
   (gen_request: STALL over NAK over ACK if several strobes coincide); then tx_valid = 1 with
   tx_data = hs_byte h (PID nibble + complemented check nibble) in every cycle up to and including the
   first one with tx_ready -- the cycle in which the PHY takes the byte, so exactly one byte is handed
   over --, then idle again; request strobes while not idle are ignored.  tx_data while tx_valid = 0 is
   not specified (gen_mask).

   Detector.  dsp_step is the whole specification: packets are maximal rx_active runs, their bytes are
   the rx_valid cycles of the run after its first cycle; in the cycle after rx_active falls the strobe
   word is hs_strobe b if the packet was exactly [b], else 0.  No environment assumption on
   rx_active/rx_valid/rx_data. *)
From Coq Require Import NArith List Bool. Import ListNotations.
From LunaLib Require Import Netlist Machine.
From LunaModel Require Import Handshake Handshake_proofs.
Open Scope N_scope.

Theorem C04_generator_exact : forall tr,
  map gen_mask (run gen_step gen_init tr) = run gsp_step gsp_init tr.
Proof. exact gen_from_reset. Qed.
Print Assumptions C04_generator_exact.

Theorem C04_detector_exact : forall tr,
  run det_step det_init tr = run dsp_step dsp_init tr.
Proof. exact det_from_reset. Qed.
Print Assumptions C04_detector_exact.

(* packet-level reading: the sequence of raised strobe words is the sequence of handshake packets
   among the received packets (one strobe word per such packet, nothing else) *)
Theorem C04_detector_events : forall tr x,
  filter nonzero (run det_step det_init (tr ++ [x]))
  = filter nonzero (map pkt_strobe (packets_from None tr)).
Proof. exact det_events. Qed.
Print Assumptions C04_detector_events.

(* a one-byte packet [b] raises the strobe of handshake h iff b is h's PID with the correct check
   nibble; any other byte raises nothing *)
Theorem C04_strobe_iff_handshake : forall b, b < 256 ->
  (forall h, hs_strobe b = hs_bit h <-> b = hs_byte h) /\
  (hs_strobe b = 0 <-> forall h, b <> hs_byte h).
Proof. intros b _. split; [apply hs_strobe_spec | apply hs_strobe_zero]. Qed.
Print Assumptions C04_strobe_iff_handshake.

Example C04_bytes : hs_byte ACK = 0xD2 /\ hs_byte NAK = 0x5A /\ hs_byte STALL = 0x1E /\ hs_byte NYET = 0x96.
Proof. repeat split. Qed.

(* generator runs; input word = ack + 2 nak + 4 stall + 8 tx_ready, output = tx_valid + 2 tx_data *)
Example C04_gen_ack_backpressure :   (* ACK requested in cycle 0, PHY ready in cycle 3 *)
  map gen_mask (run gen_step gen_init [1; 0; 0; 8; 0]) = [0; 1 + 2 * 0xD2; 1 + 2 * 0xD2; 1 + 2 * 0xD2; 0].
Proof. reflexivity. Qed.
Example C04_gen_busy_request_ignored :   (* NAK requested while the ACK is still being offered *)
  map gen_mask (run gen_step gen_init [1; 2; 8; 0; 0]) = [0; 1 + 2 * 0xD2; 1 + 2 * 0xD2; 0; 0].
Proof. reflexivity. Qed.
Example C04_gen_priority :
  map gen_mask (run gen_step gen_init [7; 8; 0]) = [0; 1 + 2 * 0x1E; 0].
Proof. reflexivity. Qed.

(* detector runs; input word = rx_active + 2 rx_valid + 4 rx_data, output = ack + 2 nak + 4 stall + 8 nyet *)
Example C04_det_ack :
  run det_step det_init [0; 1; 3 + 4 * 0xD2; 0; 0; 0] = [0; 0; 0; 0; 1; 0].
Proof. reflexivity. Qed.
Example C04_det_two_bytes : run det_step det_init [1; 3 + 4 * 0xD2; 3 + 4 * 0xD2; 0; 0] = [0; 0; 0; 0; 0].
Proof. reflexivity. Qed.
Example C04_det_bad_check : run det_step det_init [1; 3 + 4 * 0xC2; 0; 0] = [0; 0; 0; 0].
Proof. reflexivity. Qed.
Example C04_det_packets :
  packets_from None [1; 3 + 4 * 0x5A; 1; 0; 1; 3 + 4 * 0x2D; 3 + 4 * 7; 0] = [[0x5A]; [0x2D; 7]].
Proof. reflexivity. Qed.
