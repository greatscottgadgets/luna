(* C48 -- SuperSpeed control requests are decoded and answered exactly.

   Part 1, SuperSpeedSetupDecoder (Model/SsSetupDec.v).
     sd_step true   the property-satisfying decoder: the code of /repo, which has findings/C48-short-setup-packet.diff
                    (c36ffb5) and findings/C48-abort-on-first-word.diff (26e2331);
     sd_step false  the code as found, before c36ffb5;
     ssd_step       the specification: accumulate the (data, valid-mask) words of the packet being delivered and the
                    header's setup flag; when rx_good arrives report iff  is_setup_packet flag words, i.e. the flag is
                    set and the packet consists of exactly two full words (eight bytes); fields = those bytes, LE;
     sd_env_ok      the packet-delivery environment: first/last mark the ends of a packet, only the last word may be
                    partial, one verdict (rx_good xor rx_bad) after the last word or rx_bad as abort; rx_good never
                    shares a cycle with a word, rx_bad may (DataPacketReceiver aborts on a K-symbol in the payload by
                    strobing packet_bad in the very cycle it presents that word: first, middle or last word).
   Part 2, GetDescriptorHandler (Model/SsDesc.v): hd_step descs over C27's specification of the generators;
     hd_xfers = the (valid mask, first, last, payload, tx_length) tuples handed over on tx; hd_expected c ml = the
     beats of ConstGen.answer c 0 ml with tx_length = min(ml, len) (closed form: C27_answer_is_requested_slice). *)
From Coq Require Import NArith List Bool.
Import ListNotations.
From LunaLib Require Import Netlist Machine.
From LunaModel Require Import ConstGen ConstGen_proofs SsSetupDec SsSetupDec_proofs SsDesc SsDesc_proofs.
Open Scope N_scope.

(* (1) On every packet-delivery history, of any length, the decoder's outputs (packet fields and the received
       strobe, cycle by cycle) are those of the specification: a request is reported iff a good packet flagged
       setup carried exactly eight bytes, with those bytes as fields; nothing on rx_bad, on a third word, on short
       or partial packets. *)
Theorem C48_decoder_exact : forall tr, sd_env_ok E0 tr = true ->
  run (sd_step true) sd_init tr = run ssd_step ssd_init tr.
Proof. exact sd_refines_from_reset. Qed.
Print Assumptions C48_decoder_exact.

(* (2) GET_DESCRIPTOR for a known (type, index) and 0 < wLength < 2^16, from reset, any tx.ready pattern: the words
       handed over on tx followed by those still queued (tx register, rest of the generator's answer) are exactly
       the expected answer; in particular once nothing is queued any more, exactly the answer has been sent. *)
Theorem C48_descriptor_stream : forall descs v ml c r0 readys, v < 2 ^ 16 -> 0 < ml -> ml < 2 ^ 16 ->
  sel_cfg descs v = Some c -> hd_cfg_ok c = true ->
  let tr := hd_request v ml r0 readys in
  hd_xfers tr (run (hd_step descs) (hd_init descs) tr) ++ remaining descs v (run_state (hd_step descs) (hd_init descs) tr)
  = hd_expected c ml.
Proof. exact hd_request_from_reset. Qed.
Print Assumptions C48_descriptor_stream.

(* ... and from any state in which the selected generator is idle and the tx register empty (later requests) *)
Theorem C48_descriptor_stream_any : forall descs v ml c g0 st r0 readys, v < 2 ^ 16 -> 0 < ml -> ml < 2 ^ 16 ->
  hd_cfg_ok c = true -> sel_gen descs (h_gens st) v = Some (c, g0) -> q_k g0 = QIdle ->
  wire_valid (h_w st) = 0 -> reg_ok (h_w st) (h_len st) ->
  let tr := hd_request v ml r0 readys in
  hd_xfers tr (run (hd_step descs) st tr) ++ remaining descs v (run_state (hd_step descs) st tr) = hd_expected c ml.
Proof. exact hd_request_stream. Qed.
Print Assumptions C48_descriptor_stream_any.

(* (3) the length field: tx_length = min(wLength, descriptor length) *)
Theorem C48_tx_length : forall c ml, c_hasml c = true -> c_mlw c = 16 -> ml < 2 ^ 16 ->
  olen_of c ml = N.min ml (c_dlen c).
Proof. exact olen_min. Qed.
Print Assumptions C48_tx_length.

(* (3b) the bytes: for every non-empty descriptor (bytes < 256) turned into a 32-bit generator the way the Python
   constructor does (cfg_of_bytes: four bytes per ROM word, little endian) and every 0 < wLength, the valid bytes of
   the answer's words, in order, are the first min(wLength, len) bytes of the descriptor *)
Theorem C48_descriptor_bytes : forall data ml, data <> [] -> Forall (fun b => b < 256) data -> 0 < ml ->
  answer_bytes (cfg_of_bytes data 4 false (Some 16)) ml
  = firstn (N.to_nat (N.min ml (N.of_nat (length data)))) data.
Proof. exact answer_bytes_prefix. Qed.
Print Assumptions C48_descriptor_bytes.

(* (4) wLength = 0: nothing is sent *)
Theorem C48_zero_length : forall descs v c g0 st r0 readys, v < 2 ^ 16 -> hd_cfg_ok c = true ->
  sel_gen descs (h_gens st) v = Some (c, g0) -> q_k g0 = QIdle ->
  wire_valid (h_w st) = 0 -> reg_ok (h_w st) (h_len st) ->
  hd_xfers (hd_request v 0 r0 readys) (run (hd_step descs) st (hd_request v 0 r0 readys)) = [].
Proof. exact hd_zero_length. Qed.
Print Assumptions C48_zero_length.

(* (5) unknown (type, index): stall = start in every cycle, and tx stays silent *)
Theorem C48_unknown_stalls : forall descs v, sel_cfg descs v = None -> forall tr st,
  wire_valid (h_w st) = 0 -> reg_ok (h_w st) (h_len st) -> Forall (fun i => hd_value i = v) tr ->
  Forall2 (fun i o => hd_ovalid o = 0 /\ hd_ostall o = hd_start i) tr (run (hd_step descs) st tr).
Proof. exact hd_unknown. Qed.
Print Assumptions C48_unknown_stalls.

(* ---- the code as found (before c36ffb5) does NOT satisfy (1): witnesses inside the environment ---- *)
Definition c48_word (v : N) (first last : bool) (data : N) (setup : bool) := sd_in v first last data setup false false.
Definition c48_good := sd_in 0 false false 0 false true false.
Definition c48_idle := sd_in 0 false false 0 false false false.
(* two good four-byte packets, the second not even flagged setup: the code reports a setup packet *)
Definition c48_witness_spurious :=
  [c48_word 15 true true 1144201745 true; c48_good; c48_word 15 true true 2289526357 false; c48_good; c48_idle].
(* a good six-byte packet flagged setup, then a genuine GET_DESCRIPTOR setup packet: the code drops it *)
Definition c48_witness_lost :=
  [c48_word 15 true false 286331153 true; c48_word 3 false true 8738 true; c48_good;
   c48_word 15 true false 100664960 true; c48_word 15 false true 1179648 true; c48_good; c48_idle].
Example C48_code_as_it_stands_refuted :
  sd_env_ok E0 c48_witness_spurious = true /\
  map (fun o => N.testbit o 64) (run (sd_step false) sd_init c48_witness_spurious) = [false; false; false; false; true] /\
  map (fun o => N.testbit o 64) (run ssd_step ssd_init c48_witness_spurious) = [false; false; false; false; false] /\
  sd_env_ok E0 c48_witness_lost = true /\
  map (fun o => N.testbit o 64) (run (sd_step false) sd_init c48_witness_lost) = [false; false; false; false; false; false; false] /\
  map (fun o => N.testbit o 64) (run ssd_step ssd_init c48_witness_lost) = [false; false; false; false; false; false; true] /\
  run (sd_step true) sd_init c48_witness_lost = run ssd_step ssd_init c48_witness_lost.
Proof. vm_compute. repeat split; reflexivity. Qed.

(* ---- non-vacuity ---- *)
(* the stimulus of tests/test_usb3_request.py: a good vendor request; fields = the eight bytes *)
Example C48_decoder_example :
  let tr := [c48_word 15 true false 571583169 true; c48_word 15 false true 275268 true; c48_idle; c48_good; c48_idle] in
  sd_env_ok E0 tr = true /\
  nth 4 (run ssd_step ssd_init tr) 0 = 571583169 + 2 ^ 32 * 275268 + 2 ^ 64.
Proof. vm_compute. split; reflexivity. Qed.

(* an 18-byte device descriptor, GET_DESCRIPTOR(DEVICE, wLength = 7 resp. 64) *)
Definition c48_dev : list N := [18; 1; 32; 3; 0; 0; 0; 9; 9; 18; 1; 0; 0; 0; 1; 2; 3; 1].
Definition c48_descs := [(256, cfg_of_bytes c48_dev 4 false (Some 16))].
Example C48_descriptor_example :
  hd_cfg_ok (cfg_of_bytes c48_dev 4 false (Some 16)) = true /\
  desc_bytes_ok c48_dev (n_range 1 24 ++ [65535]) = true /\
  (let tr := hd_request 256 7 true [true; false; true; true; true; true] in
   hd_xfers tr (run (hd_step c48_descs) (hd_init c48_descs) tr)
   = [((15, true, false, 52429074), 7); ((7, false, true, 150994944), 7)] /\
   remaining c48_descs 256 (run_state (hd_step c48_descs) (hd_init c48_descs) tr) = []) /\
  (let tr := hd_request 256 64 true (repeat true 10) in
   length (hd_xfers tr (run (hd_step c48_descs) (hd_init c48_descs) tr)) = 5%nat /\
   map snd (hd_xfers tr (run (hd_step c48_descs) (hd_init c48_descs) tr)) = [18; 18; 18; 18; 18]).
Proof. vm_compute. repeat split; reflexivity. Qed.
