(* C06 -- SETUP requests are decoded exactly and survive earlier corrupted packets.
   Model and specification: Model/SetupDec.v (USBSetupDecoder of luna/gateware/usb/usb2/request.py with its
   USBDataPacketDeserializer, wired to the token detector, data CRC unit and inter-packet timer as in USBDevice).

   Reading guide.  One list element = one `usb` clock cycle.  Input word: rx_active, rx_valid, rx_data, device
   address, speed (d_act, d_val, d_dat, t_address (c_utmi i), c_speed).  Output word: received, the 8 setup bytes
   (bmRequestType, bRequest, wValue, wIndex, wLength; little-endian = le_bytes), ack, tokenizer.endpoint
   (o_recv, o_flds, o_ack, o_endp).  c6_step true true is the CORRECTED model (two flags = the two repairs of
   findings/C06-*.diff); c6_step false false is the code as found.

   Packets are maximal rx_active runs; their bytes are rx_data at rx_valid except in the run's first cycle
   (run_bytes).  classify / EvToken are C01's (a well-formed token for this device); dclass pkt = D8 pl means:
   pkt = DATAx PID byte :: pl ++ [crc lo; crc hi] with |pl| = 8 and crc16_usb pl = the last two bytes.

   The specification is the monitor sm_step (Model/SetupDec.v): it follows token events and data packets and
   says for every cycle what `received`, the setup bytes, `ack` and the endpoint must be (with an explicit
   don't-care where a data packet cut off before its CRC field arrives while a SETUP is pending).
   Environment assumption (sm_step = None): the speed input is constant HIGH or FULL, and at full speed no
   packet completes during the 11 cycles in which the ACK is being delayed (true on a real full-speed bus:
   one byte takes 40 cycles). *)
From Coq Require Import NArith List Bool Lia. Import ListNotations.
From LunaLib Require Import Netlist Machine.
From LunaModel Require Import Crc Handshake TokenDet TokenDet_proofs IpTimer SetupDec SetupDec_proofs.
Open Scope N_scope.

(* (1) For EVERY input history, the corrected model's outputs are accepted by the specification monitor in
   every cycle (up to the first cycle, if any, in which the environment assumption breaks). *)
Theorem C06_model_meets_spec : forall tr,
  sm_accepts sm_init (combine tr (run (c6_step true true) c6_init tr)) = true.
Proof. exact c6_accepts. Qed.
Print Assumptions C06_model_meets_spec.

(* (2) "A preceding corrupted, aborted or unrelated packet never causes a later valid SETUP transaction to be
   missed."  h0 = ANY history (corrupted, aborted, over-long, foreign packets ...; environment assumption holding);
   in cycle x a packet completes that is a well-formed SETUP token for this device (C01's classify); after any
   number of idle cycles the next packet (cycles runc, any rx_valid pattern) is a DATAx packet with 8 bytes pl and
   their CRC16, ending in cycle y1.  Then `received` is high with the setup bytes pl two cycles after y1, and the
   ACK request is raised in the cycle after y1 iff the bus is high speed. *)
Theorem C06_setup_never_missed : forall h0 x tok a ep sp gap runc pl y1 y2 y3,
  let h := h0 ++ [x] in
  c6_env h = true ->
  pkt_in_progress (map c_utmi h0) = Some tok -> d_act x = false ->
  classify true (t_address (c_utmi x)) tok = EvToken PID_SETUP a ep ->
  Forall (fun i => d_act i = false) gap -> Forall (fun i => d_act i = true) runc -> runc <> [] ->
  dclass (run_bytes runc) = D8 pl -> d_act y1 = false ->
  Forall (fun i => c_speed i = sp) (h ++ gap ++ runc ++ [y1; y2; y3]) ->
  let outs := run (c6_step true true) c6_init (h ++ gap ++ runc ++ [y1; y2; y3]) in
  let n := (length h + length gap + length runc)%nat in
  o_ack (nth (n + 1) outs 0) = (sp =? 0) /\
  o_recv (nth (n + 2) outs 0) = true /\ o_flds (nth (n + 2) outs 0) = le_bytes pl.
Proof. exact setup_never_missed. Qed.
Print Assumptions C06_setup_never_missed.

(* (3) Full speed: from any reachable situation (c6_rel s m e; m = the monitor state) in which a SETUP token for
   this device is being signalled, if the data packet follows and the bus then stays idle for 11 cycles, the ACK
   request is raised exactly in the 12th cycle after rx_active fell (cycle n): not in n+1 .. n+11, and in n+12
   (the timer restarts in n+1; 10 cycles = 2 full-speed bit times at 60 MHz). *)
Theorem C06_fs_ack_timing : forall s m e gap runc pl y1 y2 zs z,
  c6_rel s m e -> m_sp m = Some 1 ->
  t_new_token (snd (m_tsp m)) = true -> t_pid (snd (m_tsp m)) = 13 -> fst (m_tsp m) = None ->
  Forall (fun i => d_act i = false) gap -> Forall (fun i => d_act i = true) runc -> runc <> [] ->
  dclass (run_bytes runc) = D8 pl -> d_act y1 = false ->
  Forall (fun i => d_act i = false) (y2 :: zs) -> length zs = 10%nat ->
  Forall (fun i => c_speed i = 1) (gap ++ runc ++ [y1; y2] ++ zs ++ [z]) ->
  let outs := run (c6_step true true) s (gap ++ runc ++ [y1; y2] ++ zs ++ [z]) in
  let n := (length gap + length runc)%nat in
  o_ack (nth (n + 1) outs 0) = false /\
  (forall j, (j < 10)%nat -> o_ack (nth (n + 2 + j) outs 0) = false) /\
  o_ack (nth (n + 12) outs 0) = true.
Proof. exact fs_ack_timing_from. Qed.
Print Assumptions C06_fs_ack_timing.

(* every state reached by the model together with the monitor is such a situation *)
Theorem C06_reachable_related : forall tr s m, c6_joint c6_init sm_init tr = Some (s, m) ->
  (exists e, c6_rel s m e) /\ s = run_state (c6_step true true) c6_init tr.
Proof. intros tr s m H. exact (c6_joint_rel tr c6_init sm_init 0 s m c6_rel_init H). Qed.
Print Assumptions C06_reachable_related.

(* (4) Soundness: `received` is shown only in the second cycle after a well-formed 8-byte data packet completed
   (m_dn m = D8 pl) while a SETUP token was the last token event for this device (m_ar m <> A_no), and then the
   setup bytes are exactly that packet's. *)
Theorem C06_received_sound : forall h i s m s' m',
  c6_joint c6_init sm_init h = Some (s, m) -> c6_joint c6_init sm_init (h ++ [i]) = Some (s', m') ->
  c_recv s' = true -> exists pl, m_dn m = D8 pl /\ m_ar m <> A_no /\ c_setup s' = pl.
Proof. exact received_sound. Qed.
Print Assumptions C06_received_sound.

(* ---- concrete runs: sanity, non-vacuity, and the two defects of the code as found ----------------------- *)
Definition recv_cycles (outs : list N) : list nat :=
  map fst (filter (fun p => o_recv (snd p)) (combine (seq 0 (length outs)) outs)).
Definition ack_cycles (outs : list N) : list nat :=
  map fst (filter (fun p => o_ack (snd p)) (combine (seq 0 (length outs)) outs)).

(* ref_setup = GET_DESCRIPTOR(DEVICE), wLength 64: the CRC16 of 80 06 00 01 00 00 40 00 is dd 94 *)
Example C06_data_bytes : data_bytes 195 ref_setup 0 = [195; 128; 6; 0; 1; 0; 0; 64; 0; 221; 148].
Proof. vm_compute. reflexivity. Qed.
Example C06_dclass : dclass (data_bytes 195 ref_setup 0) = D8 ref_setup /\ dclass (data_bytes 195 ref_setup 1) = D0 /\
                     dclass (data_bytes 195 [1; 2; 3] 0) = Dx /\ dclass [195; 7] = Dq /\ dclass [45; 0; 16] = D0.
Proof. vm_compute. auto. Qed.
(* one SETUP transaction (rx_active falls in cycle 19): high speed: ack in 20, received in 21 with the bytes;
   full speed: received in 21, ack in 31 = 19 + 12; the environment assumption holds on both traces *)
Example C06_example_hs :
  let o := run (c6_step true true) c6_init (setup_txn ref_setup 0 0) in
  (recv_cycles o, ack_cycles o, o_flds (nth 21 o 0), c6_env (setup_txn ref_setup 0 0)) = ([21%nat], [20%nat], le_bytes ref_setup, true).
Proof. vm_compute. reflexivity. Qed.
Example C06_example_fs :
  let o := run (c6_step true true) c6_init (setup_txn ref_setup 0 1) in
  (recv_cycles o, ack_cycles o, c6_env (setup_txn ref_setup 0 1)) = ([21%nat], [31%nat], true).
Proof. vm_compute. reflexivity. Qed.
(* defect 1 (USBDataPacketDeserializer): a CRC-corrupted data packet, then a valid SETUP transaction.
   The corrected model reports it; the code as found does not. *)
Definition tr_corrupt_then_setup (sp : N) : list N :=
  c6_idle 1 0 sp ++ c6_pkt (data_bytes 195 [1; 2; 3] 1) 0 sp ++ c6_idle 3 0 sp ++ setup_txn ref_setup 0 sp.
Example C06_refuted_as_found_1 :
  recv_cycles (run (c6_step true true) c6_init (tr_corrupt_then_setup 0)) = [32%nat] /\
  recv_cycles (run (c6_step false false) c6_init (tr_corrupt_then_setup 0)) = [] /\
  c6_env (tr_corrupt_then_setup 0) = true.
Proof. vm_compute. auto. Qed.
(* defect 2 (USBSetupDecoder.READ_DATA): SETUP token, corrupted data stage, the host's retry.
   Even with defect 1 repaired (fa = true) the retry is dropped unless fb = true. *)
Definition tr_setup_retry (sp : N) : list N :=
  c6_idle 1 0 sp ++ c6_pkt setup_token00 0 sp ++ c6_idle 2 0 sp ++ c6_pkt (data_bytes 195 ref_setup 256) 0 sp ++
  c6_idle 16 0 sp ++ setup_txn ref_setup 0 sp.
Example C06_refuted_as_found_2 :
  recv_cycles (run (c6_step true true) c6_init (tr_setup_retry 0)) = [56%nat] /\
  recv_cycles (run (c6_step true false) c6_init (tr_setup_retry 0)) = [] /\
  c6_env (tr_setup_retry 0) = true.
Proof. vm_compute. auto. Qed.
(* over-long data stage: a complete valid setup data packet followed by extra bytes is not a setup request *)
Example C06_overlong_not_reported :
  dclass (data_bytes 195 ref_setup 0 ++ [7]) = D0 /\
  recv_cycles (run (c6_step true true) c6_init (sweep_setup_extra 0 7)) = [] /\
  ack_cycles (run (c6_step true true) c6_init (sweep_setup_extra 0 (7 + 256 * 3))) = [].
Proof. vm_compute. auto. Qed.
(* a token cut off after one byte directly before a valid SETUP transaction does not hide it *)
Example C06_aborted_token_then_setup :
  recv_cycles (run (c6_step true true) c6_init (sweep_abort_then_setup 0 0)) = [27%nat] /\
  c6_env (sweep_abort_then_setup 0 0) = true.
Proof. vm_compute. auto. Qed.
(* a data stage consisting of the bare DATA0 PID (x = 3: after reset; 19: after a valid transaction) is not a request:
   the deserializer may signal a packet (stale CRC registers), but of length 14, never 8 *)
Example C06_runt_data_stage_not_reported :
  recv_cycles (run (c6_step true true) c6_init (sweep_setup_runt 0 3)) = [] /\
  ack_cycles (run (c6_step true true) c6_init (sweep_setup_runt 0 3)) = [] /\
  recv_cycles (run (c6_step true true) c6_init (sweep_setup_runt 0 19)) = [21%nat] /\
  ack_cycles (run (c6_step true true) c6_init (sweep_setup_runt 1 19)) = [31%nat].
Proof. vm_compute. auto. Qed.
