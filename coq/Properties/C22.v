(* C22 -- ULPI receive translation yields exactly the PHY's packet bytes
   (luna/gateware/interface/ulpi.py: ULPIRxEventDecoder + rx_active/rx_valid/rx_data of UTMITranslator;
   models and specification in Model/UlpiRx.v; the receive-path model is the property-satisfying behaviour,
   see the C22 files under findings/).

   Reading the statements.  h is ANY history of PHY-side input words (DIR, NXT, DATA; nothing is assumed),
   x any further cycle (all outputs are registered, so the effect of the last cycle of h is visible one
   cycle later).  phy_packets reads the packets off DIR/NXT/DATA alone: a receive starts when DIR rises together
   with NXT or with an RxCmd (DIR high for more than one cycle, NXT low) whose RxActive bit is set; it ends when
   DIR falls or with an RxCmd whose RxActive bit is clear; its bytes are DATA in the cycles with DIR and NXT high
   after the start.  utmi_packets is the UTMI receive convention used by all packet consumers
   (Handshake.packets_from): maximal rx_active runs, rx_data at rx_valid except in the run's first cycle.      *)
From Coq Require Import NArith List Bool. Import ListNotations.
From LunaLib Require Import Netlist Machine.
From LunaModel Require Import Handshake UlpiRx UlpiRx_proofs.
Open Scope N_scope.

Theorem C22_rx_packets : forall h x,
  utmi_packets (run rx_step rx_init (h ++ [x])) = phy_packets phy0 h.
Proof. exact rx_packets. Qed.
Print Assumptions C22_rx_packets.

Theorem C22_rx_status : forall h x,
  let o := last (run rx_step rx_init (h ++ [x])) 0 in
  o_lastcmd o = phy_last_rxcmd false 0 h /\
  o_status o = rxcmd_status (phy_last_rxcmd false 0 h) /\
  o_active o = isSome (snd (fold_left phy_next h phy0)).
Proof. exact rx_status. Qed.
Print Assumptions C22_rx_status.

(* utmi_rx_ok o (UlpiRx_proofs.v): rx_valid -> rx_active in the output word o; turnaround_ok, the one assumption on
   the PHY: NXT is low in the cycle in which DIR falls *)
Theorem C22_rx_valid_active : forall h, turnaround_ok false h = true ->
  forallb utmi_rx_ok (run rx_step rx_init h) = true.
Proof. exact rx_valid_active. Qed.
Print Assumptions C22_rx_valid_active.

Theorem C22_decoder_last : forall h, e_last (run_state dec_step dec_init h) = last_rxcmd false 0 h.
Proof. exact dec_last. Qed.
Print Assumptions C22_decoder_last.

(* Examples.  Input word = data + 256*nxt + 512*dir.
   (1) DIR rises with NXT (turn-around), RxCmd 0x5D (RxActive, line state 1, VBUS valid, ID), bytes C3 11,
       RxCmd 0x5E mid-packet, byte 22, RxCmd 0x4C (RxActive clear), DIR falls. *)
Definition ex_dir_start : list N := [0; 768+7; 512+93; 768+195; 768+17; 512+94; 768+34; 512+76; 0; 0].
Example C22_example_dir_start :
  phy_packets phy0 ex_dir_start = [[195; 17; 34]] /\
  utmi_packets (run rx_step rx_init (ex_dir_start ++ [0])) = [[195; 17; 34]] /\
  phy_last_rxcmd false 0 ex_dir_start = 76 /\ turnaround_ok false ex_dir_start = true.
Proof. vm_compute. repeat split. Qed.

(* (2) DIR already high for status updates; the receive is announced by an RxCmd and its first byte follows
       in the very next cycle; the packet is aborted by DIR falling. *)
Definition ex_rxcmd_start : list N := [512+3; 512+12; 512+28; 768+165; 768+90; 0].
Example C22_example_rxcmd_start :
  phy_packets phy0 ex_rxcmd_start = [[165; 90]] /\
  utmi_packets (run rx_step rx_init (ex_rxcmd_start ++ [0])) = [[165; 90]].
Proof. vm_compute. repeat split. Qed.

(* (3) a status flag example: RxCmd 0x0E = line state 2, VBUS valid -> flags 2 + 4 *)
Example C22_example_status : rxcmd_status 14 = 6 /\ rxcmd_status 0 = 16 /\ rxcmd_status 48 = 16 + 32.
Proof. vm_compute. repeat split. Qed.
