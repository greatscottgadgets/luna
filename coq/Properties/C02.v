(* C02 -- USB2 data packets are accepted iff their CRC16 is valid, payload intact.
   Model and specification: Model/Usb2DataRx.v (USBDataPacketReceiver(standalone=True) of
   luna/gateware/usb/usb2/packet.py with its CRC16 unit and interpacket timer).  One list element = one
   `usb` clock cycle; input word = rx_active + 2 rx_valid + 4 rx_data; output word = stream.valid +
   2 stream.next + 4 stream.payload + 2^10 packet_complete + 2^11 crc_mismatch + 2^12 ready_for_response +
   2^13 packet_id.

   The specification machine rxs_step only accumulates the bytes of the packet in progress (a packet is
   a maximal rx_active run, its bytes are the rx_valid cycles of the run after the run's first cycle) and,
   when the packet ends, decides with the declarative function pkt_verdict on the complete byte list:
   V_GOOD (packet_complete) iff the first byte is a DATA0/1/2/MDATA PID byte, at least two bytes follow and
   crc16_usb of all but the last two of them equals the last two (low byte first); V_BAD (crc_mismatch)
   iff PID and length are so but the CRC differs; otherwise nothing.  While a data packet is at least two
   bytes long, each new byte pushes the byte received two bytes earlier onto the stream.  A good packet
   starts the inter-packet delay; ready_for_response is raised D cycles after the packet_complete strobe.

   Environment (rxs_env): rx_valid only with rx_active (UTMI), and rx_active stays low during the D+1
   cycles in which the receiver waits out the delay after a good packet (on a real bus the next SYNC alone
   is longer).  Nothing else is assumed: arbitrary bytes, lengths, rx_valid gaps, packet sequences. *)
From Coq Require Import NArith List Bool. Import ListNotations.
From LunaLib Require Import Netlist Bits Machine.
From LunaModel Require Import Crc IpTimer Usb2DataRx Usb2DataRx_proofs.
Open Scope N_scope.

(* 1. the receiver model equals the specification machine, cycle by cycle, for every timer configuration
      whose delay D for the configured speed is reachable by the counter *)
Theorem C02_receiver_refines : forall cmax w tbl speed D tb tt,
  tbl speed = Some (D, tb, tt) -> D <= cmax + 1 -> cmax + 1 < 2 ^ w ->
  forall tr, env_ok rxs_state (rxs_step D) rxs_env rxs_init tr = true ->
  run (rx_step cmax w tbl speed) rx_init tr = run (rxs_step D) rxs_init tr.
Proof. exact rx_from_reset. Qed.
Print Assumptions C02_receiver_refines.

(* 2. the strobes raised along a history are exactly the verdicts on its packets, in order *)
Theorem C02_verdict_events : forall D tr x,
  filter is_verdict (map o_verdict (run (rxs_step D) rxs_init (tr ++ [x])))
  = filter is_verdict (map pkt_verdict (rx_packets None tr)).
Proof. exact rxs_verdict_events_reset. Qed.
Print Assumptions C02_verdict_events.

(* 3. what the verdict means *)
Theorem C02_verdict_framed : forall p payload lo hi,
  pkt_verdict (p :: payload ++ [lo; hi]) =
  if data_pid_byte p then (if crc16_usb payload =? lo + 256 * hi then V_GOOD else V_BAD) else V_NONE.
Proof. exact pkt_verdict_framed. Qed.
Print Assumptions C02_verdict_framed.

Theorem C02_verdict_short : forall l, (length l <= 2)%nat -> pkt_verdict l = V_NONE.
Proof. exact pkt_verdict_short. Qed.
Print Assumptions C02_verdict_short.

Theorem C02_good_iff : forall l, Forall (fun b => b < 256) l ->
  (pkt_verdict l = V_GOOD <->
   exists p payload, data_pid_byte p = true /\
     l = p :: payload ++ [crc16_usb payload mod 256; crc16_usb payload / 256]).
Proof. exact pkt_verdict_good_iff. Qed.
Print Assumptions C02_good_iff.

(* 4. no cycle shows both strobes *)
Theorem C02_never_both : forall D tr,
  Forall (fun o => o_complete o && o_mismatch o = false) (run (rxs_step D) rxs_init tr).
Proof. intros. apply rxs_never_both. apply rxs_wf_init. Qed.
Print Assumptions C02_never_both.

(* 5. the streamed bytes are exactly the payloads (bytes between PID and CRC) of the data packets, in order;
      for a packet still in progress: its bytes so far minus the last two; nothing for other packets *)
Theorem C02_streamed : forall D tr, env_ok rxs_state (rxs_step D) rxs_env rxs_init tr = true ->
  streamed (run (rxs_step D) rxs_init tr)
  = flat_map pkt_stream (rx_packets None tr) ++ pkt_stream_opt (rx_pending None tr).
Proof. exact rxs_streamed_reset. Qed.
Print Assumptions C02_streamed.

Theorem C02_stream_framed : forall p payload lo hi,
  pkt_stream (p :: payload ++ [lo; hi]) = if data_pid_byte p then payload else [].
Proof. exact pkt_stream_framed. Qed.
Print Assumptions C02_stream_framed.

(* 6. ready_for_response in cycle t implies a packet_complete strobe in cycle t - D *)
Theorem C02_ready_follows_complete : forall D tr t,
  o_ready (nth t (run (rxs_step D) rxs_init tr) 0) = true ->
  (N.to_nat D <= t)%nat /\ o_complete (nth (t - N.to_nat D) (run (rxs_step D) rxs_init tr) 0) = true.
Proof. exact rxs_ready_follows_complete. Qed.
Print Assumptions C02_ready_follows_complete.

(* 7. the full-module model is, by construction, the receiver FSM core (the part tied to the netlist by exhaustive
      reachability) composed with the CRC16 unit of Model/Crc.v (C30) and the counter of Model/IpTimer.v (C05) *)
Theorem C02_model_is_composition : forall cmax w tbl speed s i,
  rx_step cmax w tbl speed s i =
  let '(c', (o, st_crc, st_tm)) :=
    rxo_core (rxo_of s) (rx_act i) (rx_val i) (rx_dat i) (crc_out (x_crc s)) (N.odd (ip_strobes tbl (x_cnt s) speed)) in
  ({| x_fsm := c_fsm c'; x_apid := c_apid c'; x_lo := c_lo c'; x_hi := c_hi c'; x_lbc := c_lbc c'; x_lwc := c_lwc c';
      x_crc := if st_crc then reg_init 16 else crc_reg_next poly16 (x_crc s) [(rx_val i, Bits.N2bits 8 (rx_dat i))];
      x_done := c_done c'; x_bad := c_bad c'; x_pid := c_pid c';
      x_cnt := ip_next cmax w (x_cnt s) st_tm |}, o).
Proof. exact rx_step_compose. Qed.
Print Assumptions C02_model_is_composition.

(* ---- non-vacuity and concrete runs (LUNA's configuration: 60 MHz, full speed, D = 10) ---- *)
Definition c02_pk (bs : list N) : list N := 1 :: map (fun b => 3 + 4 * b) bs.
(* the request GET_DESCRIPTOR(DEVICE), wLength 64, with its CRC dd 94, then a DATA1 zero-length packet,
   then a packet with a corrupted CRC, a one-byte packet and a handshake *)
Definition c02_tr : list N :=
  [0] ++ c02_pk [195; 128; 6; 0; 1; 0; 0; 64; 0; 221; 148] ++ repeat 0 14 ++ c02_pk [75; 0; 0] ++ repeat 0 13 ++
  c02_pk [195; 1; 2; 3; 4] ++ [0; 0] ++ c02_pk [195; 7] ++ [0] ++ c02_pk [210] ++ [0; 0].

Example C02_env_holds : env_ok rxs_state (rxs_step 10) rxs_env rxs_init c02_tr = true.
Proof. vm_compute. reflexivity. Qed.
Example C02_config : tbl_60 false FULL = Some (10, 32, 80) /\ 10 <= 640 + 1 /\ 640 + 1 < 2 ^ 10.
Proof. vm_compute. repeat split; discriminate. Qed.
Example C02_packets : rx_packets None c02_tr =
  [[195; 128; 6; 0; 1; 0; 0; 64; 0; 221; 148]; [75; 0; 0]; [195; 1; 2; 3; 4]; [195; 7]; [210]].
Proof. vm_compute. reflexivity. Qed.
Example C02_verdicts : map pkt_verdict (rx_packets None c02_tr) = [V_GOOD; V_GOOD; V_BAD; V_NONE; V_NONE].
Proof. vm_compute. reflexivity. Qed.
Example C02_streamed_bytes : streamed (run (rx_step 640 10 (tbl_60 false) FULL) rx_init c02_tr)
  = [128; 6; 0; 1; 0; 0; 64; 0] ++ [] ++ [1; 2].
Proof. vm_compute. reflexivity. Qed.
Example C02_model_is_spec_here :
  run (rx_step 640 10 (tbl_60 false) FULL) rx_init c02_tr = run (rxs_step 10) rxs_init c02_tr.
Proof. vm_compute. reflexivity. Qed.
(* the runtime oracle, which carries its state packed (rxs_enc / rxs_dec) from cycle to cycle, accepts the model's own
   outputs on this history *)
Example C02_monitor_accepts :
  first_bad (rxs_mon 10) 0 (rxs_enc rxs_init)
            (combine c02_tr (run (rx_step 640 10 (tbl_60 false) FULL) rx_init c02_tr)) = None.
Proof. vm_compute. reflexivity. Qed.
Example C02_monitor_rejects_flipped_strobe :
  first_bad (rxs_mon 10) 0 (rxs_enc rxs_init)
            (combine c02_tr (map (fun o => if o_mismatch o then o - 2048 + 1024 else o)
                                 (run (rx_step 640 10 (tbl_60 false) FULL) rx_init c02_tr))) <> None.
Proof. vm_compute. discriminate. Qed.
