(* C10 -- Unsupported or unclaimed control requests are STALLed, never answered.

   Machine: the control-endpoint model of Model/CtlXfer.v (USBControlEndpoint stage FSM + StandardRequestHandler +
   request-handler multiplexer + StallOnlyRequestHandler fallback; the property-satisfying behaviour, see C07).
   Specification (Model/CtlStall.v): `unsupported skip f` = the request of SETUP word f is not claimed by the standard
   handler (not a standard request, or skiplisted) or is a standard request outside
   {GET_STATUS, SET_ADDRESS, GET_DESCRIPTOR, GET_CONFIGURATION, SET_CONFIGURATION, CLEAR_FEATURE(ENDPOINT_HALT) on an endpoint}.
   The observer c10_next watches every such request from the cycle after its SETUP packet is reported, for as long
   as its eight setup bytes are presented and no further SETUP packet is reported; in each watched cycle
   stall_cycle_ok demands: no transmit data, no data source started, no NAK, no address / configuration /
   endpoint-halt strobe, ACK only for the SETUP packet itself or a PING, and STALL requested exactly when the request
   handler is asked for data or status (claimed standard requests: the first time only). *)
From Coq Require Import NArith List Bool. Import ListNotations.
From LunaModel Require Import CtlXfer CtlXfer_proofs CtlStall CtlStall_proofs.
Open Scope N_scope.

(* For every endpoint number, packet size, skiplist (a predicate of the setup bytes), from EVERY state of the control
   endpoint and for EVERY input history (no environment hypothesis): all watched cycles are as demanded.  All 2^64
   setup packets and both data-stage directions are covered: `unsupported` is a predicate on the setup bytes. *)
Theorem C10_unsupported_requests_stalled : forall EP mps spw skip gate,
  (forall f i, same_fieldsb f i = true -> skip i = skip f) ->
  forall tr x, stalled_along EP skip st10_0 tr (xrun (cx_step EP mps spw skip gate) x tr) = true.
Proof. exact unsupported_requests_stalled. Qed.
Print Assumptions C10_unsupported_requests_stalled.

(* when the watched cycles occur: data / status requests are exactly the answer opportunities of the stage protocol
   (the statement is C07_stage_protocol's) *)
Theorem C10_opportunities_are_the_stage_protocols : forall EP mps spw skip gate tr, cx_env_trace cx_env0 tr = true ->
  holds_along EP sp0 tr (xrun (cx_step EP mps spw skip gate) cx_init tr).
Proof. exact stage_protocol. Qed.
Print Assumptions C10_opportunities_are_the_stage_protocols.

(* a standard request outside the supported set reaches the handler's UNHANDLED state *)
Theorem C10_dispatch_unsupported : forall i, supported_std i = false -> dispatch i = HUnhandled.
Proof. exact dispatch_unsupported. Qed.
Print Assumptions C10_dispatch_unsupported.

(* ---- concrete runs: the observer does watch, and STALL is what it sees ---------------------------------- *)
Definition tok_setup0 : N := 16.   Definition tok_in0 : N := 4.   Definition tok_out0 : N := 8.
Definition rcv : N := 2 ^ 10.      Definition rfr : N := 2.       Definition newtok : N := 1.
Definition hs_ack : N := 2 ^ 77.   Definition rx_rfr : N := 2 ^ 76.
(* CLEAR_FEATURE(DEVICE_REMOTE_WAKEUP) to the device: standard, selector 1, no data stage *)
Definition clear_wakeup : N := 1 * 2 ^ 19 + 1 * 2 ^ 27.
(* vendor request 0x42, device-to-host, wLength 4 *)
Definition vendor_in : N := 2 ^ 11 + 2 * 2 ^ 12 + 66 * 2 ^ 19 + 4 * 2 ^ 59.

Example C10_unsupported_examples :
  unsupported skip_none clear_wakeup = true /\ unclaimed skip_none clear_wakeup = false /\
  unsupported skip_none vendor_in = true /\ unclaimed skip_none vendor_in = true.
Proof. vm_compute. auto. Qed.

(* CLEAR_FEATURE(remote wakeup): status-stage IN answered with STALL (cycle 3); a later host ACK (cycle 4) changes
   nothing; a second IN is not answered at all (cycle 6) *)
Definition c10_trace1 : list N :=
  [ tok_setup0 + newtok; tok_setup0 + clear_wakeup + rcv; tok_in0 + clear_wakeup + newtok; tok_in0 + clear_wakeup + rfr;
    tok_in0 + clear_wakeup + hs_ack; tok_in0 + clear_wakeup + newtok; tok_in0 + clear_wakeup + rfr ].
Example C10_example1 :
  map (fun o => (o_sr o, o_stall o, o_txv o, o_halt o)) (xrun (cx_step 0 64 11 skip_none false) cx_init c10_trace1) =
  [ (false, false, false, 0); (false, false, false, 0); (false, false, false, 0); (true, true, false, 0);
    (false, false, false, 0); (false, false, false, 0); (true, false, false, 0) ].
Proof. vm_compute. reflexivity. Qed.

(* vendor IN request: the data-stage IN is STALLed (cycle 3), and again at the status stage (cycle 6: OUT data packet) *)
Definition c10_trace2 : list N :=
  [ tok_setup0 + newtok; tok_setup0 + vendor_in + rcv; tok_in0 + vendor_in + newtok; tok_in0 + vendor_in + rfr;
    tok_out0 + vendor_in + newtok; tok_out0 + vendor_in; tok_out0 + vendor_in + rx_rfr ].
Example C10_example2 :
  map (fun o => (o_dr o, o_sr o, o_stall o, o_txv o)) (xrun (cx_step 0 64 11 skip_none false) cx_init c10_trace2) =
  [ (false, false, false, false); (false, false, false, false); (false, false, false, false); (true, false, true, false);
    (false, false, false, false); (false, false, false, false); (false, true, true, false) ].
Proof. vm_compute. reflexivity. Qed.

(* the observer is watching from cycle 2 on in both runs (non-vacuity of the theorem on these histories) *)
Example C10_watching :
  t_cur (fold_left (fun s io => c10_next skip_none s (fst io) (snd io))
                   (combine c10_trace1 (xrun (cx_step 0 64 11 skip_none false) cx_init c10_trace1)) st10_0)
  = Some (tok_setup0 + clear_wakeup + rcv).
Proof. vm_compute. reflexivity. Qed.
