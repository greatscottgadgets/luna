(* C36 -- Header and data packets are transmitted with correct framing and CRCs.
   Models: LunaModel.RawTx (RawPacketTransmitter of luna/gateware/usb/usb3/link/transmitter.py and
   RawHeaderPacketReceiver of link/receiver.py); data receiver: the specification of LunaModel.DataRx (C40).

   Reading guide.  A packet `p : rtx_pkt` is the header given to the transmitter (dw0 dw1 dw2 and the word `p_lf` of
   link-layer fields, of which bits 16..26 = sequence number, reserved, hub depth, delayed, deferred are sent and the
   CRC fields are computed) together with the beats (word, byte-valid mask) its data_sink producer will present
   (no beats = zero-length packet).  `rtx_pkt_ok p`: the header fields are 32-bit values and the beats obey the stream
   contract (full words, then one last word with 1..4 leading bytes valid).

   `wire crc16_hdr crc32_usb p` is the WIRE FORMAT SPECIFICATION (Model/RawTx.v, Section Wire): words (data, ctrl)
       SHP SHP SHP EPF | dw0 | dw1 | dw2 | crc16(dw0..dw2) + link control word bits 16..26 + their crc5
   and, for a data header (dw0[0:4] = 8):
       SDP SDP SDP EPF | the symbol stream  payload bytes ++ 4 bytes crc32(payload) ++ END END END EPF  cut into words
       of four symbols and zero-padded (ctrl bits exactly on the framing symbols)
   or, when the header is marked delayed:  SDP SDP SDP EPF | EDB EDB EDB EPF.

   `rtx_loop U p s0 beats true (r0 :: rdys)` is the closed loop: the transmitter model, the producer, `generate` pulsed
   in the first cycle, source.ready = the arbitrary pattern r0 :: rdys (one element per clock cycle).
   `wire_run ws rdys` is the source-side specification: the words ws are presented one after the other, each held until
   ready; `done` accompanies the acceptance of the last word; afterwards the unit is idle (valid = 0). *)
From Coq Require Import NArith List Bool. Import ListNotations.
From LunaLib Require Import Netlist Machine.
From LunaModel Require Import Crc DataRx DataRx_proofs RawTx RawTx_proofs.
Open Scope N_scope.

(* (1) framing, cycle-exact, for every header, payload and ready pattern: what the transmitter presents on `source`
   (valid, data, ctrl) and `done`, in every cycle, is the wire specification played against the ready pattern *)
Theorem C36_framing : forall p r0 rdys, rtx_pkt_ok p ->
  map rtx_obs_of (rtx_loop drx_real_units p (rtx_init drx_real_units) (p_beats p) true (r0 :: rdys))
  = rtx_idle_obs :: wire_run (wire crc16_hdr crc32_usb p) rdys.
Proof. exact rtx_real_frames. Qed.
Print Assumptions C36_framing.

(* ... which means: the accepted words (valid & ready) are a prefix of the wire, one more word per ready cycle, the
   whole wire once there were enough ready cycles; `done` is raised exactly once, when the last word is accepted *)
Theorem C36_accepted_words : forall ws rdys,
  obs_accepted rdys (wire_run ws rdys) = firstn (rtx_count_true rdys) ws.
Proof. exact (fun ws rdys => wire_run_accepted rdys ws). Qed.
Print Assumptions C36_accepted_words.

Theorem C36_done_once : forall ws rdys,
  obs_dones (wire_run ws rdys)
  = if (Nat.ltb 0 (length ws) && Nat.leb (length ws) (rtx_count_true rdys))%bool then 1%nat else 0%nat.
Proof. exact (fun ws rdys => wire_run_dones rdys ws). Qed.
Print Assumptions C36_done_once.

(* (2) the wire specification written word by word, as SEND_LAST_WORD / SEND_CRC / FINISH_DPP produce it
   (rtx_wire_x: last word = payload tail + first CRC bytes, then the rest of the CRC + END..., then what is left of
   END END END EPF), equals the declarative symbol-stream form above *)
Theorem C36_wire_word_by_word : forall p, beats_ok (p_beats p) = true ->
  wire crc16_hdr crc32_usb p = rtx_wire_x crc16_hdr crc32_usb p.
Proof. intros p H. exact (rtx_wire_explicit crc16_hdr crc32_usb p H Crc_proofs.crc32_usb_lt). Qed.
Print Assumptions C36_wire_word_by_word.

(* (3) round trip, header: feeding the five header words -- with any invalid words g0..g4 interleaved, then any word x --
   to RawHeaderPacketReceiver (waiting for a header, expecting this sequence number) makes it strobe new_packet with
   exactly the transmitted header (dw0 dw1 dw2 and the fourth word with good CRCs) *)
Theorem C36_header_roundtrip : forall p s g0 g1 g2 g3 g4 x,
  rf s = RWAIT ->
  Forall rhr_invalid g0 -> Forall rhr_invalid g1 -> Forall rhr_invalid g2 -> Forall rhr_invalid g3 -> Forall rhr_invalid g4 ->
  let d3 := rtx_dw3 (crc16_hdr [p_dw0 p; p_dw1 p; p_dw2 p]) (p_lf p) in
  let s' := rhr_state_after drx_real_units s (bits (p_lf p) 16 3)
              (g0 ++ [(true, RTX_HPSTART)] ++ g1 ++ [(true, (p_dw0 p, 0))] ++ g2 ++ [(true, (p_dw1 p, 0))] ++
               g3 ++ [(true, (p_dw2 p, 0))] ++ g4 ++ [(true, (d3, 0))] ++ [x]) in
  rf s' = RWAIT /\ rnew s' = true /\
  rout s' = p_dw0 p + 4294967296 * (p_dw1 p + 4294967296 * (p_dw2 p + 4294967296 * d3)).
Proof.
  intros p s g0 g1 g2 g3 g4 x Hs G0 G1 G2 G3 G4.
  apply (rhr_roundtrip _ _ _ _ _ drx_real_tracks Crc_proofs.crc16_hdr_lt p (bits (p_lf p) 16 3) s g0 g1 g2 g3 g4 x Hs eq_refl G0 G1 G2 G3 G4).
Qed.
Print Assumptions C36_header_roundtrip.

(* (4) round trip, data: the specification of DataPacketReceiver (C40: events over the valid words; C40_events_are_spec
   makes this the behaviour of its model under any idle words) run over the transmitted words of a data packet whose
   data-length field equals the payload length yields payload beats carrying exactly the payload, then `good`
   (`more` = what is left of the end framing, here followed by arbitrary further traffic `rest`) *)
Theorem C36_data_roundtrip : forall lw p rest, rtx_pkt_ok p ->
  bits (p_dw0 p) 0 5 = DRX_TYPE_DATA -> p_delayed p = false ->
  bits (p_dw1 p) 16 lw = N.of_nat (length (p_payload p)) ->
  let ws := [p_dw0 p; p_dw1 p; p_dw2 p; rtx_dw3 (crc16_hdr [p_dw0 p; p_dw1 p; p_dw2 p]) (p_lf p)] in
  exists pay more,
    sp_run crc16_hdr crc32_usb lw SIdle (wire crc16_hdr crc32_usb p ++ rest)
    = sp_beats lw ws 0 pay ++ Report (sp_hdr ws) true :: sp_run crc16_hdr crc32_usb lw SIdle (more ++ rest) /\
    flat_map drx_beat_bytes (sp_beats lw ws 0 pay) = p_payload p.
Proof. exact rtx_data_roundtrip. Qed.
Print Assumptions C36_data_roundtrip.

(* ---- non-vacuity ------------------------------------------------------------------------------------------ *)
(* the 1-byte packet recorded in tests/test_usb3_data.py: header 0x32000008 0x00010000 0x08000000, link control word 0x001
   (bits 16..26 of 0xE801A822), payload FF *)
Definition C36_p1 : rtx_pkt :=
  {| p_dw0 := 838860808; p_dw1 := 65536; p_dw2 := 134217728; p_lf := 65536; p_beats := [(255, 1)] |}.
Example C36_wire_recorded_1B :
  wire crc16_hdr crc32_usb C36_p1
  = [(4160486395, 15); (838860808, 0); (65536, 0); (134217728, 0); (3892422690, 0);
     (4150025308, 15); (255, 0); (4261281279, 14); (247, 1)].
Proof. vm_compute. reflexivity. Qed.
Example C36_p1_ok : rtx_pkt_ok C36_p1 /\ bits (p_dw0 C36_p1) 0 5 = DRX_TYPE_DATA /\ p_delayed C36_p1 = false /\
                    bits (p_dw1 C36_p1) 16 11 = N.of_nat (length (p_payload C36_p1)).
Proof. unfold rtx_pkt_ok. vm_compute. repeat split; reflexivity. Qed.
(* a 6-byte packet against a stalling consumer: ready pattern 1 0 1 1 0 0 1 1 1 1 1 1 1 *)
Example C36_run_6B :
  let p := {| p_dw0 := 8; p_dw1 := 6 * 65536; p_dw2 := 0; p_lf := 0; p_beats := [(67305985, 15); (1541, 3)] |} in
  let rdys := [true; false; true; true; false; false; true; true; true; true; true; true; true] in
  obs_accepted rdys (tl (map rtx_obs_of (rtx_loop drx_real_units p (rtx_init drx_real_units) (p_beats p) true (true :: rdys))))
  = wire crc16_hdr crc32_usb p.
Proof. vm_compute. reflexivity. Qed.
