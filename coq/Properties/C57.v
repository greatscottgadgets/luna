(* C57 -- the USB serial (CDC-ACM) device carries bytes both ways and answers CDC requests.   PARTIAL.
   Model and specification: Model/C57_Serial.v (part A: ACMRequestHandlers; part B: the whole-device specification as a
   host-side observer `c57_step` of the UTMI wire traffic and the two byte streams).

   What is a THEOREM here:
     C57_acm_handler_reading: ACMRequestHandlers' model claims exactly class request 0x20, ACKs its data stage, answers its
       status stage with a zero-length packet (the netlist of ACMRequestHandlers is proved equal to this model on all inputs
       by the tie theorem C57_acm_netlist, props/C57.py);
     C57_spec_*: reading of the specification's request classification: vendor / reserved requests and class requests other
       than SET_LINE_CODING must be STALLed; SET_LINE_CODING must be accepted; GET_DESCRIPTOR returns the advertised bytes;
     C57_pairing_injective, C57_observer_packing: the observer's state packing (pairing function, state encoding) is
       faithful: the run-time oracle evaluates exactly the typed observer.
   What is only MONITORED: that the real USBSerialDevice satisfies the specification -- the observer is evaluated over
   simulator runs of the complete device driven by the closed-loop host-script generator (props/C57.py).  No theorem
   about the complete device is claimed.  The composition of the component properties (C01-C14) across the half-duplex
   turnaround is not proved.                                                                                        *)
From Coq Require Import NArith List Bool. Import ListNotations.
From LunaLib Require Import Netlist Machine.
From LunaModel Require Import Crc Handshake Usb2DataTx TokenDet C20_TxPath C57_Pack C57_Serial C57_Serial_proofs.
Open Scope N_scope.

Theorem C57_acm_handler_reading : forall i,
  let o := snd (acm_step tt i) in
  (ao_claim o = true <-> (bits i 0 2 = 1 /\ bits i 2 8 = 32)) /\
  ao_ack o = (ao_claim o && N.testbit i 10) /\
  ao_txvalid o = (ao_claim o && N.testbit i 11) /\
  ao_txlast o = ao_txvalid o.
Proof. exact acm_reading. Qed.
Print Assumptions C57_acm_handler_reading.

Theorem C57_spec_vendor_reserved_stall : forall P req, rq_type req = 2 \/ rq_type req = 3 -> classify_request P req = C_STALL.
Proof. exact classify_vendor_reserved. Qed.
Print Assumptions C57_spec_vendor_reserved_stall.

Theorem C57_spec_other_class_stall : forall P req, rq_type req = 1 -> rq_byte req 1 <> 32 -> classify_request P req = C_STALL.
Proof. exact classify_class_other. Qed.
Print Assumptions C57_spec_other_class_stall.

Theorem C57_spec_set_line_coding_accepted : forall P req, rq_byte req 0 = 33 -> rq_byte req 1 = 32 -> rq_word req 6 <> 0 ->
  classify_request P req = C_OUT_DATA (rq_word req 6) DATA1B.
Proof. exact classify_set_line_coding. Qed.
Print Assumptions C57_spec_set_line_coding_accepted.

Theorem C57_spec_get_descriptor : forall P req, rq_byte req 0 = 128 -> rq_byte req 1 = 6 -> rq_word req 6 <> 0 ->
  classify_request P req =
  match lookup (rq_word req 2) (sp_desc P) with Some _ => C_IN (rq_word req 2) 0 (rq_word req 6) DATA1B | None => C_STALL end.
Proof. exact classify_get_descriptor. Qed.
Print Assumptions C57_spec_get_descriptor.

Theorem C57_pairing_injective : forall a b, nunpair (npair a b) = (a, b).
Proof. exact nunpair_npair. Qed.
Print Assumptions C57_pairing_injective.

Theorem C57_observer_packing : forall s, s_wf s -> s_dec (s_enc s) = s.
Proof. exact s_dec_enc. Qed.
Print Assumptions C57_observer_packing.

(* ---- concrete runs of the observer (non-vacuity; what it accepts and what it rejects) ------------------------ *)
Definition P0 : sparams := {| sp_mps := 8; sp_desc := [(256, [18; 1; 0; 2])]; sp_T := 16; sp_naks := 6; sp_strict := true |}.
Definition P0w : sparams := {| sp_mps := 8; sp_desc := [(256, [18; 1; 0; 2])]; sp_T := 16; sp_naks := 6; sp_strict := false |}.
(* cycle builders: device inputs rx_active + 2 rx_valid + 4 rx_data + 1024 tx_ready; outputs tx_valid + 2 tx_data *)
Definition host_pkt (bs : list N) : list (N * N) :=
  (1 + 1024, 0) :: map (fun b => (1 + 2 + 4 * b + 1024, 0)) bs ++ [(1024, 0)].
Definition dev_pkt (bs : list N) : list (N * N) := map (fun b => (1024, 1 + 2 * b)) bs ++ [(1024, 0)].
Definition idle (n : nat) : list (N * N) := repeat (1024, 0) n.
Definition setup_tok : list N := [45; 0; 16].      (* SETUP addr 0 ep 0 *)
Definition out_tok : list N := [225; 0; 16].       (* OUT   addr 0 ep 0 *)
Definition in_tok : list N := [105; 0; 16].        (* IN    addr 0 ep 0 *)
Definition setup_data (req : list N) : list N := tx_wire 195 req.

(* a vendor request with a 4-byte OUT data stage: 40 42 00 00 00 00 04 00 *)
Definition vendor_out : list (N * N) :=
  idle 2 ++ host_pkt setup_tok ++ idle 2 ++ host_pkt (setup_data [64; 66; 0; 0; 0; 0; 4; 0]) ++ idle 3 ++ dev_pkt [210]
  ++ idle 3 ++ host_pkt out_tok ++ idle 2 ++ host_pkt (tx_wire 75 [1; 2; 3; 4]) ++ idle 3.
Example C57_vendor_out_stalled_accepted :
  first_bad (c57_mon P0) 0 (s_enc s_init) (vendor_out ++ dev_pkt [30] ++ idle 20) = None.
Proof. vm_compute. reflexivity. Qed.
Example C57_vendor_out_acked_rejected :
  first_bad (c57_mon P0) 0 (s_enc s_init) (vendor_out ++ dev_pkt [210] ++ idle 20) <> None.
Proof. vm_compute. discriminate. Qed.
(* what the unchanged code does: no answer at all -- rejected when the host's patience (16 cycles) runs out *)
Example C57_vendor_out_silence_rejected :
  first_bad (c57_mon P0) 0 (s_enc s_init) (vendor_out ++ idle 40) = Some (N.of_nat (length vendor_out) + 12).
Proof. vm_compute. reflexivity. Qed.

(* the weak reading (sp_strict = false) tolerates the silence, but then insists on the STALL at the status stage *)
Example C57_weak_silence_then_status_stall_accepted :
  first_bad (c57_mon P0w) 0 (s_enc s_init) (vendor_out ++ idle 20 ++ host_pkt in_tok ++ idle 3 ++ dev_pkt [30] ++ idle 20) = None.
Proof. vm_compute. reflexivity. Qed.
Example C57_weak_silence_then_status_zlp_rejected :
  first_bad (c57_mon P0w) 0 (s_enc s_init) (vendor_out ++ idle 20 ++ host_pkt in_tok ++ idle 3 ++ dev_pkt (tx_wire 75 []) ++ idle 20) <> None.
Proof. vm_compute. discriminate. Qed.

(* GET_DESCRIPTOR(device), wLength 2: 80 06 00 01 00 00 02 00 -> DATA1 12 01, ACK, status OUT ZLP, ACK *)
Definition get_desc : list (N * N) :=
  idle 2 ++ host_pkt setup_tok ++ idle 2 ++ host_pkt (setup_data [128; 6; 0; 1; 0; 0; 2; 0]) ++ idle 3 ++ dev_pkt [210]
  ++ idle 3 ++ host_pkt in_tok ++ idle 3.
Example C57_get_descriptor_accepted :
  first_bad (c57_mon P0) 0 (s_enc s_init)
    (get_desc ++ dev_pkt (tx_wire 75 [18; 1]) ++ idle 2 ++ host_pkt [210] ++ idle 3 ++ host_pkt out_tok ++ idle 2
     ++ host_pkt (tx_wire 75 []) ++ idle 3 ++ dev_pkt [210] ++ idle 20) = None.
Proof. vm_compute. reflexivity. Qed.
Example C57_get_descriptor_wrong_byte_rejected :
  first_bad (c57_mon P0) 0 (s_enc s_init) (get_desc ++ dev_pkt (tx_wire 75 [18; 2]) ++ idle 5) <> None.
Proof. vm_compute. discriminate. Qed.
Example C57_get_descriptor_too_long_rejected :
  first_bad (c57_mon P0) 0 (s_enc s_init) (get_desc ++ dev_pkt (tx_wire 75 [18; 1; 0]) ++ idle 5) <> None.
Proof. vm_compute. discriminate. Qed.

(* host -> device bytes: OUT ep 4 (e1 00 42: addr 0, ep 4), DATA0 [7; 8], ACK, then the rx stream shows 7, 8 *)
Definition out4_tok : list N := [225; 0; 66].
Definition rx_byte (b : N) : N * N := (1024 + 2 ^ 25, 2 ^ 10 + 2 ^ 13 * b).    (* rx stream valid & ready, payload b *)
Example C57_rx_stream_in_order_accepted :
  first_bad (c57_mon P0) 0 (s_enc s_init)
    (idle 2 ++ host_pkt out4_tok ++ idle 2 ++ host_pkt (tx_wire 195 [7; 8]) ++ idle 3 ++ dev_pkt [210]
     ++ [rx_byte 7; rx_byte 8] ++ idle 5) = None.
Proof. vm_compute. reflexivity. Qed.
Example C57_rx_stream_swapped_rejected :
  first_bad (c57_mon P0) 0 (s_enc s_init)
    (idle 2 ++ host_pkt out4_tok ++ idle 2 ++ host_pkt (tx_wire 195 [7; 8]) ++ idle 3 ++ dev_pkt [210]
     ++ [rx_byte 8; rx_byte 7] ++ idle 5) <> None.
Proof. vm_compute. discriminate. Qed.
Example C57_rx_stream_after_nak_rejected :
  first_bad (c57_mon P0) 0 (s_enc s_init)
    (idle 2 ++ host_pkt out4_tok ++ idle 2 ++ host_pkt (tx_wire 195 [7; 8]) ++ idle 3 ++ dev_pkt [90]
     ++ [rx_byte 7] ++ idle 5) <> None.
Proof. vm_compute. discriminate. Qed.
