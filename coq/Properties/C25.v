(* C25 -- The gateware full-speed PHY encodes and decodes USB line signalling  (PARTIAL: see the end of this file).

   Specification (Model/GwPhyCodec.v): bytes LSB first; `stuff n` inserts a 0 after six consecutive 1s (n = ones already
   on the line: SYNC's final 1 counts, USB 2.0 7.1.9); `nrzi` (0 = transition); `frame bs` = NRZI (SYNC ++ stuffed
   bytes) ++ SE0 SE0 J; `unframe` is the declarative decoder.  `frame0` is the same with the stuffer started at 0 after
   SYNC, which is what LUNA's transmitter does; it equals `frame` unless the first byte starts with five 1s (never a PID).

   Models (Model/GwPhy.v, code-shaped, tied to /repo by the obligations in props/C25.py):
     txu / txio / tx_step   TxShifter + TxBitstuffer + TxPipeline FSM (12 MHz)  /  synchronisers + strobe counter +
                            TxNRZIEncoder (48 MHz)  /  the two-clock GatewarePHY transmit side incl. op-mode mux
     rxf_step               RxPipeline from D+/D- to the write ports of its two FIFOs (48 MHz)
     rxb_step               the same, abstracted to one step per recovered line symbol *)
From Coq Require Import NArith List Bool Lia. Import ListNotations.
From LunaLib Require Import Netlist Machine.
From LunaModel Require Import GwPhyCodec GwPhyCodec_proofs GwPhy GwPhyTxU_proofs GwPhyTxIo_proofs GwPhyRxB_proofs GwPhyRxC_proofs.
Open Scope N_scope.

(* ---- 1. the line code, for all byte sequences ---- *)
Theorem C25_codec_roundtrip : forall bs, Forall (fun b => b < 256) bs -> unframe (frame bs) = RxBytes bs.
Proof. exact unframe_frame. Qed.
Print Assumptions C25_codec_roundtrip.

Theorem C25_unstuff_stuff : forall l n, (n <= 5)%nat -> unstuff n (stuff n l) = Some l.
Proof. exact unstuff_stuff. Qed.
Print Assumptions C25_unstuff_stuff.

(* never more than six consecutive ones on the line, however long the runs of ones in the payload *)
Theorem C25_stuffed_at_most_six_ones : forall l n, (n <= 5)%nat -> (max_ones n (stuff n l) <= 6)%nat.
Proof. exact stuff_max_ones. Qed.
Print Assumptions C25_stuffed_at_most_six_ones.

(* the remover reports a violation exactly when seven ones arrive in a row *)
Theorem C25_violation_iff_seven_ones : forall l n, (n <= 6)%nat -> (unstuff n l = None <-> (7 <= max_ones n l)%nat).
Proof. exact unstuff_none_iff. Qed.
Print Assumptions C25_violation_iff_seven_ones.

Theorem C25_frame0_is_frame : forall bs, first_ok bs -> frame0 bs = frame bs.
Proof. exact frame0_frame. Qed.
Print Assumptions C25_frame0_is_frame.

(* ---- 2. transmit, 12 MHz half in closed loop with a UTMI driver: from ANY state between packets (shifter and
        stuffer hold whatever tx_data showed while tx_valid was low), SYNC and the stuffed bytes are emitted, tx_ready is
        high in exactly one cycle per byte, all bytes are taken, and the state is quiet again ---- *)
Theorem C25_tx_packet_usb : forall s bs g,
  txu_quiet s -> bs <> [] -> Forall (fun b => b < 256) bs ->
  let body := (false, false) :: map (fun b => (b, true)) (sync_bits ++ stuff 0 (bits_of_bytes bs)) in
  (length body <= length g)%nat ->
  map fit_of (tx_loop 8 s bs g) = body ++ repeat (false, false) (length g - length body)
  /\ length (filter rdy_of (tx_loop 8 s bs g)) = length bs
  /\ snd (tx_loop_end 8 s bs g) = []
  /\ txu_quiet (fst (tx_loop_end 8 s bs g)).
Proof. exact tx_packet_usb. Qed.
Print Assumptions C25_tx_packet_usb.

(* ---- 3. transmit, the two-clock machine from reset, any session (any number of packets, any bytes, any idle
        tx_data, every phase at least as long as its packet incl. EOP): D+/D-/oe show, per 4 usb_io steps, idle, then
        frame0 of the bytes (SYNC, stuffed NRZI data, SE0 SE0 J), then idle; tx_ready is up one usb cycle per byte ---- *)
Theorem C25_tx_session_line : forall ph, Forall phase_ok ph ->
  let U := tx_session_in 8 txu_init ph in
  let outs := run (tx_step 8) txs_init (tx_trace 0 U) in
  map tx_line_of outs =
    firstn (length outs) ((false, false, false) :: line_idle ::
                          rep4 (flat_map (fun p => phase_line (fst p) (length (snd p))) ph))
  /\ length (filter tx_ready_of outs) = (4 * length (flat_map fst ph))%nat.
Proof. exact tx_session_line. Qed.
Print Assumptions C25_tx_session_line.

(* ---- 4. receive, symbol level: from any idle state a correctly encoded packet yields start, its bytes, end; the error
        flag stays down; afterwards the machine is idle again ---- *)
Theorem C25_rx_symbols : forall b bs m, rxb_idle b -> Forall (fun x => x < 256) bs ->
  snd (rxb_run b (frame bs ++ repeat SJ m)) = EvStart :: map EvByte bs ++ [EvEnd]
  /\ Forall (fun e => e = false) (rxb_errs b (frame bs ++ repeat SJ m))
  /\ ((1 <= m)%nat -> rxb_idle (fst (rxb_run b (frame bs ++ repeat SJ m)))).
Proof. exact rxb_frame. Qed.
Print Assumptions C25_rx_symbols.

(* ---- 5. receive, cycle level (48 MHz front end up to the FIFO write ports), exact 4x sampling at ANY phase (pre is
        arbitrary >= 7 samples of idle after reset): exactly start flag, the bytes, end flag are written; no error.
        The line stays idle for 4 (m + 1) + 2 samples after EOP, in which the front end finishes the packet and m idle
        symbols: it takes the step of a symbol while samples seven to ten, counted from the symbol's first, arrive
        (GwPhyRxC_proofs.rx_line_run) ---- *)
Theorem C25_rx_frame_cycles : forall pre bs m, (7 <= pre)%nat -> Forall (fun b => b < 256) bs ->
  let line := repeat SJ pre ++ rep4 (frame bs ++ repeat SJ (S m)) ++ [SJ; SJ] in
  let outs := run rxf_step rxf_init (map line_word line) in
  flat_map rxf_events outs = EvStart :: map EvByte bs ++ [EvEnd] /\
  Forall (fun o => rxf_err_of o = false) outs.
Proof. exact rx_frame_cycles. Qed.
Print Assumptions C25_rx_frame_cycles.

(* ---- 6. a bit-stuffing violation (seven ones in a row, SYNC's 1 counted) is reported: the end flag is written, and
        whenever it is written the error flag is up ---- *)
Theorem C25_rx_violation_cycles : forall pre l m, (7 <= pre)%nat -> (7 <= max_ones 1 l)%nat ->
  let line := repeat SJ pre ++ rep4 ((nrzi SJ (sync_bits ++ l) ++ eop) ++ repeat SJ (S m)) ++ [SJ; SJ] in
  let outs := run rxf_step rxf_init (map line_word line) in
  (exists o, In o outs /\ In EvEnd (rxf_events o)) /\
  Forall (fun o => In EvEnd (rxf_events o) -> rxf_err_of o = true) outs.
Proof. exact rx_violation_cycles. Qed.
Print Assumptions C25_rx_violation_cycles.

(* ---- non-vacuity / concrete runs ---- *)
(* a session satisfying phase_ok: 3 idle cycles, DATA0 + FF FF (long runs of ones -> stuffed), ACK *)
Example C25_session_ok :
  Forall phase_ok [([], [255; 255; 255]); ([195; 255; 255], repeat 255 40); ([210], repeat 0 22)].
Proof.
  constructor; [split; [constructor | intro H; exfalso; apply H; reflexivity]|].
  constructor; [split; [repeat constructor | intros _; vm_compute; lia]|].
  constructor; [split; [repeat constructor | intros _; vm_compute; lia]|]. constructor.
Qed.

Example C25_rx_example :
  flat_map rxf_events (run rxf_step rxf_init (map line_word (repeat SJ 9 ++ rep4 (frame [195; 255; 63] ++ [SJ; SJ]) ++ [SJ; SJ])))
  = [EvStart; EvByte 195; EvByte 255; EvByte 63; EvEnd].
Proof. vm_compute. reflexivity. Qed.

(* LUNA's transmitter deviates from USB 2.0 only for first bytes that begin with five 1s (not PIDs) *)
Example C25_frame0_differs : frame0 [255] <> frame [255].
Proof. exact frame0_differs. Qed.

(* PARTIAL.  Not covered by a theorem:
   - clock drift / jitter between the 48 MHz sampler and the line (the +-0.25 % of the property): the receive theorems
     assume exact 4x sampling (at any phase); behaviour on jittered lines is only compared model-vs-simulator;
   - the two clock-domain-crossing FIFOs (amaranth.lib.fifo.AsyncFIFOBuffered) between the front end and the UTMI
     rx_data/rx_valid/rx_active outputs: the theorems end at their write ports; the UTMI side is checked by the
     specification monitor rx_mon over simulator traces;
   - loopback TX -> RX is the composition of 3 and 5 for first_ok packets (frame0 = frame), not stated as one theorem. *)
