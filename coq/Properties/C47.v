(* C47 -- Isochronous timestamp packets are decoded in full.
   Model: Model/Itp.v (TimestampPacketReceiver, parametric in the declared widths wb/wd of the
   bus_interval_counter / delta registers).  One list element = one "ss" clock cycle; input word =
   header_sink.valid + 2 * header.dw0; output word = ready, update_received, counter, delta.

   C47_itp_decodes_in_full: for every register width that can hold the fields (wb >= 14, wd >= 13)
     and every input history, the outputs are exactly the specification spec_trace: ready = "a
     timestamp packet is offered", update = "the previous word was a timestamp packet", counter/
     delta = the full 14-/13-bit fields of the most recent timestamp packet.
   C47_itp_reported: the same in the words of the property: the cycle after ANY timestamp packet
     (anywhere in any history) update is high and the two reported numbers equal the packet's fields.
   C47_one_bit_registers_refuted: with 1-bit registers (`Signal()`, the declaration before c2e032e) the
     model does not meet the specification -- the width hypothesis is necessary, not decoration. *)
From Coq Require Import NArith List Bool. Import ListNotations.
From LunaLib Require Import Netlist Machine.
From LunaModel Require Import Itp Itp_proofs.
Open Scope N_scope.

Theorem C47_itp_decodes_in_full : forall wb wd, 14 <= wb -> 13 <= wd ->
  forall ins, run (itp_step wb wd) itp_init ins = spec_trace [] ins.
Proof. exact itp_from_reset. Qed.
Print Assumptions C47_itp_decodes_in_full.

Theorem C47_itp_reported : forall wb wd, 14 <= wb -> 13 <= wd ->
  forall pre i i' post, is_itp i = true ->
  let outs := run (itp_step wb wd) itp_init (pre ++ i :: i' :: post) in
  exists o o', nth_error outs (length pre) = Some o /\ nth_error outs (S (length pre)) = Some o' /\
    o_ready o = true /\
    o_update o' = true /\ o_counter o' = f_counter i /\ o_delta o' = f_delta i.
Proof. exact itp_reported. Qed.
Print Assumptions C47_itp_reported.

Theorem C47_one_bit_registers_refuted : exists ins,
  run (itp_step 1 1) itp_init ins <> spec_trace [] ins.
Proof. exact itp_one_bit_refuted. Qed.
Print Assumptions C47_one_bit_registers_refuted.

(* non-vacuity / a concrete run: an ITP with counter 0x2ABC, delta 0x1234, then a transaction
   packet (type 4, ignored), then nothing.  Outputs: (ready,update,counter,delta). *)
Example C47_example :
  map (fun o => (o_ready o, o_update o, o_counter o, o_delta o))
      (run (itp_step 14 13) itp_init [mk_in true 12 10940 4660; mk_in true 4 1 1; 0])
  = [(true, false, 0, 0); (false, true, 10940, 4660); (false, false, 10940, 4660)].
Proof. vm_compute. reflexivity. Qed.
Example C47_example_is_itp : is_itp (mk_in true 12 10940 4660) = true /\ f_counter (mk_in true 12 10940 4660) = 10940.
Proof. vm_compute. split; reflexivity. Qed.
