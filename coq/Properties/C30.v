(* C30 -- Every CRC implementation equals its standard definition.
   This file holds the statements that do not depend on the regenerated kernels: the module-level
   theorem for the USB2 CRC16 unit and two values of the reference definition crc16_usb.  The per-kernel
   theorems C30_<kernel> (all register values, all data words) are re-proved against the equations
   regenerated from /repo on every run (props/C30.py). *)
From Coq Require Import NArith List Bool.
Import ListNotations.
From LunaLib Require Import Machine.
From LunaModel Require Import Crc Crc_proofs.

Theorem C30_crc16_module_standard : forall evs reg0 more,
  nth (S (length evs)) (run crc16mod_step reg0 (crc16_start :: map crc16_in evs ++ [more])) 0%N
  = crc16_usb (ev_bytes evs).
Proof. exact crc16mod_standard. Qed.
Print Assumptions C30_crc16_module_standard.

(* the request GET_DESCRIPTOR(DEVICE), wLength 64, as it appears on the bus: 80 06 00 01 00 00 40 00 -> dd 94 *)
Example crc16_reference : crc16_usb [128; 6; 0; 1; 0; 0; 64; 0]%N = 38109%N.   (* 0x94dd *)
Proof. vm_compute. reflexivity. Qed.
Example crc16_empty : crc16_usb [] = 0%N.
Proof. vm_compute. reflexivity. Qed.
