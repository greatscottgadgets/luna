(* C03 -- USB2 transmitted data packets are correctly framed with a valid CRC16.
   Model and specification: Model/Usb2DataTx.v (USBDataPacketGenerator of luna/gateware/usb/usb2/packet.py with
   the USBDataPacketCRC unit wired as USBDevice does: it advances on tx.valid & tx_ready with tx.data).
   One list element = one `usb` clock cycle; input word = data_pid + 4 stream.valid + 8 stream.first +
   16 stream.last + 32 stream.payload + 2^13 tx_ready; output word = tx.valid + 2 tx.data + 512 stream.ready.

   The specification machine txs_step is transaction level: idle until a request (valid & first: packet with
   payload; valid & last without first: zero-length packet; PID byte chosen by data_pid in that cycle); then it
   offers the PID byte until the PHY takes it (tx_ready), passes payload bytes straight through (a byte is consumed
   from the stream exactly in the cycle the PHY accepts it) up to and including the byte marked `last`, then offers
   crc16_usb(payload bytes accepted) low byte, then high byte, each until accepted, and returns to idle.
   The CRC is the declarative crc16_usb of Model/Crc.v over the list of accepted payload bytes; the model computes
   it incrementally in the shared CRC register and captures the high byte while the low byte is on the bus. *)
From Coq Require Import NArith List Bool. Import ListNotations.
From LunaLib Require Import Netlist Machine.
From LunaModel Require Import Crc Usb2DataTx Usb2DataTx_proofs.
Open Scope N_scope.

(* 1. the generator + CRC model equals the specification machine in every cycle of every input history:
      no assumption on tx_ready, data_pid, first/last, payload, not even on stream.valid *)
Theorem C03_generator_refines : forall tr, run tx_step tx_init tr = run txs_step txs_init tr.
Proof. exact tx_from_reset. Qed.
Print Assumptions C03_generator_refines.

(* 2. the bytes accepted by the PHY (tx.data in tx.valid & tx_ready cycles) along any history are, in order, the
      framed packets PID ++ payload ++ CRC16 (low byte first) of the completed transactions, followed by the
      accepted part of the packet in progress *)
Theorem C03_accepted_bytes : forall tr,
  tx_accepted (combine tr (run txs_step txs_init tr))
  = flat_map tx_wire_of (txs_log txs_init tr) ++ txs_partial (run_state txs_step txs_init tr).
Proof. intros. apply (txs_accepted tr txs_init I). Qed.
Print Assumptions C03_accepted_bytes.

(* 3. the payload bytes taken from the producer (stream.valid & stream.ready cycles) are exactly the payloads of
      those packets: every byte consumed is sent exactly once, in order *)
Theorem C03_consumed_bytes : forall tr,
  tx_consumed (combine tr (run txs_step txs_init tr))
  = flat_map snd (txs_log txs_init tr) ++ txs_sent (run_state txs_step txs_init tr).
Proof. intros. apply (txs_consumed tr txs_init I). Qed.
Print Assumptions C03_consumed_bytes.

(* 4. packet boundaries on the wire: while the producer keeps valid high during the payload (stream contract),
      tx.valid is high exactly while a transaction is in progress, and a completed transaction is followed by
      the idle state (tx.valid low): one transaction = one maximal tx.valid run = one packet *)
Theorem C03_valid_iff_busy : forall q i, txs_wf q -> txs_env q i = true ->
  to_txvalid (snd (txs_step q i)) = txs_busy q.
Proof. exact txs_valid_iff_busy. Qed.
Print Assumptions C03_valid_iff_busy.

Theorem C03_idle_after_packet : forall q i p, txs_done q i = Some p -> fst (txs_step q i) = S_IDLE.
Proof. exact txs_idle_after_packet. Qed.
Print Assumptions C03_idle_after_packet.

(* 5. a zero-length packet is PID 00 00; the PID bytes are DATA0/DATA1/DATA2/MDATA with check nibbles *)
Theorem C03_wire_zlp : forall p, tx_wire p [] = [p; 0; 0].
Proof. exact tx_wire_zlp. Qed.
Print Assumptions C03_wire_zlp.

Theorem C03_pid_bytes : map tx_pid_byte [0; 1; 2; 3] = map (fun n => n + 16 * (15 - n)) [3; 11; 7; 15].
Proof. exact tx_pid_bytes. Qed.
Print Assumptions C03_pid_bytes.

(* ---- concrete runs ---- *)
(* input word builder: data_pid, valid, first, last, payload, ready *)
Definition c03_in (dp v f l pl r : N) : N := dp + 4 * v + 8 * f + 16 * l + 32 * pl + 8192 * r.
(* DATA1 packet with payload 80 06 (first on the first byte, last on the second), PHY stalling now and then;
   then a zero-length DATA0 packet (last without first) *)
Definition c03_tr : list N :=
  [c03_in 1 1 1 0 128 0;                         (* request seen in IDLE *)
   c03_in 0 1 1 0 128 0; c03_in 0 1 1 0 128 1;   (* PID offered, taken on the 2nd cycle *)
   c03_in 0 1 1 0 128 0; c03_in 0 1 1 0 128 1;   (* 80 taken on the 2nd cycle *)
   c03_in 0 1 0 1 6 1;                           (* 06 (last) *)
   c03_in 0 0 0 0 0 0; c03_in 0 0 0 0 0 1;       (* CRC low *)
   c03_in 0 0 0 0 0 1;                           (* CRC high *)
   c03_in 0 0 0 0 0 1;                           (* idle *)
   c03_in 0 1 0 1 0 1;                           (* ZLP request *)
   c03_in 0 0 0 0 0 1; c03_in 0 0 0 0 0 1; c03_in 0 0 0 0 0 1; c03_in 0 0 0 0 0 0].

Example C03_log : txs_log txs_init c03_tr = [(75, [128; 6]); (195, [])].
Proof. vm_compute. reflexivity. Qed.
Example C03_wire : tx_accepted (combine c03_tr (run tx_step tx_init c03_tr))
  = tx_wire 75 [128; 6] ++ [195; 0; 0].
Proof. vm_compute. reflexivity. Qed.
Example C03_consumed : tx_consumed (combine c03_tr (run tx_step tx_init c03_tr)) = [128; 6].
Proof. vm_compute. reflexivity. Qed.
Example C03_env_holds : env_ok txs_state txs_step txs_env txs_init c03_tr = true.
Proof. vm_compute. reflexivity. Qed.
(* the request GET_DESCRIPTOR(DEVICE), wLength 64: CRC bytes dd 94 *)
Example C03_reference : tx_wire 195 [128; 6; 0; 1; 0; 0; 64; 0] = [195; 128; 6; 0; 1; 0; 0; 64; 0; 221; 148].
Proof. vm_compute. reflexivity. Qed.
Example C03_monitor_accepts :
  first_bad txs_mon 0 (txs_enc txs_init) (combine c03_tr (run tx_step tx_init c03_tr)) = None.
Proof. vm_compute. reflexivity. Qed.
Example C03_monitor_rejects_wrong_crc :
  first_bad txs_mon 0 (txs_enc txs_init)
            (combine c03_tr (map (fun o => if o =? tx_out_word true (crc16_usb [128; 6] / 256) false then o + 2 else o)
                                 (run tx_step tx_init c03_tr))) <> None.
Proof. vm_compute. discriminate. Qed.
