(* C14 -- Data toggles advance only on success and reset on CLEAR_FEATURE(ENDPOINT_HALT).

   Specifications: Model/DataToggle.v.
     IN endpoints   seq_next / c14i_mon: the toggle is cleared by a ClearFeature(ENDPOINT_HALT) strobe naming this IN endpoint,
                    flipped by a host ACK while a completed packet's handshake is outstanding, unchanged otherwise; every
                    transmission (tx.valid) carries it on tx_pid_toggle; a retry therefore repeats the PID.
     OUT endpoints  c14o_mon: the expected_data_toggle register is cleared by a strobe naming this OUT endpoint, flipped when the
                    device ACKs a data packet carrying the expected PID, unchanged otherwise; a repeated PID is ACKed.
     decode         c14d_mon: the strobe is (1, wIndex[7], wIndex[3:0]) exactly at a host ACK while the most recent SETUP packet is
                    a not yet completed CLEAR_FEATURE(ENDPOINT_HALT, recipient endpoint); all-zero otherwise.
   Proved here: the IN rule for the USBStreamInEndpoint model of Model/InXfer.v, for EVERY max_packet_size and endpoint number
   and every input history.  The OUT rule and the decode are proved against the netlists regenerated from /repo at the tie
   configurations of props/C14.py (kernel-checked reachability, any trace length) and checked on simulator traces at
   realistic sizes; they have no parametric model here. *)
From Coq Require Import NArith List Bool Lia. Import ListNotations.
From LunaLib Require Import Netlist Machine.
From LunaModel Require Import InXfer InXfer_proofs DataToggle DataToggle_proofs.

(* (1) The IN endpoint model never violates the IN toggle rule. *)
Theorem C14_in_toggle_rule_holds : forall mps ep ins,
  c14i_check ep tg_init (combine ins (ix_run true true mps ep (ix_init mps) ins)) = true.
Proof. exact in_toggle_refines. Qed.
Print Assumptions C14_in_toggle_rule_holds.

(* (2) The rule itself, spelled out: after any cycle the toggle is DATA0 if a matching clear-halt strobe arrived, flipped if
   the host ACKed the outstanding packet, and otherwise what it was. *)
Theorem C14_in_toggle_rule : forall ep s i,
  seq_next ep s i = if clr ep i then false else if g_wait s && i_ack i then negb (g_seq s) else g_seq s.
Proof. reflexivity. Qed.
Print Assumptions C14_in_toggle_rule.

(* (3) ... and exactly the endpoint named: the strobe is decoded as enable & direction(IN) & number = ep. *)
Theorem C14_in_clear_halt_decode : forall ep i,
  clr ep i = N.testbit (i_clr i) 0 && N.testbit (i_clr i) 1 && (bits (i_clr i) 2 4 =? ep)%N.
Proof. reflexivity. Qed.
Print Assumptions C14_in_clear_halt_decode.

(* (4) the packed form used by the netlist ties *)
Theorem C14_in_packed : forall mps ep ws,
  c14i_check ep tg_init
    (combine (map ix_in_of ws) (map ix_out_of (run (ix_mstep_t mps ep) (ix_init mps) ws))) = true.
Proof. exact in_toggle_packed_t. Qed.
Print Assumptions C14_in_packed.

(* ---- concrete runs, endpoint 1, mps = 2 (input words: InXfer.ix_word valid last flush is_in rfr new_token ack tx_ready
        rcv endpoint clear_halt payload; clear_halt word 7 = enable, direction IN, number 1; 5 = enable, OUT, number 1) *)
Definition b1 := ix_word true true false false false false false false false 1 0 0x11.   (* a one-byte transfer *)
Definition idle := ix_word false false false false false false false false false 1 0 0.
Definition tokn := ix_word false false false true false true false false false 1 0 0.
Definition rfr := ix_word false false false true true false false false false 1 0 0.
Definition rdy := ix_word false false false true false false false true true 1 0 0.
Definition ackw := ix_word false false false true false false true false false 1 0 0.
Definition clrw (c : N) := ix_word false false false false false false false false false 1 c 0.
Definition pids (ws : list N) : list (bool * N) :=
  map (fun o => (o_valid o, o_pid o)) (ix_run true true 2 1 (ix_init 2) (map ix_in_of ws)).

(* DATA0, (no ACK) retry DATA0, ACK, DATA1, ACK, clear-halt for IN endpoint 1, then DATA0 again *)
Example C14_in_sequence :
  filter fst (pids [b1; tokn; rfr; rdy; tokn; rfr; rdy; ackw; b1; tokn; rfr; rdy; ackw; clrw 7; b1; tokn; rfr; rdy])
  = [(true, 0); (true, 0); (true, 1); (true, 0)]%N.
Proof. vm_compute. reflexivity. Qed.
(* a strobe naming OUT endpoint 1 (word 5) or IN endpoint 2 (word 11) leaves the toggle alone: the second packet is DATA1 *)
Example C14_in_other_endpoint_untouched :
  filter fst (pids [b1; tokn; rfr; rdy; ackw; clrw 5; clrw 11; b1; tokn; rfr; rdy])
  = [(true, 0); (true, 1)]%N.
Proof. vm_compute. reflexivity. Qed.

(* The code as found (fix_rst = false) violates the rule: a clear-halt strobe in the cycle in which a packet is queued
   (WAIT_FOR_DATA -> WAIT_TO_SEND) is undone by the swap's toggle; the next packet goes out as DATA1 (confirmed on the
   simulator, findings/C14-*.json). *)
Definition bad14 : list N :=
  [b1; tokn; rfr; rdy; ackw; idle; ix_word true true false false false false false false false 1 7 0x22; tokn; rfr; rdy].
Example C14_unfixed_violates :
  c14i_check 1 tg_init (combine (map ix_in_of bad14) (ix_run true false 2 1 (ix_init 2) (map ix_in_of bad14))) = false /\
  c14i_check 1 tg_init (combine (map ix_in_of bad14) (ix_run true true 2 1 (ix_init 2) (map ix_in_of bad14))) = true.
Proof. vm_compute. split; reflexivity. Qed.

(* the OUT rule on a hand-made I/O trace (endpoint 1): ACKed DATA0 flips the register to 1; a repeated DATA0 is ACKed and
   leaves it; a clear-halt strobe (enable, OUT, number 1 = word 5 at bit 15) returns it to 0 *)
Definition ow (is_out rx_rfr : bool) (pid clrh : N) : N := b2n is_out + 8 * b2n rx_rfr + 512 * pid + 2048 * 1 + 32768 * clrh.
Example C14_out_rule_example :
  first_bad (c14o_mon 1) 0 0 [(ow true true 0 0, 1); (ow true true 0 0, 1 + 4); (ow false false 0 5, 4); (ow false false 0 0, 0)]
  = None /\
  first_bad (c14o_mon 1) 0 0 [(ow true true 0 0, 1); (ow true true 0 0, 1)] = Some 1%N.
Proof. vm_compute. split; reflexivity. Qed.

(* the decode rule on a hand-made I/O trace: SETUP CLEAR_FEATURE(ENDPOINT_HALT) for endpoint 0x81, host ACK -> strobe
   (enable, IN, number 1) = 1 + 2 + 4; a second ACK finds nothing pending; a CLEAR_FEATURE with selector 1 never fires *)
Definition dw (received ack : bool) (value index : N) : N :=
  b2n received + 2 * b2n ack + 256 * 2 + 8192 * 1 + 2097152 * value + 137438953472 * index.
Example C14_decode_rule_example :
  first_bad c14d_mon 0 0 [(dw true false 0 0x81, 0); (dw false true 0 0x81, 7); (dw false true 0 0x81, 0);
                          (dw true false 1 0x81, 0); (dw false true 1 0x81, 0)] = None /\
  first_bad c14d_mon 0 0 [(dw true false 0 0x81, 0); (dw false true 0 0x81, 5)] = Some 1%N.
Proof. vm_compute. split; reflexivity. Qed.
