(* C43 -- Training ordered sets are emitted and detected exactly.
   Models and specifications: Model/TsDet.v (TSBurstDetector) and Model/TsEmit.v (TSEmitter), both
   parametric in the ordered set (any list of words), the ctrl flags of its first word, the burst
   length and include_config.  One list element = one "ss" clock cycle.

   Detector (D.lax c = false: the property-satisfying detector)
     C43_detector_sound: for every configuration (set of >= 2 words, threshold >= 1) and EVERY input
       history, the observed trace passes the checker D.sound: whenever `detected` is high, the valid
       words received since the previous report (up to two cycles earlier) end with thr complete,
       back-to-back, well-formed sets -- cycles with sink.valid = 0 are skipped (idle gaps allowed),
       any other valid word in between breaks the run -- and the three config outputs are the bits of
       word 1 of the last of these sets.  So: never a report on other data, each set used for at
       most one report.
     C43_tail_ok_meaning: what D.tail_ok says word by word.
     C43_detector_complete: if, in sync (waiting for a first word, count 0 -- e.g. one cycle after
       reset, C43_detector_sync_after_reset), exactly thr well-formed sets arrive back to back with
       arbitrary idle gaps, `detected` is low during the burst and pulses for exactly one cycle, two
       cycles after the burst's last word.
     C43_detector_lax_refuted: keeping the count over other valid data while waiting for a first
       word (the code before b2ae57a) fails the checker.
   Emitter
     C43_emitter_refines: for every configuration (L, burst length >= 1) and every start/ready/
       request history, the FSM model equals the one-counter specification machine: word number p of
       the plan 0..L-1, 0..L-1, ... (burst-length times) is offered until taken; done accompanies
       the acceptance of the last word; idle otherwise.
     C43_emitter_taken: from idle, the k-th word taken by the sink is plan word k mod (T*L): bursts
       are never cut short, extended, reordered or repeated.
     C43_emitter_plan / C43_emitter_word: the plan's p-th entry, and the fields of the output word
       (data incl. requested config bits in word 1, ctrl, first, last, done).                    *)
From Coq Require Import NArith List Bool Arith Lia. Import ListNotations.
From LunaLib Require Import Netlist Machine.
From LunaModel Require Import TsDet TsDet_proofs TsEmit TsEmit_proofs.
Open Scope N_scope.
Module D := TsDet. Module DP := TsDet_proofs. Module E := TsEmit. Module EP := TsEmit_proofs.

Theorem C43_detector_sound : forall c, (2 <= D.set_len c)%nat -> D.lax c = false -> (1 <= D.thr c)%nat ->
  forall ins, D.sound c [] None (combine ins (run (D.ts_step c) D.ts_init ins)) = true.
Proof. exact DP.ts_sound. Qed.
Print Assumptions C43_detector_sound.

Theorem C43_tail_ok_meaning : forall c m ws, D.tail_ok c m ws = true ->
  forall d, (d < m)%nat -> exists w, nth_error ws d = Some w /\ D.word_ok c ((m - 1 - d) mod D.set_len c) w = true.
Proof. exact DP.tail_ok_nth. Qed.
Print Assumptions C43_tail_ok_meaning.

Theorem C43_detector_complete : forall c, (2 <= D.set_len c)%nat -> (1 <= D.thr c)%nat ->
  forall b st x y z, D.burst_of c (D.thr c) b -> D.det st = false -> D.fsm st = D.WAIT -> D.count st = O ->
  map D.o_detected (run (D.ts_step c) st (b ++ [x; y; z])) = repeat false (length b) ++ [false; true; false].
Proof. exact DP.ts_complete. Qed.
Print Assumptions C43_detector_complete.

Theorem C43_detector_sync_after_reset : forall c x, let st := fst (D.ts_step c D.ts_init x) in
  D.det st = false /\ D.fsm st = D.WAIT /\ D.count st = O.
Proof. exact DP.ts_after_reset. Qed.
Print Assumptions C43_detector_sync_after_reset.

Theorem C43_detector_lax_refuted :
  let c := {| D.set_data := DP.TS1; D.fctrl := 15; D.thr := 2; D.inc_cfg := false; D.lax := true |} in
  D.sound c [] None (combine DP.lax_witness (run (D.ts_step c) D.ts_init DP.lax_witness)) = false.
Proof. exact DP.ts_lax_refuted. Qed.
Print Assumptions C43_detector_lax_refuted.

Theorem C43_emitter_refines : forall c, (1 <= E.e_len c)%nat -> (1 <= E.e_total c)%nat ->
  forall ins, run (E.em_step c) E.em_init ins = run (E.sp_step c) None ins.
Proof. exact EP.em_refines. Qed.
Print Assumptions C43_emitter_refines.

Theorem C43_emitter_taken : forall c, (1 <= E.e_len c)%nat -> (1 <= E.e_total c)%nat ->
  forall ins, E.sp_taken c None ins =
    map (fun k => (k mod (E.e_total c * E.e_len c))%nat) (seq 0 (length (E.sp_taken c None ins))).
Proof. exact EP.sp_taken_from_idle. Qed.
Print Assumptions C43_emitter_taken.

Theorem C43_emitter_plan : forall c,
  length (E.burst_plan c) = (E.e_total c * E.e_len c)%nat /\
  forall s k, (k < E.e_len c)%nat -> (s < E.e_total c)%nat -> nth (s * E.e_len c + k) (E.burst_plan c) O = k.
Proof. intros c. split; [apply EP.plan_length | apply EP.plan_nth]. Qed.
Print Assumptions C43_emitter_plan.

Theorem C43_emitter_word : forall v d ct f l dn, d < 4294967296 -> ct < 16 ->
  let o := E.pack_out v d ct f l dn in
  E.o_valid o = v /\ E.o_data o = d /\ E.o_ctrl o = ct /\ E.o_first o = f /\ E.o_last o = l /\ E.o_done o = dn.
Proof. exact EP.pack_out_fields. Qed.
Print Assumptions C43_emitter_word.

(* ---- non-vacuity / concrete runs ---- *)
Definition TS2 : list N := [3166485692; 1162149888; 1162167621; 1162167621].
Definition ts2_cfg : D.ts_cfg := {| D.set_data := TS2; D.fctrl := 15; D.thr := 2; D.inc_cfg := true; D.lax := false |}.
Definition w_in (d ct : N) : N := 1 + 2 * d + N.shiftl ct 33.
(* one TS2 set whose link-configuration symbol requests hot reset (bit 0) and no scrambling (bit 3) *)
Definition ts2_set : list N := [w_in 3166485692 15; w_in (1162149888 + 256 + 2048) 0; w_in 1162167621 0; w_in 1162167621 0].

Example C43_detector_example :
  D.burst_of ts2_cfg 2 (ts2_set ++ (0 :: ts2_set) ++ []) /\
  map (fun o => (D.o_detected o, D.o_hot_reset o, D.o_loopback o, D.o_noscramble o))
      (run (D.ts_step ts2_cfg) D.ts_init (0 :: ts2_set ++ (0 :: ts2_set) ++ [0; 0; 0]))
  = repeat (false, false, false, false) 3 ++ repeat (false, true, false, true) 8 ++
    [(true, true, false, true); (false, true, false, true)].
Proof.
  split.
  - apply D.burst_cons; [|apply D.burst_cons; [|apply D.burst_nil]].
    + repeat (apply D.seg_word; [cbn; lia | reflexivity | reflexivity |]). apply D.seg_done.
    + apply D.seg_gap; [cbn; lia | reflexivity |].
      repeat (apply D.seg_word; [cbn; lia | reflexivity | reflexivity |]). apply D.seg_done.
  - vm_compute. reflexivity.
Qed.

(* emitter: TS2, bursts of 2 sets, hot reset requested (input bit 2); the sink stalls once *)
Definition ts2_em : E.em_cfg := {| E.e_set := TS2; E.e_fctrl := 15; E.e_total := 2; E.e_inc := true |}.
Example C43_emitter_example :
  map (fun o => (E.o_valid o, E.o_data o, E.o_ctrl o, E.o_first o, E.o_last o, E.o_done o))
      (run (E.em_step ts2_em) E.em_init [0; 7; 6; 4; 6; 6; 6; 6; 6; 6; 6; 6])
  = [(false, 0, 0, false, false, false);
     (false, 0, 0, false, false, false);
     (true, 3166485692, 15, true, false, false);
     (true, 1162149888 + 256, 0, false, false, false);
     (true, 1162149888 + 256, 0, false, false, false);
     (true, 1162167621, 0, false, false, false);
     (true, 1162167621, 0, false, true, false);
     (true, 3166485692, 15, true, false, false);
     (true, 1162149888 + 256, 0, false, false, false);
     (true, 1162167621, 0, false, false, false);
     (true, 1162167621, 0, false, true, true);
     (false, 0, 0, false, false, false)].
Proof. vm_compute. reflexivity. Qed.
