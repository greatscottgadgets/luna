(* C50 -- the SPI device exchanges whole words for every word size.

   Specification (Model/SpiDev.v, `sp_step`): under chip select the sampled bits are collected into `s_acc`;
   the sample edge that brings the collection to word_size bits completes a word (collection restarts empty --
   for EVERY word of the transaction), the word is flagged on word_accepted in the next cycle and presented on
   word_in with a one-cycle word_complete strobe the cycle after.  On the transmit side the word latched from
   word_out (while unselected and at every word completion) is shifted out one bit per output edge, in the
   configured bit order.

   C50_spidev_refines: the code-shaped model with the bit counter restarting per word (`d_step true`) has
   exactly the specification's outputs for every word size >= 1, every clock polarity/phase, bit order,
   chip-select polarity and every input history (no environment assumption at all).
   C50_count / C50_report / C50_tx_in_order say what the specification does in one step, in two and along a
   transaction.
   C50_asis_refuted: the behaviour of the code before 27f14f6 (`d_step false`: bit_count is a
   Signal(range(word_size)) that is only cleared by chip select and wraps at 2^width) does NOT satisfy the
   specification at word_size = 3: the second word of a transaction is lost. *)
From Coq Require Import NArith Arith List Bool. Import ListNotations.
From LunaLib Require Import Netlist Bits Machine.
From LunaModel Require Import SpiDev SpiDev_proofs.
Open Scope N_scope.

Theorem C50_spidev_refines : forall c, (1 <= ws c)%nat ->
  forall tr, run (d_step true c) (d_init c) tr = run (sp_step c) (sp_init c) tr.
Proof. exact spidev_from_reset. Qed.
Print Assumptions C50_spidev_refines.

(* every word_size-th sample edge under chip select completes a word, for every word of a transaction *)
Theorem C50_count : forall c, (1 <= ws c)%nat -> forall sp i, (length (s_acc sp) < ws c)%nat ->
  length (s_acc (sp_next c sp i)) =
    if negb (selected c i) then 0%nat
    else if sample_edge c (s_clk sp) i then (S (length (s_acc sp)) mod ws c)%nat
    else length (s_acc sp).
Proof. exact sp_count. Qed.
Print Assumptions C50_count.

(* a completed word is reported exactly once, two cycles later, with the bits in the configured order *)
Theorem C50_report : forall c sp i i1,
  let sp1 := sp_next c sp i in
  let sp2 := sp_next c sp1 i1 in
  is_some (s_pend sp1) = completes c sp i /\
  s_wc sp2 = completes c sp i /\
  (completes c sp i = true -> s_win sp2 = word_bits c (in_sdi i :: s_acc sp)) /\
  (completes c sp i = false -> s_win sp2 = s_win sp1).
Proof. exact sp_report. Qed.
Print Assumptions C50_report.

(* clock phase 1 (data changes on the leading edge): in a transaction entered with the clock at its idle level,
   at every sample edge sdo carries the next bit of the latched word in transmit order; with msb_first the
   k-th sampled bit of a word (k = 0, 1, ...) is bit ws-1-k of the word presented for transmission *)
Theorem C50_tx_in_order : forall c, (1 <= ws c)%nat -> cpha c = true ->
  forall ins sp i0, selected c i0 = false -> sclk c i0 = false -> Forall (fun i => selected c i = true) ins ->
  let sp' := run_state (sp_step c) sp (i0 :: ins) in
  forall i, selected c i = true -> sample_edge c (s_clk sp') i = true ->
  s_sdo sp' = tx_bit c (s_load sp') (length (s_acc sp')).
Proof. exact sp_tx_in_order. Qed.
Print Assumptions C50_tx_in_order.

Theorem C50_tx_msb_first : forall c, msb c = true -> forall w j, tx_bit c w j = nth (ws c - 1 - j) w false.
Proof. exact tx_bit_msb. Qed.
Print Assumptions C50_tx_msb_first.

Definition c3 : spi_cfg := {| ws := 3; cpol := false; cpha := false; msb := true; csh := false |}.
(* chip select, then six clock pulses with sdi = 1 (input word = sck + 2*sdi + 4*cs), then three quiet cycles *)
Definition two_words : list N := [4; 7; 6; 7; 6; 7; 6; 7; 6; 7; 6; 7; 6; 6; 6; 6].
Definition strobes (c : spi_cfg) (outs : list N) : nat :=
  length (filter (fun o => N.testbit o (N.of_nat (ws c))) outs).

Theorem C50_asis_refuted :
  strobes c3 (run (sp_step c3) (sp_init c3) two_words) = 2%nat /\
  strobes c3 (run (d_step true c3) (d_init c3) two_words) = 2%nat /\
  strobes c3 (run (d_step false c3) (d_init c3) two_words) = 1%nat.
Proof. vm_compute. repeat split. Qed.
Print Assumptions C50_asis_refuted.

(* concrete run, word_size 3, mode 1 (cpha = 1), msb first: word_out = 5 = 101b is returned as 1,0,1 and the
   sampled bits 1,1,0 are reported as 6 = 110b.  Output word: word_in(3) | complete | accepted | sdo. *)
Definition c3m1 : spi_cfg := {| ws := 3; cpol := false; cpha := true; msb := true; csh := false |}.
Example C50_example_run :
  run (sp_step c3m1) (sp_init c3m1)
      [40; 44; 47; 46; 47; 46; 45; 44; 44; 44; 44] =
      [0;  0;  0;  32; 32; 0;  0;  32; 48; 46; 38].
Proof. vm_compute. reflexivity. Qed.
