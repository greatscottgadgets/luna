(* C24 -- ULPI control registers always converge to the requested UTMI settings
   (luna/gateware/interface/ulpi.py: ULPIControlTranslator + ULPIRegisterWindow; model, PHY and specification in
   Model/UlpiCtl.v.  The model is the property-satisfying behaviour: see findings/C24-ulpi-control.diff and the
   replays next to it for the histories on which the code before 7098c90 and 6f45f67 fails).

   The statements quantify over EVERY history tr of input words (bus_idle, DIR, NXT, all control inputs): nothing is
   assumed about the PHY's timing; it may delay NXT arbitrarily and abort a write by raising DIR in any cycle.
   The PHY (Model/UlpiCtl.v: phy_step) is the ULPI register-write protocol read off the pins: command byte taken in a
   cycle with NXT (DIR low, not a turn-around cycle), data byte in the next cycle with NXT, write committed at STP.

   C24_writes_correct   a write the PHY commits is the most recently accepted request: its address is Function
                        Control (0x04) or OTG Control (0x0A) and its data is the value that was requested for THAT
                        register in the cycle the request was accepted (C24_request_value)
   C24_only_ctrl_regs   no other PHY register is ever written
   C24_converged        whenever the translator is quiescent (window idle, nothing to report, nothing to ask for) the
                        PHY's Function Control and OTG Control registers equal the requested settings
   C24_starts_write     if the settings differ from the shadow and the bus is available a write starts at once
   C24_write_latency    an undisturbed write (DIR low, PHY acknowledging at once) is committed 5 cycles after it
                        started and reported done.  (No theorem adds these up: one cycle to start, five to commit,
                        one to update the shadow make 7 cycles per register, 2 x 7 per change on a quiet bus.)
                        Its hypothesis sys_inv s p gq (UlpiCtl_proofs.v) says that s and p are a window and a PHY
                        in step; gsys_run tr (ibid.) is sys_run sys_init tr with the most recently accepted request
                        beside it.   *)
From Coq Require Import NArith List Bool. Import ListNotations.
From LunaLib Require Import Netlist Machine.
From LunaModel Require Import UlpiCtl UlpiCtl_proofs.
Open Scope N_scope.

Theorem C24_writes_correct : forall tr i a d,
  let '(s, p, gq) := gsys_run tr in
  phy_commit p (ki_dir i) (w_stop s) = Some (a, d) ->
  (a = FUNC_CTRL \/ a = OTG_CTRL) /\ gq = Some (a, d).
Proof. exact cw_writes_correct. Qed.
Print Assumptions C24_writes_correct.

Theorem C24_request_value : forall s i a v, accepts_request s i = Some (a, v) -> requested_of a i = Some v.
Proof. exact accepts_value. Qed.
Print Assumptions C24_request_value.

Theorem C24_only_ctrl_regs : forall tr, q_other (snd (sys_run sys_init tr)) = false.
Proof. exact cw_only_ctrl_regs. Qed.
Print Assumptions C24_only_ctrl_regs.

Theorem C24_converged : forall tr i,
  let (s, p) := sys_run sys_init tr in
  quiescent s i = true -> q_r4 p = ki_func i /\ q_r10 p = ki_otg i.
Proof. exact cw_converged. Qed.
Print Assumptions C24_converged.

Theorem C24_starts_write : forall s i, w_fsm s = W_IDLE -> w_done s = false -> ki_idle i = true ->
  cw_select s (ki_func i) (ki_otg i) <> None -> w_fsm (fst (cw_step s i)) = W_START.
Proof. exact cw_starts_write. Qed.
Print Assumptions C24_starts_write.

Theorem C24_write_latency : forall s p gq i1 i2 i3 i4 i5, sys_inv s p gq -> w_fsm s = W_START ->
  ki_dir i1 = false -> ki_dir i2 = false -> ki_dir i3 = false -> ki_dir i4 = false -> ki_dir i5 = false ->
  ki_nxt i2 = false -> ki_nxt i3 = true -> ki_nxt i4 = true ->
  let (s', p') := sys_run (s, p) [i1; i2; i3; i4; i5] in
  w_fsm s' = W_IDLE /\ w_done s' = true /\
  (w_caddr s = FUNC_CTRL -> q_r4 p' = w_cwrite s) /\ (w_caddr s = OTG_CTRL -> q_r10 p' = w_cwrite s).
Proof. exact cw_write_latency. Qed.
Print Assumptions C24_write_latency.

(* Example.  Input word = bus_idle + 2*dir + 4*nxt + 8*xcvr_select + 32*term_select + 64*op_mode + 256*suspend
   + 512*id_pullup + 1024*dp_pulldown + 2048*dm_pulldown + 4096*chrg + 8192*dischrg + 16384*use_external_vbus.
   Settings = reset values (xcvr 1, pull-downs) except term_select = 1 from cycle 0, and in the middle of the
   Function Control write the OTG settings change as well (use_external_vbus_indicator): two writes follow, each
   with the value of its own register; afterwards the translator is quiescent and the PHY holds both. *)
Definition ex_base : N := 1 + 8 + 32 + 1024 + 2048.          (* bus idle, xcvr=1, term_select=1, dp/dm pulldown *)
Definition ex_trace : list N :=
  [ex_base; ex_base; ex_base; ex_base + 16384 + 4; ex_base + 16384 + 4; ex_base + 16384; ex_base + 16384;
   ex_base + 16384; ex_base + 16384; ex_base + 16384 + 4; ex_base + 16384 + 4; ex_base + 16384; ex_base + 16384;
   ex_base + 16384].
Example C24_example :
  let (s, p) := sys_run sys_init ex_trace in
  quiescent s (ex_base + 16384) = true /\ q_r4 p = 69 /\ q_r10 p = 134 /\
  ki_func (ex_base + 16384) = 69 /\ ki_otg (ex_base + 16384) = 134.
Proof. vm_compute. repeat split. Qed.
