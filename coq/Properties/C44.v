(* C44 -- Idle handshake and U0 link timers meet their timing rules.
   Models and specifications: Model/IdleHs.v (IdleHandshakeHandler, parametric in n =
   RX_CYCLES_REQUIRED) and Model/LinkTimers.v (LinkMaintenanceTimers, parametric in the timeouts
   Tk, Tr in cycles and the register widths wk, wr).  One list element = one "ss" clock cycle
   (4 symbols are received and 4 are sent per cycle).  hist = earlier input words, most recent first.

   Idle handshake
     C44_idle_model_spec: for every n and input history the model's outputs are spec_trace.
     C44_idle_complete_iff: the specification reports the handshake complete in a cycle iff enable is
       high now and was high in the n preceding cycles (>= 4n = 16 symbols sent since it started)
       and in some earlier cycle of this enable run the word of that cycle and the word before it
       were both VALID logical-idle words (data 0, ctrl 0, sink.valid): eight consecutive valid
       logical-idle symbols.  ("only after" is the left-to-right direction.)
     C44_idle_ignoring_valid_refuted: treating words as idle regardless of sink.valid (what the
       code before a1fe79e does) does not meet the specification.
   U0 timers (quiet ev hist = number of most recent consecutive cycles in U0 without event ev)
     C44_timers_model_spec: for all Tk Tr wk wr and histories the model's outputs are spec_trace.
     C44_recovery_exact / C44_keepalive_exact: while the register has not wrapped, the strobe is high
       exactly in the cycle with T-1 quiet cycles behind it = T cycles after the last received
       (sent) link command / header packet (or after entering U0): never earlier, always then.   *)
From Coq Require Import NArith List Bool. Import ListNotations.
From LunaLib Require Import Netlist Machine.
From LunaModel Require Import IdleHs IdleHs_proofs LinkTimers LinkTimers_proofs.
Open Scope N_scope.

Module I := IdleHs. Module IP := IdleHs_proofs. Module T := LinkTimers. Module TP := LinkTimers_proofs.

Theorem C44_idle_model_spec : forall n ins, run (I.ih_step n) I.ih_init ins = I.spec_trace n [] ins.
Proof. exact IP.ih_from_reset. Qed.
Print Assumptions C44_idle_model_spec.

Theorem C44_idle_complete_iff : forall n hist i,
  I.o_complete (I.spec_out n hist i) = true <->
  I.i_enable i = true /\ (N.to_nat n <= I.en_run hist)%nat /\
  exists s j j', nth_error hist s = Some j /\ nth_error hist (S s) = Some j' /\
                 I.is_idle j = true /\ I.is_idle j' = true /\ (s < I.en_run hist)%nat.
Proof. exact IP.ih_complete_iff. Qed.
Print Assumptions C44_idle_complete_iff.

(* en_run: the k most recent cycles all had enable = 1 *)
Theorem C44_idle_en_run : forall hist k, (k < I.en_run hist)%nat ->
  exists j, nth_error hist k = Some j /\ I.i_enable j = true.
Proof. exact IP.en_run_nth. Qed.
Print Assumptions C44_idle_en_run.

Theorem C44_idle_ignoring_valid_refuted : exists ins,
  run (IP.ih_step_novalid 4) {| I.lv := true; I.lw := 0; I.lc := 0; I.seen := false; I.cnt := 0 |} ins
  <> I.spec_trace 4 [] ins.
Proof. exact IP.ih_ignoring_valid_refuted. Qed.
Print Assumptions C44_idle_ignoring_valid_refuted.

Theorem C44_timers_model_spec : forall Tk Tr wk wr ins,
  run (T.tm_step Tk Tr wk wr) T.tm_init ins = T.spec_trace Tk Tr wk wr [] ins.
Proof. exact TP.tm_from_reset. Qed.
Print Assumptions C44_timers_model_spec.

Theorem C44_recovery_exact : forall Tk Tr wk wr hist, N.of_nat (T.quiet T.i_rx hist) < 2 ^ wr ->
  (T.o_recovery (T.spec_out Tk Tr wk wr hist) = true <-> N.of_nat (T.quiet T.i_rx hist) + 1 = Tr).
Proof. exact TP.recovery_exact. Qed.
Print Assumptions C44_recovery_exact.

Theorem C44_keepalive_exact : forall Tk Tr wk wr hist, N.of_nat (T.quiet T.i_tx hist) < 2 ^ wk ->
  (T.o_keepalive (T.spec_out Tk Tr wk wr hist) = true <-> N.of_nat (T.quiet T.i_tx hist) + 1 = Tk).
Proof. exact TP.keepalive_exact. Qed.
Print Assumptions C44_keepalive_exact.

(* quiet: the q most recent cycles were in U0 without the event; the one before was not *)
Theorem C44_quiet_meaning : forall ev hist,
  (forall k, (k < T.quiet ev hist)%nat -> exists j, nth_error hist k = Some j /\ T.i_enable j = true /\ ev j = false) /\
  (forall j, nth_error hist (T.quiet ev hist) = Some j -> T.i_enable j = false \/ ev j = true).
Proof. intros. split; [apply TP.quiet_nth | apply TP.quiet_stop]. Qed.
Print Assumptions C44_quiet_meaning.

(* ---- non-vacuity / concrete runs ---- *)
(* idle handshake, n = 4: two valid idle words in cycles 1,2 while enabled from cycle 0;
   complete from cycle 4 on (4 enabled cycles behind), not earlier; drops with enable. *)
Example C44_idle_example :
  map (fun o => (I.o_detected o, I.o_complete o))
      (run (I.ih_step 4) I.ih_init
           [I.mk_in true true 5 0; I.mk_in true true 0 0; I.mk_in true true 0 0; I.mk_in true true 7 0;
            I.mk_in true false 0 0; I.mk_in true false 0 0; I.mk_in false true 0 0; I.mk_in true true 0 0])
  = [(false, false); (false, false); (true, false); (false, false);
     (false, true); (false, true); (false, false); (true, false)].
Proof. vm_compute. reflexivity. Qed.

(* timers with Tk = 3, Tr = 5: enabled and silent: keepalive at cycles 2, recovery at cycle 4;
   a received packet at cycle 5 restarts the recovery timer (next strobe 5 cycles later). *)
Example C44_timers_example :
  map (fun o => (T.o_keepalive o, T.o_recovery o))
      (run (T.tm_step 3 5 2 3) T.tm_init [1; 1; 1; 9; 1; 5; 1; 1; 1; 1; 1])
  = [(false,false); (false,false); (true,false); (false,false); (false,true); (false,false);
     (true,false); (false,false); (false,false); (false,false); (true,true)].
Proof. vm_compute. reflexivity. Qed.
