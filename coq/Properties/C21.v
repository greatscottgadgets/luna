(* C21 -- Frame and microframe numbers track received SOFs.
   Model and specification: Model/FrameTrack.v (the "Frame/microframe state" block of USBDevice.elaborate,
   luna/gateware/usb/usb2/device.py), parametric in the frame-number width fw and the microframe-counter
   width mw (LUNA: 11, 3).  One list element = one `usb` cycle; an input word carries the token
   detector's new_frame strobe (`sof`) and frame value, an output word frame_number, microframe_number,
   new_frame, sof_detected.

   frames_after mw sofs = (frame_number, microframe_number) after the SOFs with frame numbers `sofs`
   (oldest first), starting from (0, 0) at reset, by the recurrence
        (fn, mf)  --SOF f-->  (f, if f = fn then (mf + 1) mod 2^mw else 0). *)
From Coq Require Import NArith List Bool. Import ListNotations.
From LunaLib Require Import Netlist Machine.
From LunaModel Require Import FrameTrack FrameTrack_proofs.
Open Scope N_scope.

(* In every cycle t of every history: frame_number and microframe_number are frames_after the SOFs
   delivered in cycles 0..t-1; new_frame is raised iff cycle t delivers a SOF whose number differs
   from frame_number; sof_detected iff cycle t delivers a SOF. *)
Theorem C21_frametrack_exact : forall fw mw tr t, (t < length tr)%nat ->
  nth t (run (ft_step fw mw) ft_init tr) 0 = ft_spec_out fw mw (firstn t tr) (nth t tr 0).
Proof. exact frametrack_exact. Qed.
Print Assumptions C21_frametrack_exact.

(* after each SOF the reported frame number is that SOF's frame number *)
Theorem C21_frame_is_last_sof : forall mw sofs f, fst (frames_after mw (sofs ++ [f])) = f.
Proof. exact frame_is_last_sof. Qed.
Print Assumptions C21_frame_is_last_sof.

(* the microframe number is reset when the frame number changes, incremented (mod 2^mw) when it repeats *)
Theorem C21_microframe_recurrence : forall mw sofs f,
  snd (frames_after mw (sofs ++ [f]))
  = if f =? fst (frames_after mw sofs) then (snd (frames_after mw sofs) + 1) mod 2 ^ mw else 0.
Proof. exact microframe_recurrence. Qed.
Print Assumptions C21_microframe_recurrence.

(* a concrete run (fw = 11, mw = 3); input word = sof + 2 * frame:
   SOFs 7, 7, 7, 8, 8, 2047, 0 with idle cycles in between *)
Example C21_example :
  let sof f := 1 + 2 * f in
  let out := run (ft_step 11 3) ft_init [sof 7; 0; sof 7; sof 7; 0; sof 8; sof 8; sof 2047; sof 0; 0] in
  map (fun o => (o mod 2048, (o / 2048) mod 8, (o / 16384) mod 2)) out
  = [(0, 0, 1); (7, 0, 0); (7, 0, 0); (7, 1, 0); (7, 2, 0); (7, 2, 1); (8, 0, 0); (8, 1, 1); (2047, 0, 1); (0, 0, 0)].
Proof. vm_compute. reflexivity. Qed.
(* microframes wrap modulo 8 (nine SOFs of the same frame after the first one) *)
Example C21_example_wrap :
  frames_after 3 [5; 5; 5; 5; 5; 5; 5; 5; 5; 5] = (5, 1).
Proof. vm_compute. reflexivity. Qed.
(* end-to-end specification: the SOF packet A5 10 2F (frame 0x710, CRC5 0x05) over UTMI *)
Example C21_example_sof_packet : sof_of_packet [0xA5; 0x10; 0x2F] = Some 0x710.
Proof. vm_compute. reflexivity. Qed.
