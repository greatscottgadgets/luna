(* C27 -- Constant-stream generators emit exactly the requested slice.

   Reading guide (definitions in Model/ConstGen.v and Model/Serializer.v; total_bytes in ConstGen_proofs.v):
     cg_cfg / cfg_okb    configuration of a ConstantStreamGenerator (ROM words, bytes per word, widths, ...)
                         and its well-formedness; cfg_of_bytes builds it from constant bytes, the way the
                         Python constructor does (byte- and word-wide payloads, little/big endian)
     answer c sp ml      the specified answer to a request "start at word sp, at most ml bytes": a list of
                         beats (payload, first, last, number of valid bytes), defined by `beats`
     sp_step             specification machine: idle until start with ml > 0; present the answer one beat at a
                         time, each held until stream.ready; pulse done; idle again.  Its outputs are the packed
                         ports valid|first|last|payload|done|output_length; the per-byte valid mask of a beat
                         with k valid bytes is N.ones k (or 1 for a 1-bit valid)
     sp_env              environment assumption: a request starts within the data (start_position < number of
                         words) and start_position is held while the request is answered
     cg_step             code-shaped model of ConstantStreamGenerator.elaborate (FSM, position, byte counter,
                         latched max_length, registered ROM read port)
     ser_step / ss_step  the same for StreamSerializer (data = runtime array; data, start_position and
                         max_length held during the request). *)
From Coq Require Import NArith List Bool. Import ListNotations.
From LunaLib Require Import Netlist Machine.
From LunaModel Require Import ConstGen ConstGen_proofs Serializer Serializer_proofs.
Open Scope N_scope.

(* (1) The generator model equals the specification machine, cycle by cycle, for every well-formed
       configuration with a max_length input (c_hasml: the variant used throughout LUNA), every request
       sequence (all start positions within the data, all limits incl. 0), and every stream.ready pattern,
       for traces of any length. *)
Theorem C27_generator_refines : forall c, cfg_okb c = true -> c_hasml c = true -> forall tr,
  env_ok sp_state (sp_step c) (sp_env c) sp_init tr = true ->
  run (cg_step c) (cg_init c) tr = run (sp_step c) sp_init tr.
Proof. exact cg_from_reset. Qed.
Print Assumptions C27_generator_refines.

(* (2) What the specified answer is, in closed form: the data from the start position onward, in order;
       min(limit, bytes there are) bytes in total; every word full except the final one; `last` exactly on
       the final word; `first` exactly on the first word. *)
Theorem C27_answer_is_requested_slice : forall c, cfg_okb c = true -> forall sp ml, sp < nwords c -> 0 < ml ->
  let a := answer c sp ml in
  map b_payload a = firstn (length a) (skipn (N.to_nat sp) (c_words c)) /\
  total_bytes a = N.min ml (c_dlen c - sp * c_bpw c) /\
  (exists init fin, a = init ++ [fin] /\
     Forall (fun b => b_last b = false /\ b_bytes b = c_bpw c) init /\
     b_last fin = true /\ 1 <= b_bytes fin /\ b_bytes fin <= c_bpw c) /\
  (exists b tl, a = b :: tl /\ b_first b = true /\ Forall (fun b => b_first b = false) tl).
Proof. exact answer_spec. Qed.
Print Assumptions C27_answer_is_requested_slice.

(* (2b) Byte-wide generators (all USB2 descriptors): the answer's payloads are literally the slice
        data[sp .. sp + min(ml, len - sp)), and the ROM words of such a generator are the constant's bytes. *)
Theorem C27_bytewide_answer_is_slice : forall c, cfg_okb c = true -> c_bpw c = 1 -> forall sp ml,
  sp < nwords c -> 0 < ml ->
  map b_payload (answer c sp ml) =
  firstn (N.to_nat (N.min ml (nwords c - sp))) (skipn (N.to_nat sp) (c_words c)).
Proof. exact answer_bytewide. Qed.
Print Assumptions C27_bytewide_answer_is_slice.

Theorem C27_bytewide_rom_is_data : forall data mlw, c_words (cfg_of_bytes data 1 false mlw) = data.
Proof. exact cfg_of_bytes_bytewide_words. Qed.
Print Assumptions C27_bytewide_rom_is_data.

(* (3) The specification machine ignores a request whose length limit is zero: it stays idle, and the idle output
       (second conjunct, which holds of every idle cycle) has neither valid nor done.  By (1) so does the generator. *)
Theorem C27_zero_limit_ignored : forall c ml0 i, i_ml c i = 0 ->
  sp_next c (SpIdle ml0) i = SpIdle 0 /\ sp_out c (SpIdle ml0) = pack_quiet c false ml0.
Proof. exact zero_limit_ignored. Qed.
Print Assumptions C27_zero_limit_ignored.

(* (4) The serializer variant: same specification (ConstGen.beats with one byte per word), data taken from
       the request. *)
Theorem C27_serializer_refines : forall n dw mlw posw, ser_okb n posw = true -> forall tr,
  env_ok ss_state (ss_step n dw mlw posw) (ss_env n dw mlw posw) SsIdle tr = true ->
  run (ser_step n dw mlw posw) ser_init tr = run (ss_step n dw mlw posw) SsIdle tr.
Proof. exact ser_from_reset. Qed.
Print Assumptions C27_serializer_refines.

(* ---- sanity / non-vacuity ---- *)
(* "HELLO WORLD" on a 32-bit stream with 4 valid bits, 16-bit max_length: the configuration is well-formed *)
Definition hello := cfg_of_bytes [72;69;76;76;79;32;87;79;82;76;68] 4 false (Some 16).
Example C27_hello_ok : cfg_okb hello = true /\ c_hasml hello = true /\ c_words hello = [1280066888; 1331109967; 4475986].
Proof. vm_compute. repeat split. Qed.

(* whole constant: HELL, O WO (full), RLD (3 bytes, last); limit 6: HELL, O WO with 2 bytes, last *)
Example C27_hello_answers :
  answer hello 0 1000 = [ {| b_payload := 1280066888; b_first := true;  b_last := false; b_bytes := 4 |};
                           {| b_payload := 1331109967; b_first := false; b_last := false; b_bytes := 4 |};
                           {| b_payload := 4475986;    b_first := false; b_last := true;  b_bytes := 3 |} ] /\
  answer hello 0 6 =    [ {| b_payload := 1280066888; b_first := true;  b_last := false; b_bytes := 4 |};
                           {| b_payload := 1331109967; b_first := false; b_last := true;  b_bytes := 2 |} ] /\
  answer hello 1 2 =    [ {| b_payload := 1331109967; b_first := true;  b_last := true;  b_bytes := 2 |} ].
Proof. vm_compute. repeat split. Qed.

(* a byte-wide generator for [17;34;51] with a 3-bit max_length:
   input word = start + 2*start_position + 8*max_length + 64*ready.
   idle; start at position 1 with limit 7 (not ready); word 34 held while not ready; accepted; word 51 (last); done. *)
Definition small := cfg_of_bytes [17;34;51] 1 false (Some 3).
Definition small_trace : list N := [0; 1+2*1+8*7; 2*1+8*7; 2*1+8*7+64; 2*1+8*7+64; 2*1; 0].
Example C27_small_run :
  cfg_okb small = true /\
  env_ok sp_state (sp_step small) (sp_env small) sp_init small_trace = true /\
  run (sp_step small) sp_init small_trace =
    (* valid + 2*first + 4*last + 8*payload + 2048*done + 4096*output_length *)
    [0; 0; 1+2+8*34+4096*3; 1+2+8*34+4096*3; 1+4+8*51+4096*3; 2048+4096*3; 4096*3].
Proof. vm_compute. repeat split. Qed.
