(* C16 -- Isochronous OUT endpoints deliver only whole, CRC-valid packets.

   Objects (Model/IsoOut.v, Model/C16_OutTrack.v; transfers, is_goodf and idle_ready in Model/IsoOut_proofs.v):
     io_run mps depth (io_init depth) ins   the code-shaped model of USBIsochronousStreamOutEndpoint(max_packet_size = mps,
                                            buffer_size = depth): boundary-detector model (C28), admission latch, pointer/memory
                                            FIFO model (C18); bytes are written one by one and rolled back on a bad CRC
     is_run  mps depth is_init ins          the packet-level specification machine: collects the bytes of the packet being
                                            received, admits the packet iff mps entries are free when its first byte reaches
                                            the buffer, and appends `frame true true bytes` -- the whole payload, first on the
                                            first byte, last on the final byte -- when the packet has ended with rx_complete,
                                            addressed to the endpoint and admitted.  The stream shows the head of the queue.
     is_env_ok                              the environment assumption E0-E4 (IsoOut.v section 3), checked cycle by cycle
     transfers ins outs                     the entries handed to the consumer: cycles with stream.valid & stream.ready
     is_accepted / is_good / is_goodf       payloads of the packets accepted / of all CRC-valid addressed packets (with their
                                            admission flags), in order of arrival

   All statements hold for every max_packet_size >= 1, every buffer size and every input history of any length. *)
From Coq Require Import NArith List Bool Arith. Import ListNotations.
From LunaModel Require Import BoundaryDet TxFifo C16_OutTrack IsoOut IsoOut_proofs.
Open Scope nat_scope.

(* the model shows, cycle by cycle, stream.valid and (while valid) payload/first/last of the specification *)
Theorem C16_model_refines_spec : forall mps depth, 1 <= mps -> forall ins,
  is_env_ok mps depth is_init ins = true ->
  map io_norm (io_run mps depth (io_init depth) ins) = is_run mps depth is_init ins.
Proof. exact iso_refines. Qed.
Print Assumptions C16_model_refines_spec.

(* what the model hands to the consumer, followed by what is still queued, is exactly the concatenation of the
   complete framed payloads of the accepted packets: a packet is entirely present or entirely absent *)
Theorem C16_whole_packets : forall mps depth, 1 <= mps -> forall ins,
  is_env_ok mps depth is_init ins = true ->
  transfers ins (io_run mps depth (io_init depth) ins) ++ s_q (is_run_state mps depth is_init ins)
  = flat_map (frame true true) (is_accepted mps depth is_init ins).
Proof. exact iso_model_stream. Qed.
Print Assumptions C16_whole_packets.

(* the accepted packets are, in order, the CRC-valid addressed packets whose admission flag is set; corrupted
   packets and packets for other endpoints are not among them *)
Theorem C16_accepted_are_good_packets : forall mps depth ins,
  is_accepted mps depth is_init ins = map fst (filter snd (is_goodf mps depth is_init ins)) /\
  is_good mps depth is_init ins = map fst (is_goodf mps depth is_init ins).
Proof. intros. apply iso_accepted_good. Qed.
Print Assumptions C16_accepted_are_good_packets.

(* with no traffic and the consumer ready, the queue is handed over entry by entry, in order *)
Theorem C16_drains : forall mps depth n s, s_ph s = PIdle ->
  is_delivered mps depth s (repeat idle_ready n) = firstn n (s_q s) /\
  s_q (is_run_state mps depth s (repeat idle_ready n)) = skipn n (s_q s).
Proof. exact iso_drains. Qed.
Print Assumptions C16_drains.

(* ---- non-vacuity: max_packet_size 2, buffer 4, consumer stalled, three good 2-byte packets back to back.
   The second packet arrives when exactly 2 entries are free (the case the gateware as found truncates): it is
   delivered whole.  The third finds no room and is dropped as a whole.  Then the consumer drains the buffer. *)
Definition cy (tgt rdy v n c i : bool) (p : N) : io_in :=
  {| x_tgt := tgt; x_rdy := rdy; x_rx := {| r_valid := v; r_next := n; r_cin := c; r_iin := i; r_pay := p |} |}.
Definition pkt2 (a b : N) (good : bool) : list io_in :=
  [cy true false true true false false a; cy true false true true false false b;
   cy true false false false good (negb good) 0%N; cy true false false false false false 0%N;
   cy true false false false false false 0%N].
Definition C16_hist : list io_in :=
  pkt2 1 2 true ++ pkt2 3 4 true ++ pkt2 5 6 true ++ pkt2 7 8 false
  ++ repeat (cy false true false false false false 0%N) 6.

Example C16_hist_env : is_env_ok 2 4 is_init C16_hist = true.
Proof. reflexivity. Qed.

Example C16_hist_stream :
  transfers C16_hist (io_run 2 4 (io_init 4) C16_hist)
  = frame true true [1; 2]%N ++ frame true true [3; 4]%N
  /\ is_accepted 2 4 is_init C16_hist = [[1; 2]; [3; 4]]%N
  /\ is_good 2 4 is_init C16_hist = [[1; 2]; [3; 4]; [5; 6]]%N.
Proof. repeat split; reflexivity. Qed.

(* the specification state survives the packing used by the runtime oracle *)
Example C16_oracle_packing :
  let s := is_run_state 2 4 is_init (firstn 12 C16_hist) in is_dec 2 4 (is_enc 2 4 s) = s.
Proof. reflexivity. Qed.
