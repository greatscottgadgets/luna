(* C40 -- Each received data packet is reported good or bad exactly once.
   Model and specification: LunaModel.DataRx (DataPacketReceiver of luna/gateware/usb/usb3/link/data.py).

   Reading guide.  One list element = one clock cycle of the `ss` domain; an input word packs sink.data (32),
   sink.ctrl (4), sink.valid (1).  `drx_model_events lw ins` are the observable events of the module model over
   the history `ins` (payload beats with their valid bytes, first/last and the presented header; Report hdr true =
   packet_good, Report hdr false = packet_bad), with the real CRC units and a `lw`-bit data_bytes_remaining counter
   (LUNA: lw = 11).  `drx_vwords ins` keeps only the VALID input words.  `sp_run crc16_hdr crc32_usb lw SIdle` is the
   specification: a parser over valid words that accumulates the words of the packet in progress and decides on the
   accumulated lists with the reference CRCs of Model/Crc.v (see the comment above `drx_sp` in Model/DataRx.v).

   A "data packet" is what the parser recognises: HPSTART, a header whose dw0 has type DATA and whose CRC-16 and
   CRC-5 are right, DPPSTART, then sp_nwords L payload words and the word completing the CRC-32
   (L = dw1[16:16+lw], the data length).  A header with a wrong CRC is not followed by any report (C40_bad_header).

   The model is the PROPERTY-SATISFYING behaviour; the code before db83248 differs from it (see findings/C40-...). *)
From Coq Require Import NArith List Bool. Import ListNotations.
From LunaLib Require Import Netlist Machine.
From LunaModel Require Import Crc DataRx DataRx_proofs.
Open Scope N_scope.

(* (1) For every input history the events of the module are exactly the events of the specification run over the
   valid words: idle (not-valid) words, wherever they are inserted, change nothing. *)
Theorem C40_events_are_spec : forall lw ins,
  drx_model_events lw ins = sp_run crc16_hdr crc32_usb lw SIdle (drx_vwords ins).
Proof. exact drx_real_events. Qed.
Print Assumptions C40_events_are_spec.

Theorem C40_idle_words_do_not_matter : forall lw ins ins',
  drx_vwords ins = drx_vwords ins' -> drx_model_events lw ins = drx_model_events lw ins'.
Proof. exact drx_idle_independent. Qed.
Print Assumptions C40_idle_words_do_not_matter.

(* (2) Every data packet -- after any earlier traffic `pre` that leaves the parser idle, before any later traffic
   `rest`, with idle words anywhere -- produces its payload beats and then EXACTLY ONE report, which is `good` iff the
   CRC-32 of the L payload bytes equals the 4 bytes that follow them (header CRCs are a hypothesis here: (5)). *)
Theorem C40_packet_reported_once : forall lw ins pre d0 c0 d1 c1 d2 c2 d3 c3 pay cw rest,
  let ws := [d0; d1; d2; d3] in
  drx_vwords ins
    = pre ++ (DRX_HPSTART, 15) :: (d0, c0) :: (d1, c1) :: (d2, c2) :: (d3, c3) :: (DRX_DPPSTART, 15) :: pay ++ cw :: rest ->
  sp_state_after crc16_hdr crc32_usb lw SIdle pre = SIdle ->
  bits d0 0 5 = DRX_TYPE_DATA -> sp_hdr_ok crc16_hdr ws = true ->
  N.of_nat (length pay) = sp_nwords (sp_len lw ws) -> sp_clean lw ws 0 pay = true ->
  drx_model_events lw ins
  = sp_run crc16_hdr crc32_usb lw SIdle pre
    ++ sp_beats lw ws 0 pay
    ++ Report (sp_hdr ws) (sp_verdict crc32_usb lw ws (pay ++ [cw]))
    :: sp_run crc16_hdr crc32_usb lw SIdle rest.
Proof. exact drx_packet_reported_once. Qed.
Print Assumptions C40_packet_reported_once.

(* (3) the beats of a packet contain no report and carry exactly the data-length bytes: the first L bytes of the
   words after DPPSTART (L = the data length field, truncated to the lw-bit counter: for lw = 11 every legal
   length 0..1024 is below 2^lw) *)
Theorem C40_beats_carry_no_report : forall lw ws pay k, existsb drx_is_report (sp_beats lw ws k pay) = false.
Proof. exact drx_beats_no_report. Qed.
Print Assumptions C40_beats_carry_no_report.

Theorem C40_payload_is_data_length_bytes : forall lw ws pay,
  N.of_nat (length pay) = sp_nwords (sp_len lw ws) ->
  flat_map drx_beat_bytes (sp_beats lw ws 0 pay) = firstn (N.to_nat (sp_len lw ws)) (sp_pbytes pay) /\
  length (flat_map drx_beat_bytes (sp_beats lw ws 0 pay)) = N.to_nat (sp_len lw ws).
Proof.
  intros lw ws pay H. split.
  - rewrite drx_beats_bytes. rewrite N.mul_0_r, N.sub_0_r. reflexivity.
  - apply sp_payload_length. exact H.
Qed.
Print Assumptions C40_payload_is_data_length_bytes.

(* (4) a ctrl symbol on a payload byte (payload word number |acc|+|pay|): beats up to and including that word, one
   `bad`, and the parser is idle again (specification level; (1) transfers it to the module) *)
Theorem C40_ctrl_symbol_in_payload : forall lw ws pay w rest acc,
  sp_clean lw ws (N.of_nat (length acc)) pay = true ->
  (forall j, (j <= length pay)%nat -> sp_more (sp_len lw ws) (N.of_nat (length acc + j)) = true) ->
  N.land (snd w) (N.ones (N.min (sp_len lw ws - 4 * N.of_nat (length acc + length pay)) 4)) <> 0 ->
  sp_run crc16_hdr crc32_usb lw (SPay ws acc) (pay ++ w :: rest)
  = sp_beats lw ws (N.of_nat (length acc)) (pay ++ [w]) ++ Report (sp_hdr ws) false :: sp_run crc16_hdr crc32_usb lw SIdle rest.
Proof. exact (sp_ctrl_error crc16_hdr crc32_usb). Qed.
Print Assumptions C40_ctrl_symbol_in_payload.

(* (5) a data header with a wrong CRC-16 or CRC-5: no event at all for it (in particular never `good`); the word
   after it is consumed and the parser is idle again *)
Theorem C40_bad_header : forall lw d0 c0 d1 c1 d2 c2 d3 c3 x rest,
  bits d0 0 5 = DRX_TYPE_DATA -> sp_hdr_ok crc16_hdr [d0; d1; d2; d3] = false ->
  sp_run crc16_hdr crc32_usb lw SIdle ((DRX_HPSTART, 15) :: (d0, c0) :: (d1, c1) :: (d2, c2) :: (d3, c3) :: x :: rest)
  = sp_run crc16_hdr crc32_usb lw SIdle rest.
Proof. exact (sp_bad_header crc16_hdr crc32_usb). Qed.
Print Assumptions C40_bad_header.

(* ---- non-vacuity: two of the recorded packets of tests/test_usb3_data.py (1 byte unaligned, 8 bytes aligned) and a
   made-up zero-length packet, with idle words inserted *)
Definition C40_w (d c : N) : N := d + N.shiftl c 32 + N.shiftl 1 36.
Definition C40_idle : N := 305419896.     (* valid = 0, garbage data *)

(* 1-byte packet (unaligned): header 0x32000008 0x00010000 0x08000000 0xE801A822, payload FF, idle words everywhere *)
Example C40_recorded_1B :
  drx_model_events 11
    [C40_w 4160486395 15; C40_idle; C40_w 838860808 0; C40_w 65536 0; C40_idle; C40_w 134217728 0; C40_w 3892422690 0;
     C40_idle; C40_w 4150025308 15; C40_idle; C40_w 255 0; C40_idle; C40_idle; C40_w 4261281279 14; C40_w 247 1; C40_idle]
  = [Beat (sp_hdr [838860808; 65536; 134217728; 3892422690]) [255] true true;
     Report (sp_hdr [838860808; 65536; 134217728; 3892422690]) true].
Proof. vm_compute. reflexivity. Qed.

(* aligned 8-byte packet followed by back-to-back traffic; hypotheses of C40_packet_reported_once hold for it *)
Example C40_recorded_8B_hyps :
  let ws := [8; 557056; 134217728; 2818719247] in
  bits 8 0 5 = DRX_TYPE_DATA /\ sp_hdr_ok crc16_hdr ws = true /\ sp_len 11 ws = 8 /\ sp_nwords (sp_len 11 ws) = 2 /\
  sp_clean 11 ws 0 [(1967360, 0); (0, 0)] = true /\
  sp_verdict crc32_usb 11 ws [(1967360, 0); (0, 0); (247894821, 0)] = true /\
  sp_verdict crc32_usb 11 ws [(1967360, 0); (0, 0); (247894820, 0)] = false.
Proof. vm_compute. repeat split; reflexivity. Qed.

(* empty payload: the CRC word is checked (finding (d)), here it is wrong: one report, bad *)
Example C40_zlp_bad_crc :
  drx_model_events 11
    [C40_w 4160486395 15; C40_w 8 0; C40_w 0 0; C40_w 0 0; C40_w 268461230 0; C40_w 4150025308 15; C40_w 305419896 0;
     C40_w 4160617981 15; C40_idle; C40_idle]
  = [Report (sp_hdr [8; 0; 0; 268461230]) false].
Proof. vm_compute. reflexivity. Qed.
