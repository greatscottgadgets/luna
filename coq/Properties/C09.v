(* C09 -- GET_DESCRIPTOR returns exactly the requested descriptor bytes.

   Reading guide (definitions in Model/DescSpec.v, DescRom.v, DescBlock.v, DescDist.v, DescMux.v; stage_ok, bytes_ok,
   didx_val, dist_okb and disjointb in the _proofs.v files beside them):
     dcoll                 a descriptor collection: type |-> (index |-> bytes), keys ascending
     find_desc c ty ix     the descriptor (type ty, index ix) of c, if any
     respond c mps value wLength sp
                           what ONE IN transaction started at offset sp must carry: STALL if the collection has no
                           descriptor (type = value[15:8], index = value[7:0]); else the bytes
                           desc[sp .. sp + min(mps, wLength - sp)) clipped at the descriptor's end ([] = zero-length packet)
     data_stage fuel resp mps wLength 0 0
                           what the host receives: it reads at offsets 0, mps, 2 mps, ... (11-bit start_position register,
                           + max_packet_size per ACK) until a packet shorter than mps, wLength bytes, or a STALL
     stage_ok d mps wLength pkts
                           pkts concatenated = the first min(wLength, len d) bytes of d; every packet <= mps; all but the
                           last are full and together shorter than wLength; the last is short or completes wLength
     s_step resp lat       the cycle-level specification machine at the handler's ports (idle until `start`; after an
                           implementation-defined latency `lat` either a one-cycle stall pulse, or a one-cycle zero-length
                           packet pulse valid & last & ~first, or the bytes one per beat, each held until tx.ready, `first`
                           on the first and `last` on the last); s_env (req_legal c) is the environment assumption:
                           one request at a time, value/length/start_position held and start low until the answer is
                           complete, start_position < wLength and <= len(descriptor)
     rom_of c, block_cfg   the ROM image / configuration GetDescriptorHandlerBlock builds from c (Gallina
                           re-implementation of generate_rom_content, compared with the Python on every run)
     bk_step               code-shaped model of GetDescriptorHandlerBlock;  ds_step: of GetDescriptorHandlerDistributed
                           (a bank of ConstGen.cg_step generators) with the zero-length-packet fix 9ef863f
                           (findings/C09-dist-zlp.diff)
     coll_okb / dist_okb   well-formed collections (types, indexes, bytes < 256; <= 255 indexes per type; image < 64 KiB)
                           / all descriptors non-empty and shorter than 2048 bytes *)
From Coq Require Import NArith List Bool. Import ListNotations.
From LunaLib Require Import Netlist Machine.
From LunaModel Require Import ConstGen DescSpec DescSpec_proofs DescRom DescRom_proofs DescCommon DescBlock DescBlock_proofs
                              DescDist DescDist_proofs DescMux DescMux_proofs.
Open Scope N_scope.

(* (1) Protocol level.  A host reading a present descriptor in max-packet-size pieces from a responder that answers
       every IN transaction as `respond` says receives exactly the first min(wLength, len) bytes, in full packets
       followed by one short packet; nothing is STALLed. *)
Theorem C09_data_stage : forall c mps value wlen d,
  find_desc c (v_type value) (v_index value) = Some d -> 1 <= mps -> 1 <= wlen -> nlen d < 2048 ->
  exists pkts, data_stage (S (length d)) (respond c mps value wlen) mps wlen 0 0 = (pkts, false) /\ stage_ok d mps wlen pkts.
Proof. exact data_stage_respond. Qed.
Print Assumptions C09_data_stage.

(* (1b) ... and the stage ends with a zero-length packet exactly when the total is a multiple of the packet size below
        wLength (otherwise with a non-empty short packet, or with the packet that completes wLength). *)
Theorem C09_zlp_rule : forall d mps wlen pkts, 1 <= mps -> stage_ok d mps wlen pkts ->
  forall init lastp, pkts = init ++ [lastp] ->
  (lastp = [] <-> nlen (concat pkts) mod mps = 0 /\ nlen (concat pkts) < wlen).
Proof. exact stage_zlp_rule. Qed.
Print Assumptions C09_zlp_rule.

(* (1c) A request for a descriptor that does not exist is STALLed without data. *)
Theorem C09_absent_stalled : forall c mps value wlen fuel,
  find_desc c (v_type value) (v_index value) = None ->
  data_stage (S fuel) (respond c mps value wlen) mps wlen 0 0 = ([], true).
Proof. intros c mps value wlen fuel H. cbn [data_stage]. unfold respond. rewrite H. reflexivity. Qed.
Print Assumptions C09_absent_stalled.

(* (1d) Every offset such a host makes the device use is below wLength and within the descriptor: the handler-level
        environment assumption req_legal is what the protocol provides. *)
Theorem C09_offsets_legal : forall c mps value wlen d fuel,
  find_desc c (v_type value) (v_index value) = Some d -> 1 <= mps -> 1 <= wlen -> nlen d < 2048 ->
  Forall (fun o => o < wlen /\ o <= nlen d) (offsets fuel (respond c mps value wlen) mps wlen 0 0).
Proof. exact offsets_respond_legal. Qed.
Print Assumptions C09_offsets_legal.

(* (2) The block-ROM handler, configured from ANY well-formed collection (ROM image rom_of c, address/position widths,
       index map) and any packet size, is cycle-for-cycle equal to the specification machine on every legal request
       history of any length: it answers each request with exactly `respond`'s bytes / ZLP / STALL. *)
Theorem C09_block_handler : forall c mps, coll_okb c = true -> 1 <= mps /\ mps < 65536 -> forall tr,
  env_ok sstate (s_step (resp_of c mps) (bk_lat c)) (s_env (req_legal c)) SIdle tr = true ->
  run (bk_step (block_cfg c mps)) bk_init tr = run (s_step (resp_of c mps) (bk_lat c)) SIdle tr.
Proof. exact block_refines. Qed.
Print Assumptions C09_block_handler.

(* (2b) The layout facts behind (2): walking rom_of c the way the gateware does finds the descriptor find_desc names
        (its length, and every byte of it), and reports every other (type, index) as absent. *)
Theorem C09_rom_walk_present : forall c value d, coll_okb c = true -> value < 65536 ->
  find_desc c (v_type value) (v_index value) = Some d ->
  exists n A B,
    v_type value <= max_type c /\
    rom_read (rom_of c) (v_type value) = entry n (4 * A) /\ n < 65536 /\ 4 * A < 65536 /\
    didx_val c value < n /\ A + didx_val c value < nlen (rom_of c) /\
    rom_read (rom_of c) (A + didx_val c value) = entry (nlen d) (4 * B) /\ nlen d < 65536 /\ 4 * B < 65536 /\
    nlen d <= max_desc_len c /\
    (forall k, k < nlen d -> B + k / 4 < nlen (rom_of c) /\
                             byte_lane (rom_read (rom_of c) (B + k / 4)) (k mod 4) = nth (N.to_nat k) d 0).
Proof. intros c value d H. apply walk_present. apply coll_ok_facts. exact H. Qed.
Print Assumptions C09_rom_walk_present.

Theorem C09_rom_walk_absent : forall c value, coll_okb c = true -> value < 65536 -> v_type value <= max_type c ->
  find_desc c (v_type value) (v_index value) = None ->
  e_hi (rom_read (rom_of c) (v_type value)) <= didx_val c value.
Proof. intros c value H. apply walk_absent. apply coll_ok_facts. exact H. Qed.
Print Assumptions C09_rom_walk_absent.

(* (3) The block-RAM-free handler -- as of 9ef863f; the code before it violates the property, see
       findings/C09-dist-zlp -- is likewise equal to the specification machine, for every well-formed collection of
       non-empty descriptors; and legal histories satisfy the model-level assumption ds_env of the netlist tie. *)
Theorem C09_distributed_handler : forall c mps, coll_okb c = true -> dist_okb c = true -> 1 <= mps /\ mps < 65536 -> forall tr,
  env_ok sstate (s_step (resp_of c mps) (ds_lat c)) (s_env (req_legal c)) SIdle tr = true ->
  run (ds_step (dist_gens c) mps) (ds_init (dist_gens c)) tr = run (s_step (resp_of c mps) (ds_lat c)) SIdle tr /\
  env_ok ds_state (ds_step (dist_gens c) mps) (ds_env (dist_gens c) mps) (ds_init (dist_gens c)) tr = true.
Proof. exact dist_refines. Qed.
Print Assumptions C09_distributed_handler.

(* (4) GetDescriptorHandlerMux (block-ROM handler for the fixed descriptors cF + distributed handler for the runtime
       descriptors cR, disjoint (type, index) keys; stall latches as of 6bfe03c, findings/C09-mux-stall-latch.diff) is
       cycle-for-cycle the specification machine of the UNION collection (resp_mux / legal_mux; C09_mux_union): every
       request for an existing descriptor is answered with its bytes by exactly one handler and never STALLed, whatever
       the previous request was; a request for an absent descriptor gets one stall pulse and no data.  Hypotheses: the
       history is legal for the union specification and for the two handlers' own specification machines (a new request
       only once both handlers are idle -- the ROM handler needs up to two cycles to stall a request that is not its own). *)
Theorem C09_mux_handler : forall cF cR mps, coll_okb cF = true -> coll_okb cR = true -> dist_okb cR = true ->
  disjointb cF cR = true -> 1 <= mps /\ mps < 65536 -> forall tr,
  env_ok sstate (s_step (resp_mux cF cR mps) (mx_lat cF cR)) (s_env (legal_mux cF cR)) SIdle tr = true ->
  env_ok sstate (s_step (resp_of cF mps) (bk_lat cF)) (s_env (req_legal cF)) SIdle tr = true ->
  env_ok sstate (s_step (resp_of cR mps) (ds_lat cR)) (s_env (req_legal cR)) SIdle tr = true ->
  let c := {| x_fixed := cF; x_runtime := cR; x_mps := mps |} in
  run (mxm_step c) (mxm_init c) tr = run (s_step (resp_mux cF cR mps) (mx_lat cF cR)) SIdle tr.
Proof. exact mux_refines. Qed.
Print Assumptions C09_mux_handler.

Theorem C09_mux_union : forall cF cR cU mps, (forall ty ix, find_desc cU ty ix = find2 cF cR ty ix) ->
  forall q, resp_mux cF cR mps q = resp_of cU mps q /\ legal_mux cF cR q = req_legal cU q.
Proof. exact resp_mux_union. Qed.
Print Assumptions C09_mux_union.

(* the same statement one level up: the mux over the two handlers' specification machines *)
Theorem C09_mux_of_specs : forall cF cR mps, disjoint_keys cF cR ->
  (forall ty ix d, find_desc cF ty ix = Some d -> bytes_ok d) -> (forall ty ix d, find_desc cR ty ix = Some d -> bytes_ok d) ->
  forall tr,
  env_ok sstate (s_step (resp_mux cF cR mps) (mx_lat cF cR)) (s_env (legal_mux cF cR)) SIdle tr = true ->
  env_ok sstate (s_step (resp_of cF mps) (bk_lat cF)) (s_env (req_legal cF)) SIdle tr = true ->
  env_ok sstate (s_step (resp_of cR mps) (ds_lat cR)) (s_env (req_legal cR)) SIdle tr = true ->
  run (mx_step (s_step (resp_of cF mps) (bk_lat cF)) (s_step (resp_of cR mps) (ds_lat cR))) (SIdle, SIdle, (false, false)) tr
  = run (s_step (resp_mux cF cR mps) (mx_lat cF cR)) SIdle tr.
Proof.
  intros cF cR mps Hd HF HR tr EU EB ED. apply (mux_spec_from cF cR mps Hd HF HR); try exact I; try assumption.
  left. repeat split; try reflexivity.
Qed.
Print Assumptions C09_mux_of_specs.

(* ---- sanity / non-vacuity ---- *)
Definition ex_coll : dcoll := coll_of_triples [(1, 0, [5; 1; 7; 8; 9]); (3, 2, [8; 3; 1; 2; 3; 4; 5; 6]); (3, 0, [4; 3; 9; 4])].

Example C09_ex_ok : coll_okb ex_coll = true /\ dist_okb ex_coll = true /\
  rom_of ex_coll = [0; 65552; 0; 131092; 327708; 262180; 524328; 83953416; 150994944; 67307780; 134414594; 50595078] /\
  index_map ex_coll = [(256, 0); (768, 0); (770, 1)].
Proof. vm_compute. repeat split. Qed.

(* the 8-byte string descriptor (type 3, index 2) read with wLength 255 in 4-byte packets: two full packets and a ZLP;
   with wLength 8: two full packets, no ZLP; the 5-byte device descriptor: a full and a 1-byte packet; absent: STALL *)
Example C09_ex_stages :
  data_stage 20 (respond ex_coll 4 770 255) 4 255 0 0 = ([[8; 3; 1; 2]; [3; 4; 5; 6]; []], false) /\
  data_stage 20 (respond ex_coll 4 770 8) 4 8 0 0 = ([[8; 3; 1; 2]; [3; 4; 5; 6]], false) /\
  data_stage 20 (respond ex_coll 4 256 255) 4 255 0 0 = ([[5; 1; 7; 8]; [9]], false) /\
  data_stage 20 (respond ex_coll 4 769 255) 4 255 0 0 = ([], true).
Proof. vm_compute. repeat split. Qed.

(* a legal cycle-level history for the block handler: request (value 0x0100, wLength 255, offset 4) -> the 1-byte
   second packet after 4 silent cycles; then request offset 8 of the 8-byte string descriptor -> ZLP pulse *)
Definition ex_trace : list N :=
  [mk_in 256 255 true 4 false; mk_in 256 255 false 4 false; mk_in 256 255 false 4 false; mk_in 256 255 false 4 false;
   mk_in 256 255 false 4 false; mk_in 256 255 false 4 true; 0;
   mk_in 770 255 true 8 true; mk_in 770 255 false 8 true; mk_in 770 255 false 8 true; mk_in 770 255 false 8 true;
   mk_in 770 255 false 8 true; 0].
Example C09_ex_run :
  env_ok sstate (s_step (resp_of ex_coll 4) (bk_lat ex_coll)) (s_env (req_legal ex_coll)) SIdle ex_trace = true /\
  run (s_step (resp_of ex_coll 4) (bk_lat ex_coll)) SIdle ex_trace =
    [0; 0; 0; 0; o_beat 9 true true; o_beat 9 true true; 0; 0; 0; 0; 0; o_zlp; 0] /\
  run (bk_step (block_cfg ex_coll 4)) bk_init ex_trace = run (s_step (resp_of ex_coll 4) (bk_lat ex_coll)) SIdle ex_trace /\
  env_ok sstate (s_step (resp_of ex_coll 4) (ds_lat ex_coll)) (s_env (req_legal ex_coll)) SIdle ex_trace = true /\
  run (ds_step (dist_gens ex_coll) 4) (ds_init (dist_gens ex_coll)) ex_trace =
    [0; 0; o_beat 9 true true; o_beat 9 true true; o_beat 9 true true; o_beat 9 true true; 0; 0; o_zlp; 0; 0; 0; 0].
Proof. vm_compute. repeat split. Qed.

(* the sequence that the mux before 6bfe03c gets wrong (findings/C09-mux-stall-latch.json): a runtime descriptor (type 3,
   index 2, 8 bytes, behind the distributed handler), then a ROM descriptor (type 1, index 0): no stall in the second
   request's start cycle, the ROM descriptor's bytes follow *)
Definition ex_mux : mux_cfg := {| x_fixed := coll_of_triples [(1, 0, [5; 1; 7; 8; 9]); (3, 0, [6; 3; 9; 4; 7; 4])];
                                  x_runtime := coll_of_triples [(3, 2, [8; 3; 1; 2; 3; 4; 5; 6])]; x_mps := 4 |}.
Definition ex_mux_trace : list N :=
  [mk_in 770 255 true 4 true; mk_in 770 255 false 4 true; mk_in 770 255 false 4 true; mk_in 770 255 false 4 true;
   mk_in 770 255 false 4 true; mk_in 770 255 false 4 true; mk_in 770 255 false 4 true; 0;
   mk_in 256 2 true 0 true; mk_in 256 2 false 0 true; mk_in 256 2 false 0 true; mk_in 256 2 false 0 true;
   mk_in 256 2 false 0 true; mk_in 256 2 false 0 true; 0].
Example C09_ex_mux_run :
  coll_okb (x_fixed ex_mux) = true /\ coll_okb (x_runtime ex_mux) = true /\ dist_okb (x_runtime ex_mux) = true /\
  disjointb (x_fixed ex_mux) (x_runtime ex_mux) = true /\
  env_ok sstate (s_step (resp_mux (x_fixed ex_mux) (x_runtime ex_mux) 4) (mx_lat (x_fixed ex_mux) (x_runtime ex_mux)))
         (s_env (legal_mux (x_fixed ex_mux) (x_runtime ex_mux))) SIdle ex_mux_trace = true /\
  env_ok sstate (s_step (resp_of (x_fixed ex_mux) 4) (bk_lat (x_fixed ex_mux))) (s_env (req_legal (x_fixed ex_mux))) SIdle ex_mux_trace = true /\
  env_ok sstate (s_step (resp_of (x_runtime ex_mux) 4) (ds_lat (x_runtime ex_mux))) (s_env (req_legal (x_runtime ex_mux))) SIdle ex_mux_trace = true /\
  run (mxm_step ex_mux) (mxm_init ex_mux) ex_mux_trace =
    [0; 0; o_beat 3 true false; o_beat 4 false false; o_beat 5 false false; o_beat 6 false true; 0; 0;
     0; 0; 0; 0; o_beat 5 true false; o_beat 1 false true; 0].
Proof. vm_compute. repeat split. Qed.
