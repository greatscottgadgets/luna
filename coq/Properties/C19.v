(* C19 -- USB2 reset, high-speed handshake and suspend follow the line-state timing rules.

   Statements about the model of USBResetSequencer (Model/ResetSeq.v), for EVERY choice of the six cycle
   constants (with the stated orderings), every input history (line states, VBUS, soft disconnect, speed
   restrictions, bus_busy) of any length.  `always R [] l` says: rule R holds in every cycle of the run l, given
   all the cycles before it (most recent first).  The rules (Model/ResetSeq.v, Section Spec):

   rule_reset     bus_reset => VBUS absent, or SE0 for the last c_2p5us cycles (while suspended) / c_5us cycles
                  (active, not suspended), or -- coming from HS -- c_3ms cycles of SE0 in HS operation, then a
                  line state other than J c_200us+1 cycles after reverting to FS;
   rule_suspend   suspended rises only after c_3ms cycles of continuous idle (idle relative to current_speed; from
                  HS: c_3ms cycles of HS idle, then J c_200us+1 cycles later);
   rule_hs_entry  HS operation (speed HIGH, normal op-mode, HS termination) begins only when the history contains a
                  bus reset reported while unrestricted, followed without leaving chirp mode by the device's chirp
                  K and then six line states K,J,K,J,K,J each >= c_2p5us cycles (hsk 6), or on a resume from a
                  suspend that was entered from HS operation (sfh);
   rule_start     chirp mode (the handshake) begins only two cycles after a bus_reset reported while neither
                  low_speed_only nor full_speed_only was set;
   rule_leave     HS operation and a speed restriction in cycle t => no HS operation in cycle t+2;
   rule_exit      chirp mode ends either in HS operation or in FS/LS operation (FS/LS transceiver, pull-up);
   rule_timeout   chirp mode lasts at most c_2p5ms + 2 cycles after the end of the device chirp.

   The code before 84ee690, cbf8d5f and 9979120 violates rule_start, rule_hs_entry and rule_timeout
   (findings/C19-*.diff); the model is the repaired behaviour and is tied to the netlist by props/C19.py. *)
From Coq Require Import NArith List Bool Lia. Import ListNotations.
From LunaLib Require Import Machine.
From LunaModel Require Import ResetSeq ResetSeq_proofs.
Open Scope N_scope.

Theorem C19_rules : forall K, c_200us K <= c_3ms K -> c_2p5ms K <= c_3ms K ->
  forall ins, always (rule_all K) [] (rs_trace K rs_init ins).
Proof. exact rs_all. Qed.
Print Assumptions C19_rules.

(* all rules except the time-out bound need only c_200us <= c_3ms *)
Theorem C19_safety_rules : forall K, c_200us K <= c_3ms K ->
  forall ins, always (rule_safe K) [] (rs_trace K rs_init ins).
Proof. exact rs_safe. Qed.
Print Assumptions C19_safety_rules.

(* the constants of the 60 MHz design *)
Theorem C19_rules_60MHz : forall ins, always (rule_all K_60MHz) [] (rs_trace K_60MHz rs_init ins).
Proof. apply rs_all; vm_compute; discriminate. Qed.
Print Assumptions C19_rules_60MHz.

(* the packed machine used in the lock-step ties is the typed run, cycle by cycle *)
Theorem C19_packed_run : forall K tr,
  run (rs_step K) rs_init tr = map (fun c => pack_out (c_out c)) (rs_trace K rs_init (map decode_in tr)).
Proof. intros. apply rs_run_trace. Qed.
Print Assumptions C19_packed_run.

(* the runtime oracle evaluated by the check over simulator traces is sound for the rules *)
Theorem C19_oracle_sound : forall K past c, rule_all_b K past c = true -> rule_all K past c.
Proof. exact rule_all_b_sound. Qed.
Print Assumptions C19_oracle_sound.

(* the specification table: cycle counts at 60 MHz (60 cycles per microsecond) *)
Example C19_table_60MHz :
  2 * c_2p5us K_60MHz = 5 * 60 /\ c_5us K_60MHz = 5 * 60 /\ c_200us K_60MHz = 200 * 60
  /\ c_2ms K_60MHz = 2000 * 60 /\ 2 * c_2p5ms K_60MHz = 5000 * 60 /\ c_3ms K_60MHz = 3000 * 60.
Proof. vm_compute. repeat split. Qed.

(* non-vacuity: with constants (2,3,2,3,30,40) a 5-cycle SE0 gives a bus reset, the device chirps, three K-J
   pairs of 4 cycles each bring it to HS operation (output word 0), 41 cycles of SE0 and a J make it suspend
   (words 70), a K resumes it into HS operation.
   output word = bus_reset + 2 suspended + 4 speed + 16 op_mode + 64 termination + 128 tx_valid *)
Definition C19_Ks : rs_consts :=
  {| c_2p5us := 2; c_5us := 3; c_200us := 2; c_2ms := 3; c_2p5ms := 30; c_3ms := 40 |}.
Definition C19_inp (l : line_t) : rs_in :=
  {| i_ls := false; i_fs := false; i_busy := false; i_vbus := true; i_line := l; i_disc := false |}.
Definition C19_rep (n : nat) (l : line_t) := repeat (C19_inp l) n.
Example C19_example :
  map (fun c => pack_out (c_out c))
      (rs_trace C19_Ks rs_init
         (C19_rep 2 L_J ++ C19_rep 11 L_SE0
          ++ C19_rep 4 L_K ++ C19_rep 4 L_J ++ C19_rep 4 L_K ++ C19_rep 4 L_J ++ C19_rep 4 L_K ++ C19_rep 4 L_J
          ++ C19_rep 44 L_SE0 ++ C19_rep 2 L_J ++ C19_rep 2 L_K ++ C19_rep 4 L_SE0))
  = [68; 68; 68; 68; 68; 69; 68; 96; 96; 224; 224] ++ repeat 96 27 ++ repeat 0 41
    ++ [68; 68; 68; 70; 70; 68; 0; 0; 0; 0].
Proof. vm_compute. reflexivity. Qed.

(* a single K followed by three J (two of them interrupted right when they become valid) does NOT reach HS in the
   model (the code before cbf8d5f does: finding D3) *)
Example C19_example_one_K_three_J :
  existsb (fun c => hs_op c)
      (rs_trace C19_Ks rs_init
         (C19_rep 2 L_J ++ C19_rep 10 L_SE0 ++ C19_rep 4 L_K
          ++ C19_rep 3 L_J ++ C19_rep 1 L_SE0 ++ C19_rep 3 L_J ++ C19_rep 1 L_SE0 ++ C19_rep 5 L_J
          ++ C19_rep 4 L_SE0)) = false.
Proof. vm_compute. reflexivity. Qed.
